(* C09 support library: Python list/bytearray/struct operations used by the code
   regenerated into Gen/C09_*.v (translator/pylite_c09.py), with their basic lemmas. *)
From Coq Require Import ZArith List Bool Lia.
From TV Require Import Base.Prelude Base.PreludeFacts.
Import ListNotations.
Open Scope Z_scope.

(* exception classes beyond Prelude.exn, as OtherExn codes *)
Definition StructError : exn := OtherExn 1.
Definition OverflowError : exn := OtherExn 2.
Definition NotImplementedError : exn := OtherExn 3.

(* ---- range(a, b, s), s <> 0 ------------------------------------------------- *)
Definition py_range (a b s : Z) : list Z :=
  if 0 <? s
  then map (fun k => a + s * Z.of_nat k) (seq 0 (Z.to_nat ((b - a + s - 1) / s)))
  else map (fun k => a + s * Z.of_nat k) (seq 0 (Z.to_nat ((a - b + (- s) - 1) / (- s)))).

(* ---- x[i] = v --------------------------------------------------------------- *)
Fixpoint set_nth {A} (l : list A) (n : nat) (v : A) : list A :=
  match l, n with
  | [], _ => []
  | _ :: xs, O => v :: xs
  | x :: xs, S k => x :: set_nth xs k v
  end.

Definition py_store {A} (l : list A) (i : Z) (v : A) : res (list A) :=
  let n := zlen l in
  let j := if i <? 0 then i + n else i in
  if (0 <=? j) && (j <? n) then Ok (set_nth l (Z.to_nat j) v) else Err IndexError.

(* bytearray element store: the value must be a byte *)
Definition py_store_b (l : list Z) (i : Z) (v : Z) : res (list Z) :=
  if is_byte v then py_store l i v else Err ValueError.

(* x[lo:hi] = v  (step 1; may change the length, like Python) *)
Definition py_slice_assign {A} (l : list A) (lo hi : option Z) (v : list A) : list A :=
  let n := zlen l in
  let a := match lo with None => 0 | Some x => clamp_bound n x end in
  let b := match hi with None => n | Some x => clamp_bound n x end in
  let b := if b <? a then a else b in
  firstn (Z.to_nat a) l ++ v ++ skipn (Z.to_nat b) l.

(* bytearray(iterable of ints) *)
Definition mk_bytes (l : list Z) : res (list Z) :=
  if all_bytes l then Ok l else Err ValueError.

(* bytearray(n) *)
Definition py_zeros (n : Z) : res (list Z) :=
  if n <? 0 then Err ValueError else Ok (repeat 0 (Z.to_nat n)).

(* l * n *)
Definition py_repeat {A} (l : list A) (n : Z) : list A := List.concat (repeat l (Z.to_nat n)).

Definition py_enumerate {A} (l : list A) : list (Z * A) := combine (zrange 0 (zlen l)) l.

Fixpoint mapM {A B} (f : A -> res B) (l : list A) : res (list B) :=
  match l with
  | [] => Ok []
  | x :: xs => y <- f x ;; ys <- mapM f xs ;; Ok (y :: ys)
  end.

Definition py_divmod (a b : Z) : res (Z * Z) :=
  if b =? 0 then Err ZeroDivisionError else Ok (a / b, a mod b).

(* ---- while loops: explicit fuel, OutOfFuel when exhausted ------------------- *)
Fixpoint while_fuel {S} (fuel : nat) (cond : S -> bool) (body : S -> res S) (s : S) : res S :=
  match fuel with
  | O => Err OutOfFuel
  | Datatypes.S f => if cond s then s' <- body s ;; while_fuel f cond body s' else Ok s
  end.

(* ---- little/big endian numbers ---------------------------------------------- *)
Fixpoint le_num (l : list Z) : Z :=
  match l with [] => 0 | x :: xs => x + 256 * le_num xs end.

Fixpoint le_bytes (n : nat) (v : Z) : list Z :=
  match n with O => [] | S k => (v mod 256) :: le_bytes k (v / 256) end.

Definition be_num (l : list Z) : Z := le_num (rev l).
Definition be_bytes (n : nat) (v : Z) : list Z := rev (le_bytes n v).

(* struct.pack('<L'*n, *ws): struct.error unless exactly n words, all in 0..2^32-1 *)
Definition is_u32 (x : Z) : bool := (0 <=? x) && (x <? 4294967296).
Definition pack_le32s (n : Z) (ws : list Z) : res (list Z) :=
  if (zlen ws =? n) && forallb is_u32 ws then Ok (flat_map (le_bytes 4) ws) else Err StructError.
(* struct.unpack('<L', b)[0] *)
Definition unpack_le32 (b : list Z) : res Z :=
  if zlen b =? 4 then Ok (le_num b) else Err StructError.
(* struct.pack('<Q', n) *)
Definition pack_le64 (n : Z) : res (list Z) :=
  if (0 <=? n) && (n <? 18446744073709551616) then Ok (le_bytes 8 n) else Err StructError.

(* cryptomath.bytesToNumber(b) (big endian) and numberToByteArray(n, k) for n >= 0:
   the k low-order bytes of n, big endian (int.to_bytes after the explicit truncation) *)
Definition bytesToNumber (b : list Z) : Z := be_num b.
Definition numberToByteArray (n k : Z) : list Z := be_bytes (Z.to_nat k) n.

(* truthiness *)
Definition z_true (x : Z) : bool := negb (x =? 0).
Definition l_true {A} (l : list A) : bool := match l with [] => false | _ => true end.

Definition opt_list_eqb (a b : option (list Z)) : bool :=
  match a, b with
  | Some x, Some y => list_eqb x y
  | None, None => true
  | _, _ => false
  end.

Lemma mk_bytes_ok l : all_bytes l = true -> mk_bytes l = Ok l.
Proof. intros H. unfold mk_bytes. rewrite H. reflexivity. Qed.

Lemma py_zeros_ok n : 0 <= n -> py_zeros n = Ok (repeat 0 (Z.to_nat n)).
Proof. intros H. unfold py_zeros. destruct (Z.ltb_spec n 0); [lia|reflexivity]. Qed.

Lemma py_divmod_ok a b : b <> 0 -> py_divmod a b = Ok (a / b, a mod b).
Proof. intros H. unfold py_divmod. destruct (Z.eqb_spec b 0); [contradiction|reflexivity]. Qed.

Lemma py_store_ok {A} (l : list A) i v : 0 <= i < zlen l ->
  py_store l i v = Ok (set_nth l (Z.to_nat i) v).
Proof.
  intros H. unfold py_store. destruct (i <? 0) eqn:E; [lia|].
  destruct ((0 <=? i) && (i <? zlen l)) eqn:E2; [reflexivity|lia].
Qed.

Lemma py_range_up a b : py_range a b 1 = zrange a b.
Proof.
  unfold py_range, zrange. cbn [Z.ltb Z.compare].
  replace ((b - a + 1 - 1) / 1) with (b - a) by (rewrite Z.div_1_r; lia).
  apply map_ext. intros k. lia.
Qed.

Lemma py_range_down n : 0 <= n -> py_range (n - 1) (-1) (-1) = rev (zrange 0 n).
Proof.
  intros Hn. unfold py_range, zrange. cbn [Z.ltb Z.compare Z.opp].
  replace ((n - 1 - -1 + 1 - 1) / 1) with n by (rewrite Z.div_1_r; lia).
  rewrite Z.sub_0_r. rewrite <- map_rev, map_seq_rev.
  apply map_ext_in. intros k Hk. apply in_seq in Hk. lia.
Qed.

Lemma mapM_ok_ext {A B} (f : A -> res B) (g : A -> B) l :
  (forall x, In x l -> f x = Ok (g x)) -> mapM f l = Ok (map g l).
Proof.
  induction l as [|x xs IH]; intros H; cbn [mapM map]; [reflexivity|].
  rewrite (H x (or_introl eq_refl)). cbn [bind].
  rewrite IH by (intros y Hy; apply H; right; exact Hy). reflexivity.
Qed.

