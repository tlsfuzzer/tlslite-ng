(* C18 shared library: Python dict as an association list, list item assignment,
   operation / outcome vocabulary shared by the SessionCache model and its
   abstract specification. *)
From Coq Require Import ZArith List Bool Lia.
From TV Require Base.ListUpd.
From TV Require Import Base.Prelude.
Import ListNotations.
Open Scope Z_scope.

(* dict: keys and values are Z (session id -> session handle) *)
Definition dict := list (Z * Z).

Fixpoint dict_get (k : Z) (d : dict) : option Z :=
  match d with
  | [] => None
  | (k', v) :: d' => if k =? k' then Some v else dict_get k d'
  end.

Definition dict_mem (k : Z) (d : dict) : bool :=
  match dict_get k d with Some _ => true | None => false end.

Definition dict_remove (k : Z) (d : dict) : dict :=
  filter (fun p => negb (fst p =? k)) d.

(* d[k] = v *)
Definition dict_set (k v : Z) (d : dict) : dict := (k, v) :: dict_remove k d.

(* del d[k] : None = KeyError *)
Definition dict_del (k : Z) (d : dict) : option dict :=
  if dict_mem k d then Some (dict_remove k d) else None.

Definition dict_keys (d : dict) : list Z := map fst d.

(* order-insensitive comparison used by the correspondence check (keys unique on both sides) *)
Definition dict_same (a b : dict) : bool :=
  (Nat.eqb (length a) (length b)) &&
  forallb (fun p => match dict_get (fst p) a with Some v => v =? snd p | None => false end) b.

Lemma dict_get_remove k k' d :
  dict_get k (dict_remove k' d) = if k =? k' then None else dict_get k d.
Proof.
  induction d as [|[a v] d IH]; cbn [dict_remove filter dict_get fst].
  - destruct (k =? k'); reflexivity.
  - fold (dict_remove k' d).
    destruct (a =? k') eqn:E1; cbn [negb].
    + rewrite IH. apply Z.eqb_eq in E1. subst a.
      destruct (k =? k') eqn:E2; reflexivity.
    + cbn [dict_get]. rewrite IH.
      destruct (k =? a) eqn:E2; [|reflexivity].
      apply Z.eqb_eq in E2. subst a. rewrite E1. reflexivity.
Qed.

Lemma dict_get_set k k' v d :
  dict_get k (dict_set k' v d) = if k =? k' then Some v else dict_get k d.
Proof.
  unfold dict_set. cbn [dict_get]. rewrite dict_get_remove.
  destruct (k =? k'); reflexivity.
Qed.

Lemma dict_keys_get k d : In k (dict_keys d) <-> dict_get k d <> None.
Proof.
  induction d as [|[a w] d IH]; cbn [dict_get dict_keys map fst In]; [intuition congruence|].
  fold (dict_keys d). rewrite IH. destruct (Z.eqb_spec k a); intuition congruence.
Qed.

Lemma dict_keys_remove k d : dict_keys (dict_remove k d) = filter (fun a => negb (a =? k)) (dict_keys d).
Proof.
  unfold dict_keys, dict_remove. induction d as [|[a v] d IH]; cbn [filter map fst]; [reflexivity|].
  destruct (negb (a =? k)); cbn [map fst]; rewrite IH; reflexivity.
Qed.

Lemma dict_keys_remove_nodup k d : NoDup (dict_keys d) -> NoDup (dict_keys (dict_remove k d)).
Proof. rewrite dict_keys_remove. apply NoDup_filter. Qed.

Lemma dict_keys_set_nodup k v d : NoDup (dict_keys d) -> NoDup (dict_keys (dict_set k v d)).
Proof.
  intros H. unfold dict_set. cbn [dict_keys map fst]. fold (dict_keys (dict_remove k d)). constructor.
  - rewrite dict_keys_remove, filter_In, Z.eqb_refl. intros [_ Hf]. discriminate.
  - apply dict_keys_remove_nodup. exact H.
Qed.

(* l[i] = v  (Python list item assignment) *)
Fixpoint upd_nth {A} (k : nat) (l : list A) (v : A) : list A :=
  match l, k with
  | [], _ => []
  | _ :: xs, O => v :: xs
  | x :: xs, S k' => x :: upd_nth k' xs v
  end.

Definition py_setitem {A} (l : list A) (i : Z) (v : A) : res (list A) :=
  let n := zlen l in
  let j := if i <? 0 then i + n else i in
  if (0 <=? j) && (j <? n) then Ok (upd_nth (Z.to_nat j) l v) else Err IndexError.

Lemma upd_nth_upd {A} k (l : list A) v : upd_nth k l v = ListUpd.upd l k v.
Proof.
  revert k. induction l as [|x xs IH]; intros [|k]; cbn [upd_nth ListUpd.upd]; try reflexivity.
  rewrite IH. reflexivity.
Qed.

Lemma upd_nth_length {A} k (l : list A) v : length (upd_nth k l v) = length l.
Proof. rewrite upd_nth_upd. apply ListUpd.upd_length. Qed.

Lemma upd_nth_same {A} k (l : list A) v : (k < length l)%nat -> nth_error (upd_nth k l v) k = Some v.
Proof. rewrite upd_nth_upd. apply ListUpd.nth_error_upd_same. Qed.

Lemma upd_nth_other {A} k j (l : list A) v : j <> k -> nth_error (upd_nth k l v) j = nth_error l j.
Proof. rewrite upd_nth_upd. apply ListUpd.nth_error_upd_other. Qed.

Lemma zlen_upd {A} k (l : list A) v : zlen (upd_nth k l v) = zlen l.
Proof. unfold zlen. rewrite upd_nth_length. reflexivity. Qed.

Lemma py_setitem_ok {A} (l : list A) i v : 0 <= i < zlen l -> py_setitem l i v = Ok (upd_nth (Z.to_nat i) l v).
Proof.
  intros Hi. unfold py_setitem. destruct (i <? 0) eqn:E; [lia|].
  destruct ((0 <=? i) && (i <? zlen l)) eqn:E2; [reflexivity|lia].
Qed.

(* result of one cache call: a returned value (None for __setitem__/_purge) or an exception *)
Inductive outcome :=
| ORet (v : option Z)
| OExc (e : exn).

Definition outcome_eqb (a b : outcome) : bool :=
  match a, b with
  | ORet None, ORet None => true
  | ORet (Some x), ORet (Some y) => x =? y
  | OExc e1, OExc e2 => exn_code e1 =? exn_code e2
  | _, _ => false
  end.

(* one call made by the application; every call is stamped with the clock value it observes *)
Inductive op :=
| Get (id : Z)                 (* cache[id] *)
| Put (id s : Z)               (* cache[id] = session s *)
| Purge                        (* cache._purge() *)
| SetValid (s : Z) (b : bool). (* the owner of session s changes what s.valid() returns *)

Definition valid_in (invalid : list Z) (s : Z) : bool := negb (existsb (Z.eqb s) invalid).

Definition set_valid (invalid : list Z) (s : Z) (b : bool) : list Z :=
  if b then filter (fun x => negb (x =? s)) invalid else s :: invalid.

Definition history := list (Z * op).      (* (clock value, call) in program order *)

Fixpoint monotone_from (t : Z) (h : history) : Prop :=
  match h with
  | [] => True
  | (t', _) :: h' => t <= t' /\ monotone_from t' h'
  end.
Definition monotone (h : history) : Prop :=
  match h with [] => True | (t, _) :: h' => monotone_from t h' end.

Fixpoint monotone_fromb (t : Z) (h : history) : bool :=
  match h with
  | [] => true
  | (t', _) :: h' => (t <=? t') && monotone_fromb t' h'
  end.
Definition monotoneb (h : history) : bool :=
  match h with [] => true | (t, _) :: h' => monotone_fromb t h' end.

Fixpoint put_ids (h : history) : list Z :=
  match h with
  | [] => []
  | (_, Put id _) :: h' => id :: put_ids h'
  | _ :: h' => put_ids h'
  end.
Definition distinct_puts (h : history) : Prop := NoDup (put_ids h).
