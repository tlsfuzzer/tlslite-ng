From Coq Require Import ZArith List Bool Lia.
From TV Require Import Base.Prelude.
Import ListNotations.
Open Scope Z_scope.

Lemma bind_Ok {A B} {m : res A} {f : A -> res B} {y} : bind m f = Ok y -> exists x, m = Ok x /\ f x = Ok y.
Proof. destruct m as [x|e]; [exists x; split; [reflexivity|assumption]|discriminate]. Qed.

Lemma bind_of_Ok {A B} (a : A) (f : A -> res B) : bind (Ok a) f = f a.
Proof. reflexivity. Qed.

Lemma foldM_app {A B} (f : A -> B -> res A) l1 l2 a :
  foldM f (l1 ++ l2) a = (a' <- foldM f l1 a ;; foldM f l2 a').
Proof.
  revert a. induction l1 as [|x l1 IH]; intros a; cbn [app foldM]; [reflexivity|].
  destruct (f a x) as [a'|e]; cbn [bind]; [apply IH|reflexivity].
Qed.

Lemma skipn_add {A} a b (l : list A) : skipn a (skipn b l) = skipn (b + a) l.
Proof.
  revert l. induction b as [|b IH]; intros l; [reflexivity|].
  destruct l as [|x l]; [rewrite !skipn_nil; reflexivity|]. cbn [plus skipn]. apply IH.
Qed.

Lemma firstn_add {A} a b (x : list A) : firstn (a + b) x = firstn a x ++ firstn b (skipn a x).
Proof.
  revert x. induction a as [|a IH]; intros [|y x]; cbn [Nat.add firstn skipn app]; rewrite ?firstn_nil; [reflexivity..|].
  rewrite IH. reflexivity.
Qed.

Lemma firstn_app_exact {A} (a b : list A) : firstn (length a) (a ++ b) = a.
Proof. rewrite firstn_app, Nat.sub_diag, firstn_all. cbn [firstn]. apply app_nil_r. Qed.

Lemma skipn_app_exact {A} (a b : list A) : skipn (length a) (a ++ b) = b.
Proof. rewrite skipn_app, Nat.sub_diag, skipn_all. reflexivity. Qed.

Lemma app_inv_len {A} (a b c d : list A) : length a = length c -> a ++ b = c ++ d -> a = c /\ b = d.
Proof.
  revert c. induction a as [|x a IH]; intros [|y c] Hl H; cbn [length app] in *; try discriminate.
  - auto.
  - injection H as -> H. apply IH in H; [|lia]. destruct H as [-> ->]. auto.
Qed.

Lemma app_inv_len_tail {A} (a b c d : list A) : length b = length d -> a ++ b = c ++ d -> a = c /\ b = d.
Proof.
  intros Hl H. apply app_inv_len; [|exact H].
  apply (f_equal (@length A)) in H. rewrite !app_length in H. lia.
Qed.

Lemma Forall_repeat {A} (P : A -> Prop) x n : P x -> Forall P (repeat x n).
Proof. intros H. apply Forall_forall. intros y Hy. apply repeat_spec in Hy. subst y. exact H. Qed.

Lemma Forall_firstn {A} (P : A -> Prop) n l : Forall P l -> Forall P (firstn n l).
Proof. intros H. rewrite <- (firstn_skipn n l) in H. apply Forall_app in H. apply H. Qed.

Lemma Forall_skipn {A} (P : A -> Prop) n l : Forall P l -> Forall P (skipn n l).
Proof. intros H. rewrite <- (firstn_skipn n l) in H. apply Forall_app in H. apply H. Qed.

Lemma fold_left_map {A B C} (f : A -> B -> A) (g : C -> B) l a :
  fold_left f (map g l) a = fold_left (fun a x => f a (g x)) l a.
Proof. revert a. induction l as [|x l IH]; intros a; cbn [map fold_left]; [reflexivity|]. apply IH. Qed.

Lemma fold_left_ext_in {A B} (f g : A -> B -> A) l :
  (forall a x, In x l -> f a x = g a x) -> forall a, fold_left f l a = fold_left g l a.
Proof.
  induction l as [|x xs IH]; intros H a; cbn [fold_left]; [reflexivity|].
  rewrite (H a x (or_introl eq_refl)). apply IH. intros a' y Hy. apply H. right. exact Hy.
Qed.

Lemma fold_left_app_concat {A B} (h : B -> list A) l a :
  fold_left (fun acc x => acc ++ h x) l a = a ++ concat (map h l).
Proof.
  revert a. induction l as [|x l IH]; intros a; cbn [fold_left map concat]; [rewrite app_nil_r; reflexivity|].
  rewrite IH, app_assoc. reflexivity.
Qed.

(* A step may itself be such a loop, so nested loops need nothing more. *)
Lemma fold_zero_iff {B} (F : Z -> B -> Z) (G : B -> Prop) l : (forall r i, F r i = 0 <-> r = 0 /\ G i) ->
  forall r0, fold_left F l r0 = 0 <-> r0 = 0 /\ forall i, In i l -> G i.
Proof.
  intros HF. induction l as [|x xs IH]; intros r0; cbn [fold_left].
  - split; [intros ->; split; [reflexivity|intros i []]|intros [H _]; exact H].
  - rewrite IH, HF. split.
    + intros [[H1 H2] H3]. split; [exact H1|]. intros i [<-|Hi]; [exact H2|apply H3; exact Hi].
    + intros [H1 H2]. split; [split; [exact H1|apply H2; left; reflexivity]|intros i Hi; apply H2; right; exact Hi].
Qed.

Lemma map_seq_rev (f : nat -> Z) n :
  map f (rev (seq 0 n)) = map (fun k => f (n - 1 - k)%nat) (seq 0 n).
Proof.
  induction n as [|n IH].
  - reflexivity.
  - rewrite seq_S at 1. rewrite rev_app_distr. cbn [rev app map plus seq].
    rewrite IH. rewrite <- seq_shift, map_map.
    replace (S n - 1 - 0)%nat with n by lia. f_equal.
    apply map_ext_in. intros k Hk. apply in_seq in Hk. f_equal. lia.
Qed.

Lemma zlen_nil {A} : zlen (@nil A) = 0.
Proof. reflexivity. Qed.

Lemma zlen_cons {A} (x : A) l : zlen (x :: l) = 1 + zlen l.
Proof. unfold zlen. cbn [length]. lia. Qed.

Lemma zlen_app {A} (a b : list A) : zlen (a ++ b) = zlen a + zlen b.
Proof. unfold zlen. rewrite app_length. lia. Qed.

Lemma zlen_nonneg {A} (l : list A) : 0 <= zlen l.
Proof. unfold zlen. lia. Qed.

Lemma zlen_0_nil {A} (l : list A) : zlen l = 0 -> l = [].
Proof. destruct l; [reflexivity|]. rewrite zlen_cons. pose proof (zlen_nonneg l). lia. Qed.

Lemma zlen_repeat {A} (x : A) n : zlen (repeat x n) = Z.of_nat n.
Proof. unfold zlen. rewrite repeat_length. reflexivity. Qed.

Lemma zlen_map {A B} (f : A -> B) l : zlen (map f l) = zlen l.
Proof. unfold zlen. rewrite map_length. reflexivity. Qed.

Global Hint Rewrite @zlen_nil @zlen_cons @zlen_app @zlen_repeat @zlen_map : zlen.

Lemma zlen_filter_cons {A} (f : A -> bool) x l :
  zlen (filter f (x :: l)) = (if f x then 1 else 0) + zlen (filter f l).
Proof. cbn [filter]. destruct (f x); [apply zlen_cons|reflexivity]. Qed.

Lemma zlen_concat_map {A B} (f : B -> list A) d l : (forall x, zlen (f x) = d) -> zlen (concat (map f l)) = zlen l * d.
Proof.
  intros H. induction l as [|x l IH]; [reflexivity|].
  cbn [map concat]. rewrite zlen_app, zlen_cons, H, IH. lia.
Qed.

Lemma skipn_zlen {A} (l : list A) k : 0 <= k <= zlen l -> zlen (skipn (Z.to_nat k) l) = zlen l - k.
Proof. unfold zlen. intros H. rewrite skipn_length. lia. Qed.

Lemma firstn_zlen {A} (l : list A) k : 0 <= k <= zlen l -> zlen (firstn (Z.to_nat k) l) = k.
Proof. unfold zlen. intros H. rewrite firstn_length. lia. Qed.

Lemma firstn_zlen_app {A} (a b : list A) : firstn (Z.to_nat (zlen a)) (a ++ b) = a.
Proof. unfold zlen. rewrite Nat2Z.id. apply firstn_app_exact. Qed.

Lemma skipn_zlen_app {A} (a b : list A) : skipn (Z.to_nat (zlen a)) (a ++ b) = b.
Proof. unfold zlen. rewrite Nat2Z.id. apply skipn_app_exact. Qed.

Lemma firstn_short_Z {A} (a c : list A) n :
  n <= zlen a -> firstn (Z.to_nat n) (a ++ c) = firstn (Z.to_nat n) a.
Proof.
  unfold zlen. intros H. rewrite firstn_app.
  replace (Z.to_nat n - length a)%nat with 0%nat by lia. apply app_nil_r.
Qed.

Lemma skipn_short_Z {A} (a c : list A) n :
  n <= zlen a -> skipn (Z.to_nat n) (a ++ c) = skipn (Z.to_nat n) a ++ c.
Proof.
  unfold zlen. intros H. rewrite skipn_app.
  replace (Z.to_nat n - length a)%nat with 0%nat by lia. reflexivity.
Qed.

Lemma firstn_app_Z {A} (a l : list A) n :
  zlen a <= n -> firstn (Z.to_nat n) (a ++ l) = a ++ firstn (Z.to_nat (n - zlen a)) l.
Proof.
  unfold zlen. intros H. rewrite firstn_app, firstn_all2 by lia. do 2 f_equal. lia.
Qed.

Lemma skipn_app_Z {A} (a l : list A) n :
  zlen a <= n -> skipn (Z.to_nat n) (a ++ l) = skipn (Z.to_nat (n - zlen a)) l.
Proof.
  unfold zlen. intros H. rewrite skipn_app, skipn_all2 by lia. cbn [app]. f_equal. lia.
Qed.

Lemma firstn_beyond {A} (l : list A) n m : Z.min (zlen l) n = Z.min (zlen l) m -> firstn (Z.to_nat n) l = firstn (Z.to_nat m) l.
Proof.
  unfold zlen. intros H.
  assert (Z.to_nat n = Z.to_nat m \/ (length l <= Z.to_nat n /\ length l <= Z.to_nat m))%nat as [E|[Hn Hm]] by lia.
  - rewrite E. reflexivity.
  - rewrite !firstn_all2 by assumption. reflexivity.
Qed.

Lemma skipn_beyond {A} (l : list A) n m : Z.min (zlen l) n = Z.min (zlen l) m -> skipn (Z.to_nat n) l = skipn (Z.to_nat m) l.
Proof.
  unfold zlen. intros H.
  assert (Z.to_nat n = Z.to_nat m \/ (length l <= Z.to_nat n /\ length l <= Z.to_nat m))%nat as [E|[Hn Hm]] by lia.
  - rewrite E. reflexivity.
  - rewrite !skipn_all2 by assumption. reflexivity.
Qed.

Lemma foldM_steps {S B} (f : S -> B -> res S) (St : Z -> S) l : forall k,
  (forall j i, k <= j < k + zlen l -> f (St j) i = Ok (St (j + 1))) -> foldM f l (St k) = Ok (St (k + zlen l)).
Proof.
  induction l as [|i l IH]; intros k H.
  - rewrite zlen_nil, Z.add_0_r. reflexivity.
  - rewrite zlen_cons in *. pose proof (zlen_nonneg l). cbn [foldM]. rewrite H, bind_of_Ok by lia.
    rewrite IH by (intros; apply H; lia). do 2 f_equal. lia.
Qed.

Lemma py_div_ok a b : b <> 0 -> py_div a b = Ok (a / b).
Proof. intros H. unfold py_div. destruct (Z.eqb_spec b 0); [contradiction|reflexivity]. Qed.

Lemma py_mod_ok a b : b <> 0 -> py_mod a b = Ok (a mod b).
Proof. intros H. unfold py_mod. destruct (Z.eqb_spec b 0); [contradiction|reflexivity]. Qed.

(* cryptomath.divceil: quotient, plus one if there is a remainder *)
Lemma ceil_div n d : 0 < d -> n / d + (if n mod d =? 0 then 0 else 1) = (n + d - 1) / d.
Proof.
  intros Hd. pose proof (Z.div_mod n d ltac:(lia)) as E. pose proof (Z.mod_pos_bound n d Hd) as B.
  destruct (Z.eqb_spec (n mod d) 0) as [E0|E0].
  - apply Z.div_unique with (r := d - 1); lia.
  - apply Z.div_unique with (r := n mod d - 1); lia.
Qed.

Lemma ceil_bounds n d : 0 < d -> d * ((n + d - 1) / d) - d < n <= d * ((n + d - 1) / d).
Proof.
  intros Hd. pose proof (Z.div_mod (n + d - 1) d ltac:(lia)). pose proof (Z.mod_pos_bound (n + d - 1) d Hd). lia.
Qed.

Lemma land_255 x : Z.land x 255 = x mod 256.
Proof. change 255 with (Z.ones 8). apply Z.land_ones. lia. Qed.

Lemma testbit_high n x i : 0 <= x < 2 ^ n -> n <= i -> Z.testbit x i = false.
Proof.
  intros Hx Hi. destruct (Z_lt_le_dec n 0) as [L|L]; [rewrite Z.pow_neg_r in Hx; lia|].
  rewrite <- (Z.mod_small x (2 ^ n)) by exact Hx. apply Z.mod_pow2_bits_high. lia.
Qed.

(* XOR does not set a bit that neither argument has *)
Lemma lxor_lt_pow2 n a b : 0 <= a < 2 ^ n -> 0 <= b < 2 ^ n -> 0 <= Z.lxor a b < 2 ^ n.
Proof.
  intros Ha Hb. destruct (Z_lt_le_dec n 0) as [L|L]; [rewrite Z.pow_neg_r in Ha; lia|].
  replace (Z.lxor a b) with (Z.lxor a b mod 2 ^ n); [apply Z.mod_pos_bound; lia|].
  apply Z.bits_inj'. intros i Hi. destruct (Z_lt_le_dec i n) as [Li|Li].
  - apply Z.mod_pow2_bits_low. exact Li.
  - rewrite Z.mod_pow2_bits_high, Z.lxor_spec, (testbit_high n a), (testbit_high n b) by (assumption || lia).
    reflexivity.
Qed.

Lemma is_byte_iff x : is_byte x = true <-> 0 <= x < 256.
Proof. unfold is_byte. rewrite andb_true_iff, Z.leb_le, Z.ltb_lt. tauto. Qed.

Lemma is_byte_mod x : is_byte (x mod 256) = true.
Proof. apply is_byte_iff. apply Z.mod_pos_bound. lia. Qed.

Lemma lxor_byte a b : 0 <= a < 256 -> 0 <= b < 256 -> 0 <= Z.lxor a b < 256.
Proof. apply (lxor_lt_pow2 8). Qed.

Lemma lxor_is_byte a b : is_byte a = true -> is_byte b = true -> is_byte (Z.lxor a b) = true.
Proof. rewrite !is_byte_iff. apply lxor_byte. Qed.

Lemma all_bytes_In l : all_bytes l = true <-> forall x, In x l -> 0 <= x < 256.
Proof.
  unfold all_bytes. rewrite forallb_forall. split; intros H x Hx; apply is_byte_iff; auto.
Qed.

Lemma all_bytes_Forall l : all_bytes l = true <-> Forall (fun x => 0 <= x < 256) l.
Proof. rewrite Forall_forall. apply all_bytes_In. Qed.

Lemma all_bytes_app a b : all_bytes (a ++ b) = all_bytes a && all_bytes b.
Proof. apply forallb_app. Qed.

Lemma all_bytes_cons x l : all_bytes (x :: l) = is_byte x && all_bytes l.
Proof. reflexivity. Qed.

Lemma all_bytes_firstn n l : all_bytes l = true -> all_bytes (firstn n l) = true.
Proof. rewrite !all_bytes_Forall. apply Forall_firstn. Qed.

Lemma all_bytes_skipn n l : all_bytes l = true -> all_bytes (skipn n l) = true.
Proof. rewrite !all_bytes_Forall. apply Forall_skipn. Qed.

Lemma all_bytes_repeat x k : is_byte x = true -> all_bytes (repeat x k) = true.
Proof. intros H. induction k; cbn [repeat all_bytes forallb]; [reflexivity|]. rewrite H. exact IHk. Qed.

Lemma all_bytes_concat_map {B} (f : B -> list Z) l : (forall x, all_bytes (f x) = true) -> all_bytes (concat (map f l)) = true.
Proof.
  intros H. induction l as [|x l IH]; [reflexivity|].
  cbn [map concat]. rewrite all_bytes_app, H, IH. reflexivity.
Qed.

(* the first n bytes of a stream that is long enough: what HKDF-Expand, P_hash, MGF1 and the PRF of RSA decryption return *)
Lemma stream_prefix {B} (f : B -> list Z) d l n : (forall x, zlen (f x) = d) -> (forall x, all_bytes (f x) = true) ->
  0 <= n <= zlen l * d ->
  zlen (firstn (Z.to_nat n) (concat (map f l))) = n /\ all_bytes (firstn (Z.to_nat n) (concat (map f l))) = true.
Proof.
  intros Hd Hb Hn. split.
  - apply firstn_zlen. rewrite (zlen_concat_map f d) by exact Hd. exact Hn.
  - apply all_bytes_firstn, all_bytes_concat_map, Hb.
Qed.

Lemma list_eqb_refl l : list_eqb l l = true.
Proof. apply list_eqb_spec. reflexivity. Qed.

Lemma nthZ_app_l (a b : list Z) i : 0 <= i < zlen a -> nthZ (a ++ b) i = nthZ a i.
Proof. intros H. unfold nthZ, zlen in *. apply app_nth1. lia. Qed.

Lemma nthZ_app_r (a b : list Z) i : zlen a <= i -> nthZ (a ++ b) i = nthZ b (i - zlen a).
Proof. intros H. unfold nthZ, zlen in *. rewrite app_nth2 by lia. f_equal. lia. Qed.

Lemma nthZ_in (l : list Z) i : 0 <= i < zlen l -> In (nthZ l i) l.
Proof. intros H. unfold nthZ. apply nth_In. unfold zlen in H. lia. Qed.

(* in range or out of it (where nthZ gives 0) *)
Lemma Forall_nth_Z (P : Z -> Prop) l i : Forall P l -> P 0 -> P (nthZ l i).
Proof.
  intros Hl H0. unfold nthZ. destruct (nth_in_or_default (Z.to_nat i) l 0) as [Hin|E]; [|rewrite E; exact H0].
  rewrite Forall_forall in Hl. apply Hl. exact Hin.
Qed.

Lemma all_bytes_nth l i : all_bytes l = true -> 0 <= nthZ l i < 256.
Proof. intros H. apply (Forall_nth_Z (fun x => 0 <= x < 256)); [apply all_bytes_Forall, H|lia]. Qed.

Lemma nth_map_zrange {A} (f : Z -> A) a b i d :
  0 <= i < b - a -> nth (Z.to_nat i) (map f (zrange a b)) d = f (a + i).
Proof.
  intros H. unfold zrange. rewrite map_map.
  rewrite nth_indep with (d' := f (a + Z.of_nat 0)) by (rewrite map_length, seq_length; lia).
  rewrite (map_nth (fun k => f (a + Z.of_nat k)) (seq 0 (Z.to_nat (b - a))) 0%nat).
  rewrite seq_nth by lia. f_equal. lia.
Qed.

Lemma map_nthZ_zrange (l : list Z) : map (nthZ l) (zrange 0 (zlen l)) = l.
Proof.
  apply (nth_ext _ _ 0 0); rewrite map_length, zrange_length, Z.sub_0_r; unfold zlen; [apply Nat2Z.id|].
  intros n Hn. rewrite <- (Nat2Z.id n). rewrite nth_map_zrange by lia. reflexivity.
Qed.

Lemma py_index_nth {A} (l : list A) i x : 0 <= i -> nth_error l (Z.to_nat i) = Some x -> py_index l i = Ok x.
Proof.
  intros Hi Hx. assert (Z.to_nat i < length l)%nat by (apply nth_error_Some; congruence).
  unfold py_index, zlen. destruct (i <? 0) eqn:E; [lia|]. rewrite Hx. destruct (_ && _) eqn:E2; [reflexivity|lia].
Qed.

Lemma py_index_neg {A} (l : list A) k : 0 < k <= zlen l -> py_index l (- k) = py_index l (zlen l - k).
Proof.
  intros H. unfold py_index. destruct (- k <? 0) eqn:E1; [|lia]. destruct (zlen l - k <? 0) eqn:E2; [lia|].
  rewrite Z.add_comm. reflexivity.
Qed.

Lemma py_index_mid {A} (a : list A) x b i : i = zlen a -> py_index (a ++ x :: b) i = Ok x.
Proof.
  intros ->. apply py_index_nth; [apply zlen_nonneg|].
  unfold zlen. rewrite Nat2Z.id, nth_error_app2, Nat.sub_diag by lia. reflexivity.
Qed.

Lemma py_index_last {A} (a : list A) x : py_index (a ++ [x]) (-1) = Ok x.
Proof.
  pose proof (zlen_nonneg a). rewrite (py_index_neg _ 1) by (rewrite zlen_app; cbn; lia).
  apply py_index_mid. rewrite zlen_app. cbn. lia.
Qed.

Lemma clamp_bound_eq n v : 0 <= n -> clamp_bound n v = Z.max 0 (Z.min n (if v <? 0 then v + n else v)).
Proof.
  intros Hn. unfold clamp_bound. set (w := if v <? 0 then v + n else v).
  destruct (Z.ltb_spec w 0); [lia|]. destruct (Z.ltb_spec n w); lia.
Qed.

Lemma clamp_bound_nonneg n b : 0 <= n -> 0 <= b -> clamp_bound n b = Z.min n b.
Proof. intros Hn Hb. rewrite clamp_bound_eq by exact Hn. destruct (Z.ltb_spec b 0); lia. Qed.

Lemma clamp_bound_neg n v : 0 <= n -> - n <= v < 0 -> clamp_bound n v = v + n.
Proof. intros Hn Hv. rewrite clamp_bound_eq by exact Hn. destruct (Z.ltb_spec v 0); lia. Qed.

(* the form the slice facts below rest on: the definition's case b <= a is firstn 0 of it; a and b are variables so
   that a caller gives the two positions as it knows them *)
Lemma py_slice_at {A} (l : list A) lo hi a b :
  match lo with None => 0 | Some v => clamp_bound (zlen l) v end = a ->
  match hi with None => zlen l | Some v => clamp_bound (zlen l) v end = b ->
  py_slice l lo hi = firstn (Z.to_nat (b - a)) (skipn (Z.to_nat a) l).
Proof.
  intros <- <-. unfold py_slice. cbv zeta. destruct (_ <=? _) eqn:E; [|reflexivity].
  apply Z.leb_le in E. replace (Z.to_nat _) with 0%nat by lia. reflexivity.
Qed.

Lemma py_slice_nonneg {A} (l : list A) a b : 0 <= a <= b ->
  py_slice l (Some a) (Some b) = firstn (Z.to_nat (b - a)) (skipn (Z.to_nat a) l).
Proof.
  intros H. pose proof (zlen_nonneg l).
  rewrite (py_slice_at l (Some a) (Some b) (Z.min (zlen l) a) (Z.min (zlen l) b)) by (apply clamp_bound_nonneg; lia).
  rewrite (skipn_beyond l _ a) by lia. apply firstn_beyond. unfold zlen in *. rewrite skipn_length. lia.
Qed.

Lemma py_slice_to {A} (l : list A) b : 0 <= b -> py_slice l None (Some b) = firstn (Z.to_nat b) l.
Proof.
  intros H. pose proof (zlen_nonneg l).
  rewrite (py_slice_at l None (Some b) 0 (Z.min (zlen l) b)) by (reflexivity || apply clamp_bound_nonneg; lia).
  apply firstn_beyond. lia.
Qed.

Lemma py_slice_from {A} (l : list A) a : 0 <= a -> py_slice l (Some a) None = skipn (Z.to_nat a) l.
Proof.
  intros H. pose proof (zlen_nonneg l).
  rewrite (py_slice_at l (Some a) None (Z.min (zlen l) a) (zlen l)) by (reflexivity || apply clamp_bound_nonneg; lia).
  rewrite firstn_all2 by (rewrite skipn_length; unfold zlen; lia). apply skipn_beyond. lia.
Qed.

Lemma py_slice_neg_lo {A} (l : list A) k hi : 0 < k <= zlen l ->
  py_slice l (Some (- k)) hi = py_slice l (Some (zlen l - k)) hi.
Proof.
  intros H. rewrite !(py_slice_at l _ hi _ _ eq_refl eq_refl), clamp_bound_neg, clamp_bound_nonneg by lia. do 3 f_equal; lia.
Qed.

Lemma py_slice_neg_hi {A} (l : list A) k lo : 0 < k <= zlen l ->
  py_slice l lo (Some (- k)) = py_slice l lo (Some (zlen l - k)).
Proof.
  intros H. rewrite !(py_slice_at l lo _ _ _ eq_refl eq_refl), clamp_bound_neg, clamp_bound_nonneg by lia. do 3 f_equal; lia.
Qed.

Lemma py_slice_app_mid {A} (pre p rest : list A) a b : a = zlen pre -> b = a + zlen p ->
  py_slice (pre ++ p ++ rest) (Some a) (Some b) = p.
Proof.
  intros -> ->. pose proof (zlen_nonneg pre). pose proof (zlen_nonneg p).
  rewrite py_slice_nonneg by lia. unfold zlen. rewrite Nat2Z.id, skipn_app_exact.
  replace (Z.to_nat _) with (length p) by lia. apply firstn_app_exact.
Qed.

Lemma py_slice_split {A} (l : list A) n :
  py_slice l None (Some n) ++ py_slice l (Some n) None = l.
Proof.
  pose proof (zlen_nonneg l) as Hl. rewrite !(py_slice_at l _ _ _ _ eq_refl eq_refl), Z.sub_0_r. cbn [Z.to_nat skipn].
  set (k := clamp_bound (zlen l) n). assert (0 <= k <= zlen l) by (unfold k; rewrite clamp_bound_eq by exact Hl; lia).
  rewrite (firstn_all2 (skipn _ _)) by (rewrite skipn_length; unfold zlen in *; lia). apply firstn_skipn.
Qed.
