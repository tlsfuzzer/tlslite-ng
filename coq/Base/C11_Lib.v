(* C11 support library (definitions only): hand models of the small external helpers
   that the translated RSA code calls (tlslite.utils.cryptomath / compat), and the
   Gallina meaning of the extra PyLite constructs accepted by translator/pylite_c11.py.
   numBits, numBytes, numberToByteArray and bytesToNumber are compared with the Python original on
   every run (harness/props/C11.py, stream "lib-helpers-model-vs-impl"); the other definitions are
   exercised through the generated code that calls them. *)
From Coq Require Import ZArith List Bool String.
From TV Require Import Base.Prelude.
Import ListNotations.
Open Scope Z_scope.

(* exception classes outside Prelude.exn *)
Definition StopIteration : exn := OtherExn 1.
Definition OverflowError : exn := OtherExn 2.

(* int.bit_length (of |n|) and compat.byte_length *)
Definition numBits (n : Z) : Z :=
  let a := Z.abs n in if a =? 0 then 0 else Z.log2 a + 1.
Definition numBytes (n : Z) : Z := (numBits n + 7) / 8.

(* big-endian, exactly k bytes, of n mod 256^k (n >> 8 and n & 255: cheap under vm_compute) *)
Fixpoint be_bytes (k : nat) (n : Z) : list Z :=
  match k with
  | O => []
  | S k' => be_bytes k' (Z.shiftr n 8) ++ [Z.land n 255]
  end.

(* cryptomath.numberToByteArray(n, howManyBytes): int.to_bytes raises OverflowError for a
   negative n; a too-large n is truncated to its low howManyBytes bytes (by the function's
   own slice), otherwise zero-padded on the left. *)
Definition numberToByteArray (n k : Z) : res (list Z) :=
  if n <? 0 then Err OverflowError
  else if k <? 0 then Err ValueError
  else Ok (be_bytes (Z.to_nat k) n).

(* cryptomath.bytesToNumber (big endian) *)
Definition bytesToNumber (b : list Z) : Z := fold_left (fun a x => a * 256 + x) b 0.

(* ---- iterators ------------------------------------------------------------ *)
(* it = iter(x); for a, b in zip(it, it): consecutive pairs, a trailing odd element is
   consumed and dropped (zip stops when the second next() fails). *)
Fixpoint pairs_of {A} (l : list A) : list (A * A) :=
  match l with
  | a :: b :: t => (a, b) :: pairs_of t
  | _ => []
  end.

(* enumerate(x) *)
Fixpoint enumerate_from {A} (i : Z) (l : list A) : list (Z * A) :=
  match l with
  | [] => []
  | x :: t => (i, x) :: enumerate_from (i + 1) t
  end.

(* next(it) *)
Definition py_next {A} (it : list A) : res (A * list A) :=
  match it with
  | [] => Err StopIteration
  | x :: t => Ok (x, t)
  end.

(* bytearray(iterable of ints): ValueError outside 0..255 *)
Definition mk_bytes (l : list Z) : res (list Z) :=
  if all_bytes l then Ok l else Err ValueError.

(* while loop with explicit fuel: running out of fuel is an explicit outcome that the
   theorems exclude (it can never agree with the implementation in the correspondence) *)
Fixpoint while_fuel {S} (fuel : nat) (cond : S -> res bool) (body : S -> res S) (s : S) : res S :=
  match fuel with
  | O => Err OutOfFuel
  | Datatypes.S f =>
      c <- cond s ;;
      if c then (s' <- body s ;; while_fuel f cond body s') else Ok s
  end.

(* ---- None-able byte strings ------------------------------------------------ *)
(* "not x" for x : bytearray or None *)
Definition opt_falsy (x : option (list Z)) : bool :=
  match x with None => true | Some [] => true | Some _ => false end.
(* using a None-able value as a sequence: TypeError on None *)
Definition opt_get (x : option (list Z)) : res (list Z) :=
  match x with None => Err TypeError | Some l => Ok l end.

Definition opt_list_eqb (a b : option (list Z)) : bool :=
  match a, b with
  | None, None => true
  | Some x, Some y => list_eqb x y
  | _, _ => false
  end.

(* Python's lexicographic order on pairs of ints *)
Definition pairZ_ltb (a b : Z * Z) : bool := (fst a <? fst b) || ((fst a =? fst b) && (snd a <? snd b)).
Definition pairZ_leb (a b : Z * Z) : bool := (fst a <? fst b) || ((fst a =? fst b) && (snd a <=? snd b)).
