(* Replacing the n-th element of a list.  The model files define this function five times (set_nth in
   Model/C13_Resume.v and Base/C09_Lib.v, upd in Model/C17_Sessions.v, lupd in Model/C19_Settings.v, upd_nth in
   Base/C18_Lib.v, the last with the index first).  The first four are convertible with [upd] below, so these
   lemmas apply to them as they stand; C18's is equated with it in Base/C18_Lib.v. *)
From Coq Require Import List Lia.
Import ListNotations.

Fixpoint upd {A} (l : list A) (n : nat) (x : A) : list A :=
  match l, n with
  | [], _ => []
  | _ :: t, O => x :: t
  | h :: t, S k => h :: upd t k x
  end.

Section Upd.
  Context {A : Type}.
  Implicit Types (l : list A) (n m : nat) (x : A).

  Lemma upd_length l n x : length (upd l n x) = length l.
  Proof. revert n. induction l as [|h t IH]; intros [|n]; cbn [upd length]; auto. Qed.

  Lemma nth_error_upd l n x m :
    nth_error (upd l n x) m = if Nat.eqb m n then option_map (fun _ => x) (nth_error l n) else nth_error l m.
  Proof.
    revert n m. induction l as [|a l IH]; intros [|n] [|m]; cbn [upd nth_error Nat.eqb option_map];
      try reflexivity; [destruct (Nat.eqb m n); reflexivity|apply IH].
  Qed.

  Lemma nth_error_upd_same l n x : n < length l -> nth_error (upd l n x) n = Some x.
  Proof.
    intros H. rewrite nth_error_upd, PeanoNat.Nat.eqb_refl.
    destruct (nth_error l n) eqn:E; [reflexivity|]. apply nth_error_None in E. lia.
  Qed.

  Lemma nth_error_upd_other l n m x : m <> n -> nth_error (upd l n x) m = nth_error l m.
  Proof. intros H. rewrite nth_error_upd. destruct (PeanoNat.Nat.eqb_spec m n); [congruence|reflexivity]. Qed.

  Lemma nth_upd_same l n x d : n < length l -> nth n (upd l n x) d = x.
  Proof. intros H. apply nth_error_nth, nth_error_upd_same, H. Qed.

  Lemma nth_upd_other l n m x d : m <> n -> nth m (upd l n x) d = nth m l d.
  Proof.
    revert n m. induction l as [|h t IH]; intros [|n] [|m] H; cbn [upd nth]; auto; congruence.
  Qed.

  Lemma upd_self l n d : upd l n (nth n l d) = l.
  Proof. revert n. induction l as [|h t IH]; intros [|n]; cbn [upd nth]; auto. f_equal. apply IH. Qed.

  Lemma upd_id l n x : nth_error l n = Some x -> upd l n x = l.
  Proof. intros H. rewrite <- (nth_error_nth l n x H) at 1. apply upd_self. Qed.

  Lemma upd_twice l n x y : upd (upd l n x) n y = upd l n y.
  Proof. revert n. induction l as [|h t IH]; intros [|n]; cbn [upd]; auto. f_equal. apply IH. Qed.

  Lemma upd_comm l n m x y : n <> m -> upd (upd l m x) n y = upd (upd l n y) m x.
  Proof.
    revert n m. induction l as [|h t IH]; intros [|n] [|m] H; cbn [upd]; try reflexivity; try lia.
    f_equal. apply IH. lia.
  Qed.

  Lemma upd_app pre a suf x : upd (pre ++ a :: suf) (length pre) x = pre ++ x :: suf.
  Proof. induction pre as [|p pre IH]; cbn [app length upd]; [reflexivity|]. rewrite IH. reflexivity. Qed.

  Lemma in_upd l n x y : In y (upd l n x) -> y = x \/ In y l.
  Proof.
    revert n. induction l as [|a l IH]; intros [|n]; cbn [upd In]; try tauto.
    - intros [H|H]; auto.
    - intros [H|H]; auto. destruct (IH n H); auto.
  Qed.

  Lemma Forall_upd (P : A -> Prop) l n x : Forall P l -> P x -> Forall P (upd l n x).
  Proof.
    intros Hl Hx. apply Forall_forall. intros y Hy. apply in_upd in Hy. destruct Hy as [->|Hy]; [exact Hx|].
    exact (proj1 (Forall_forall P l) Hl y Hy).
  Qed.

  Lemma forallb_upd (P : A -> bool) l n x : forallb P l = true -> P x = true -> forallb P (upd l n x) = true.
  Proof.
    rewrite !forallb_forall. intros Hl Hx y Hy. apply in_upd in Hy. destruct Hy as [->|Hy]; auto.
  Qed.
End Upd.

Lemma map_upd {A B} (g : A -> B) (l : list A) n x : map g (upd l n x) = upd (map g l) n (g x).
Proof. revert n. induction l as [|h t IH]; intros [|n]; cbn [upd map]; auto. f_equal. apply IH. Qed.
