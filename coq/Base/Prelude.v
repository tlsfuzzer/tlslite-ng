(* Shared library: Python-like result monad, ranges, indexing, slicing and integer division with
   Python's semantics, bytes and list equality, the hmac object and finite oracle tables, the helpers
   of the correspondence evaluation (bad_idx, res_eqb, res_matches), and the first lemmas about them. *)
From Coq Require Import ZArith List Bool Lia.
Import ListNotations.
Open Scope Z_scope.

(* ---- outcome of a Python computation -------------------------------------- *)
Inductive exn :=
| IndexError | ValueError | AssertionError | AttributeError | TypeError
| KeyError | OutOfFuel | DecodeError | ZeroDivisionError | OtherExn (code : Z).

Inductive res (A : Type) :=
| Ok (a : A)
| Err (e : exn).
Arguments Ok {A} a.
Arguments Err {A} e.

Definition bind {A B} (m : res A) (f : A -> res B) : res B :=
  match m with Ok a => f a | Err e => Err e end.
Notation "x <- m ;; k" := (bind m (fun x => k))
  (at level 61, m at next level, right associativity).
Notation "' p <- m ;; k" := (bind m (fun p => k))
  (at level 61, p pattern, m at next level, right associativity).

Definition is_ok {A} (m : res A) : bool := match m with Ok _ => true | Err _ => false end.

Fixpoint foldM {A B} (f : A -> B -> res A) (l : list B) (a : A) : res A :=
  match l with
  | [] => Ok a
  | x :: xs => a' <- f a x ;; foldM f xs a'
  end.

(* a loop whose every step succeeds and keeps an invariant *)
Lemma foldM_inv {A B} (P : A -> Prop) (f : A -> B -> res A) (g : A -> B -> A) l :
  (forall a x, In x l -> P a -> f a x = Ok (g a x) /\ P (g a x)) ->
  forall a, P a -> foldM f l a = Ok (fold_left g l a) /\ P (fold_left g l a).
Proof.
  induction l as [|x xs IH]; intros H a Ha; cbn [foldM fold_left]; [split; [reflexivity|exact Ha]|].
  destruct (H a x (or_introl eq_refl) Ha) as [E Pg]. rewrite E. cbn [bind].
  apply IH; [|exact Pg]. intros a' y Hy. apply H. right. exact Hy.
Qed.

Lemma foldM_ok_ext {A B} (f : A -> B -> res A) (g : A -> B -> A) l :
  (forall a x, In x l -> f a x = Ok (g a x)) ->
  forall a, foldM f l a = Ok (fold_left g l a).
Proof.
  intros H a. apply (foldM_inv (fun _ => True) f g l); [|exact I].
  intros a' x Hx _. split; [apply H, Hx|exact I].
Qed.

(* ---- lists as Python sequences -------------------------------------------- *)
Definition zlen {A} (l : list A) : Z := Z.of_nat (length l).

Definition zrange (a b : Z) : list Z :=
  map (fun k => a + Z.of_nat k) (seq 0 (Z.to_nat (b - a))).

Lemma in_zrange a b x : In x (zrange a b) <-> a <= x < b.
Proof.
  unfold zrange. rewrite in_map_iff. split.
  - intros [k [Hk Hin]]. apply in_seq in Hin. lia.
  - intros H. exists (Z.to_nat (x - a)). split; [lia|]. apply in_seq. lia.
Qed.

Lemma zrange_length a b : length (zrange a b) = Z.to_nat (b - a).
Proof. unfold zrange. rewrite map_length, seq_length. reflexivity. Qed.

Lemma zrange_empty a b : b <= a -> zrange a b = [].
Proof. intros H. unfold zrange. replace (Z.to_nat (b - a)) with 0%nat by lia. reflexivity. Qed.

Lemma zrange_snoc a b : a <= b -> zrange a (b + 1) = zrange a b ++ [b].
Proof.
  intros H. unfold zrange.
  replace (Z.to_nat (b + 1 - a)) with (S (Z.to_nat (b - a))) by lia.
  rewrite seq_S, map_app. cbn [map]. f_equal. f_equal. lia.
Qed.

Lemma zrange_cons a b : a < b -> zrange a b = a :: zrange (a + 1) b.
Proof.
  intros H. unfold zrange.
  replace (Z.to_nat (b - a)) with (S (Z.to_nat (b - (a + 1)))) by lia.
  cbn [seq map]. f_equal; [lia|].
  rewrite <- seq_shift, map_map. apply map_ext. intros k. lia.
Qed.

Lemma zrange_split a m b : a <= m <= b -> zrange a b = zrange a m ++ zrange m b.
Proof.
  intros [H1 H2].
  replace b with (m + Z.of_nat (Z.to_nat (b - m))) by lia.
  generalize (Z.to_nat (b - m)) as k. intros k.
  induction k as [|k IH].
  - replace (m + Z.of_nat 0) with m by lia.
    rewrite (zrange_empty m m) by lia. rewrite app_nil_r. reflexivity.
  - replace (m + Z.of_nat (S k)) with (m + Z.of_nat k + 1) by lia.
    rewrite (zrange_snoc a) by lia. rewrite (zrange_snoc m) by lia.
    rewrite IH, app_assoc. reflexivity.
Qed.

(* x[i] with Python's negative-index rule *)
Definition py_index {A} (l : list A) (i : Z) : res A :=
  let n := zlen l in
  let j := if i <? 0 then i + n else i in
  if (0 <=? j) && (j <? n)
  then match nth_error l (Z.to_nat j) with Some x => Ok x | None => Err IndexError end
  else Err IndexError.

Definition nthZ (l : list Z) (i : Z) : Z := nth (Z.to_nat i) l 0.

Lemma py_index_ok (l : list Z) i : 0 <= i < zlen l -> py_index l i = Ok (nthZ l i).
Proof.
  unfold py_index, zlen, nthZ. intros H.
  destruct (i <? 0) eqn:E1; [lia|].
  destruct ((0 <=? i) && (i <? Z.of_nat (length l))) eqn:E2; [|lia].
  destruct (nth_error l (Z.to_nat i)) eqn:E3.
  - f_equal. symmetry. apply nth_error_nth. exact E3.
  - apply nth_error_None in E3. lia.
Qed.

(* Python's clamping slice x[lo:hi] (step 1); None = omitted bound *)
Definition clamp_bound (n : Z) (b : Z) : Z :=
  let b' := if b <? 0 then b + n else b in
  if b' <? 0 then 0 else if n <? b' then n else b'.

Definition py_slice {A} (l : list A) (lo hi : option Z) : list A :=
  let n := zlen l in
  let a := match lo with None => 0 | Some v => clamp_bound n v end in
  let b := match hi with None => n | Some v => clamp_bound n v end in
  if b <=? a then [] else firstn (Z.to_nat (b - a)) (skipn (Z.to_nat a) l).

Definition is_byte (x : Z) : bool := (0 <=? x) && (x <? 256).
Definition all_bytes (l : list Z) : bool := forallb is_byte l.

(* bytearray([x]) : ValueError outside 0..255 *)
Definition mk_byte (x : Z) : res (list Z) :=
  if is_byte x then Ok [x] else Err ValueError.

Definition list_eqb (a b : list Z) : bool :=
  (Nat.eqb (length a) (length b)) && forallb (fun p => Z.eqb (fst p) (snd p)) (combine a b).

Lemma list_eqb_spec a b : list_eqb a b = true <-> a = b.
Proof.
  unfold list_eqb. revert b. induction a as [|x xs IH]; intros [|y ys]; cbn [length combine forallb fst snd Nat.eqb andb].
  - split; reflexivity.
  - split; congruence.
  - split; congruence.
  - specialize (IH ys). split.
    + intros H. apply andb_true_iff in H. destruct H as [H1 H2].
      apply andb_true_iff in H2. destruct H2 as [H2 H3]. apply Z.eqb_eq in H2.
      f_equal; [exact H2|]. apply IH. apply andb_true_iff. split; assumption.
    + intros H. injection H as Hx Hxs. apply (proj2 IH) in Hxs.
      apply andb_true_iff in Hxs. destruct Hxs as [A B].
      apply andb_true_iff. split; [exact A|]. apply andb_true_iff. split; [apply Z.eqb_eq; exact Hx|exact B].
Qed.

Definition py_div (a b : Z) : res Z := if b =? 0 then Err ZeroDivisionError else Ok (a / b).
Definition py_mod (a b : Z) : res Z := if b =? 0 then Err ZeroDivisionError else Ok (a mod b).
Definition pairZ_eqb (a b : Z * Z) : bool := (fst a =? fst b) && (snd a =? snd b).

Lemma pairZ_eqb_spec a b : pairZ_eqb a b = true <-> a = b.
Proof.
  destruct a as [a1 a2], b as [b1 b2]. unfold pairZ_eqb. cbn [fst snd].
  rewrite andb_true_iff, !Z.eqb_eq. split; [intros [-> ->]; reflexivity|intros H; injection H; auto].
Qed.

(* An hmac/hashlib object: public sizes, the keyed function as an oracle, and the
   bytes fed so far.  copy() is the identity on values, update appends, digest
   applies the oracle to everything fed (hashlib's documented contract). *)
Record HMac := { mac_ds : Z; mac_bs : Z; mac_fn : list Z -> list Z; mac_acc : list Z }.
Definition mac_update (m : HMac) (d : list Z) : HMac :=
  {| mac_ds := mac_ds m; mac_bs := mac_bs m; mac_fn := mac_fn m; mac_acc := mac_acc m ++ d |}.
Definition mac_digest (m : HMac) : list Z := mac_fn m (mac_acc m).

(* finite oracle table; a query outside the table yields [-1] so that a model
   that needs an unrecorded value can never agree with the implementation *)
Fixpoint table_lookup (t : list (list Z * list Z)) (q : list Z) : list Z :=
  match t with
  | [] => [-1]
  | (k, v) :: t' => if list_eqb k q then v else table_lookup t' q
  end.

(* ---- correspondence helper: indices of cases on which a check is false ----- *)
Fixpoint bad_idx_from {A} (f : A -> bool) (l : list A) (n : nat) : list nat :=
  match l with
  | [] => []
  | x :: xs => if f x then bad_idx_from f xs (S n) else n :: bad_idx_from f xs (S n)
  end.
Definition bad_idx {A} (f : A -> bool) (l : list A) : list nat := bad_idx_from f l 0.

Definition res_eqb {A} (eqb : A -> A -> bool) (a b : res A) : bool :=
  match a, b with
  | Ok x, Ok y => eqb x y
  | Err _, Err _ => true     (* error classes are compared separately where needed *)
  | _, _ => false
  end.

Definition exn_code (e : exn) : Z :=
  match e with
  | IndexError => 1 | ValueError => 2 | AssertionError => 3 | AttributeError => 4
  | TypeError => 5 | KeyError => 6 | OutOfFuel => 7 | DecodeError => 8
  | ZeroDivisionError => 9
  | OtherExn c => 100 + c
  end.

(* compare a model outcome with the implementation's: Some value / None + error code *)
Definition res_matches {A} (eqb : A -> A -> bool) (m : res A) (impl : option A) (code : Z) : bool :=
  match m, impl with
  | Ok x, Some y => eqb x y
  | Err e, None => Z.eqb (exn_code e) code
  | _, _ => false
  end.
