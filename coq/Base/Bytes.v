(* Byte strings as numbers, once.  The model files define the big-endian encoding of a number on k bytes, the
   value of a byte string, and the XOR of two byte strings several times each (Writer.add, int.to_bytes,
   numberToByteArray, Parser.get, bytesToNumber, ...).  Here is one copy of each, [be], [num], [xor], with the
   facts the proofs use.  Most copies are convertible with them: then the lemmas below apply as they stand wherever
   they close a goal; an equation that is rewritten with, or a
   bound handed to lia, is restated under the model's name by [exact], since a second name for the same function
   left in a goal is one that lia, f_equal and, on large closed terms, the kernel do not see through.  The copies
   that are not convertible (C11_Lib.be_bytes, C12_Seq.be_bytes and be_value) are equated with these by an
   induction in their property's facts file. *)
From Coq Require Import ZArith List Bool Lia.
From TV Require Import Base.Prelude Base.PreludeFacts.
Import ListNotations.
Open Scope Z_scope.

(* the k low-order base-256 digits of n, most significant first *)
Fixpoint be (k : nat) (n : Z) : list Z :=
  match k with
  | O => []
  | S k' => be k' (n / 256) ++ [n mod 256]
  end.

Definition num (l : list Z) : Z := fold_left (fun a b => a * 256 + b) l 0.

Definition xor (a b : list Z) : list Z := map (fun p => Z.lxor (fst p) (snd p)) (combine a b).

Lemma pow256_gt0 k : 0 < 256 ^ Z.of_nat k.
Proof. apply Z.pow_pos_nonneg; lia. Qed.

Lemma pow256_S k : 256 ^ Z.of_nat (S k) = 256 * 256 ^ Z.of_nat k.
Proof. rewrite Nat2Z.inj_succ, Z.pow_succ_r by lia. reflexivity. Qed.

Lemma pow256_zlen_cons {A} (x : A) l : 256 ^ zlen (x :: l) = 256 * 256 ^ zlen l.
Proof. apply pow256_S. Qed.

Lemma pow256_2 k : 0 <= k -> 256 ^ k = 2 ^ (8 * k).
Proof. intros Hk. rewrite Z.pow_mul_r by lia. reflexivity. Qed.

Lemma be_length k n : length (be k n) = k.
Proof. revert n. induction k as [|k IH]; intros n; cbn [be]; [reflexivity|]. rewrite app_length, IH. cbn [length]. lia. Qed.

Lemma be_zlen k n : zlen (be k n) = Z.of_nat k.
Proof. unfold zlen. rewrite be_length. reflexivity. Qed.

Lemma be_zlen_Z k n : 0 <= k -> zlen (be (Z.to_nat k) n) = k.
Proof. intros H. rewrite be_zlen. lia. Qed.

Lemma be_all_bytes k n : all_bytes (be k n) = true.
Proof.
  revert n. induction k as [|k IH]; intros n; cbn [be]; [reflexivity|].
  rewrite all_bytes_app, IH, all_bytes_cons, is_byte_mod. reflexivity.
Qed.

Lemma be_S_front k n : be (S k) n = (n / 256 ^ Z.of_nat k) mod 256 :: be k n.
Proof.
  revert n. induction k as [|k IH]; intros n; [cbn [be app]; rewrite Z.div_1_r; reflexivity|].
  change (be (S (S k)) n) with (be (S k) (n / 256) ++ [n mod 256]). rewrite IH. cbn [be app].
  rewrite Z.div_div, <- pow256_S by (pose proof (pow256_gt0 k); lia). reflexivity.
Qed.

Lemma num_snoc l b : num (l ++ [b]) = num l * 256 + b.
Proof. unfold num. rewrite fold_left_app. reflexivity. Qed.

Lemma num_acc l a : fold_left (fun a b => a * 256 + b) l a = a * 256 ^ zlen l + num l.
Proof.
  unfold num. revert a. induction l as [|x l IH]; intros a; cbn [fold_left]; [cbn; lia|].
  rewrite IH, (IH (0 * 256 + x)), pow256_zlen_cons. lia.
Qed.

Lemma num_cons x l : num (x :: l) = x * 256 ^ zlen l + num l.
Proof. unfold num at 1. cbn [fold_left]. rewrite num_acc. lia. Qed.

Lemma num_zeros n l : num (repeat 0 n ++ l) = num l.
Proof. induction n as [|n IH]; cbn [repeat app]; [reflexivity|]. rewrite num_cons, IH. lia. Qed.

(* sign alone needs no upper bound on the digits *)
Lemma num_nonneg l : Forall (fun x => 0 <= x) l -> 0 <= num l.
Proof.
  induction l as [|b l IH] using rev_ind; intros H; [cbn; lia|].
  apply Forall_app in H. destruct H as [Hl Hb]. inversion Hb; subst. rewrite num_snoc. specialize (IH Hl). lia.
Qed.

Lemma num_range l : all_bytes l = true -> 0 <= num l < 256 ^ zlen l.
Proof.
  induction l as [|x l IH]; intros H; [cbn; lia|].
  rewrite all_bytes_cons in H. apply andb_prop in H. destruct H as [Hx Hl]. apply is_byte_iff in Hx.
  specialize (IH Hl). rewrite num_cons, pow256_zlen_cons. nia.
Qed.

Lemma num_be k n : num (be k n) = n mod 256 ^ Z.of_nat k.
Proof.
  revert n. induction k as [|k IH]; intros n; [cbn; rewrite Z.mod_1_r; reflexivity|].
  cbn [be]. rewrite num_snoc, IH, pow256_S, (Z.rem_mul_r n 256) by (pose proof (pow256_gt0 k); lia). lia.
Qed.

Lemma num_be_small k n : 0 <= n < 256 ^ Z.of_nat k -> num (be k n) = n.
Proof. intros H. rewrite num_be. apply Z.mod_small, H. Qed.

Lemma num_be_Z k n : 0 <= k -> 0 <= n < 256 ^ k -> num (be (Z.to_nat k) n) = n.
Proof. intros Hk H. apply num_be_small. rewrite Z2Nat.id; assumption. Qed.

Lemma be_of_num l : all_bytes l = true -> be (length l) (num l) = l.
Proof.
  induction l as [|b l IH] using rev_ind; intros H; [reflexivity|].
  rewrite all_bytes_app, all_bytes_cons in H. apply andb_prop in H. destruct H as [Hl Hb].
  apply andb_prop in Hb. destruct Hb as [Hb _]. apply is_byte_iff in Hb.
  rewrite app_length, Nat.add_comm, num_snoc. cbn [length plus be].
  replace ((num l * 256 + b) / 256) with (num l) by (Z.div_mod_to_equations; lia).
  replace ((num l * 256 + b) mod 256) with b by (Z.div_mod_to_equations; lia).
  rewrite IH by exact Hl. reflexivity.
Qed.

Lemma be_inj k a b : 0 <= a < 256 ^ Z.of_nat k -> 0 <= b < 256 ^ Z.of_nat k -> be k a = be k b -> a = b.
Proof. intros Ha Hb E. apply (f_equal num) in E. rewrite !num_be_small in E by assumption. exact E. Qed.

Lemma num_inj a b : all_bytes a = true -> all_bytes b = true -> zlen a = zlen b -> num a = num b -> a = b.
Proof.
  intros Ha Hb Hl E. rewrite <- (be_of_num a Ha), <- (be_of_num b Hb), E. f_equal. unfold zlen in Hl. lia.
Qed.

Lemma xor_cons x a y b : xor (x :: a) (y :: b) = Z.lxor x y :: xor a b.
Proof. reflexivity. Qed.

Lemma xor_length a b : length (xor a b) = Nat.min (length a) (length b).
Proof. unfold xor. rewrite map_length. apply combine_length. Qed.

Lemma xor_length_le a b : (length a <= length b)%nat -> length (xor a b) = length a.
Proof. intros H. rewrite xor_length. lia. Qed.

Lemma xor_zlen a b : zlen (xor a b) = Z.min (zlen a) (zlen b).
Proof. unfold zlen. rewrite xor_length. lia. Qed.

Lemma xor_comm a b : xor a b = xor b a.
Proof.
  revert b. induction a as [|x a IH]; intros [|y b]; try reflexivity. rewrite !xor_cons, IH, Z.lxor_comm. reflexivity.
Qed.

Lemma xor_app a1 a2 b1 b2 : length a1 = length b1 -> xor (a1 ++ a2) (b1 ++ b2) = xor a1 b1 ++ xor a2 b2.
Proof.
  revert b1. induction a1 as [|x a1 IH]; intros [|y b1] H; try discriminate; [reflexivity|].
  cbn [app]. rewrite !xor_cons, IH by (injection H; trivial). reflexivity.
Qed.

Lemma xor_app_l a m x : (length a <= length m)%nat -> xor a (m ++ x) = xor a m.
Proof.
  revert m. induction a as [|y a IH]; intros [|z m] H; try reflexivity; cbn [length] in H; [lia|].
  cbn [app]. rewrite !xor_cons, IH by lia. reflexivity.
Qed.

Lemma xor_split a b m : (length a <= length m)%nat -> xor (a ++ b) m = xor a m ++ xor b (skipn (length a) m).
Proof.
  intros H. rewrite <- (firstn_skipn (length a) m) at 1 2.
  rewrite xor_app, xor_app_l by (rewrite firstn_length; lia). reflexivity.
Qed.

Lemma xor_involutive a b : (length a <= length b)%nat -> xor (xor a b) b = a.
Proof.
  revert b. induction a as [|x a IH]; intros [|y b] H; try reflexivity; cbn [length] in H; [lia|].
  rewrite !xor_cons, IH, Z.lxor_assoc, Z.lxor_nilpotent, Z.lxor_0_r by lia. reflexivity.
Qed.

Lemma xor_inj_l a b k : length a = length k -> length b = length k -> xor a k = xor b k -> a = b.
Proof.
  intros Ha Hb E. rewrite <- (xor_involutive a k), E by lia. apply xor_involutive. lia.
Qed.

Lemma xor_zeros n l : xor (repeat 0 n) l = firstn n l.
Proof.
  revert l. induction n as [|n IH]; intros [|x l]; try reflexivity.
  cbn [repeat firstn]. rewrite xor_cons, IH. reflexivity.
Qed.

Lemma xor_all_bytes a b : all_bytes a = true -> all_bytes b = true -> all_bytes (xor a b) = true.
Proof.
  revert b. induction a as [|x a IH]; intros [|y b] Ha Hb; try reflexivity.
  rewrite all_bytes_cons in *. apply andb_prop in Ha, Hb. destruct Ha as [Hx Ha], Hb as [Hy Hb].
  rewrite xor_cons, all_bytes_cons, IH by assumption. rewrite andb_true_r.
  apply is_byte_iff, lxor_byte; apply is_byte_iff; assumption.
Qed.
