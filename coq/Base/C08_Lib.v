(* C08 library: the four-way outcome of a translated decision region, with every
   partial Python operation as an explicit [Crash], Python truthiness/sequence
   helpers used by translator/crashlite.py, and the generic proof rules used by
   the symbolic-execution tactic. *)
From Coq Require Import ZArith List Bool String.
From TV Require Import Base.Prelude.
Import ListNotations.
Open Scope Z_scope.

(* OK v        : the region ran to its end / the expression evaluated
   Alert d     : the idiom  for result in self._sendError(d, ..): yield result
                 (sends fatal alert d, shuts down, raises TLSLocalAlert)
   Raised c    : a documented library exception raised directly (no alert)
   Crash k s   : an undocumented Python exception of kind k at program point s *)
Inductive outcome (A : Type) :=
| OK (a : A)
| Alert (d : Z)
| Raised (cls : string)
| Crash (kind : string) (site : string).
Arguments OK {A} a.
Arguments Alert {A} d.
Arguments Raised {A} cls.
Arguments Crash {A} kind site.

Definition bindo {A B} (m : outcome A) (f : A -> outcome B) : outcome B :=
  match m with
  | OK a => f a
  | Alert d => Alert d
  | Raised c => Raised c
  | Crash k s => Crash k s
  end.
Notation "x <~ m ;; k" := (bindo m (fun x => k))
  (at level 61, m at next level, right associativity).
Notation "' p <~ m ;; k" := (bindo m (fun p => k))
  (at level 61, p pattern, m at next level, right associativity).

Fixpoint foldMo {A B} (f : A -> B -> outcome A) (l : list B) (a : A) : outcome A :=
  match l with
  | [] => OK a
  | x :: xs => bindo (f a x) (foldMo f xs)
  end.

Definition is_crash {A} (o : outcome A) : bool :=
  match o with Crash _ _ => true | _ => false end.

Definition ncrash {A} (o : outcome A) : Prop :=
  match o with Crash _ _ => False | _ => True end.

(* crashes, if any, only at the listed program points *)
Definition crash_in {A} (sites : list string) (o : outcome A) : Prop :=
  match o with Crash _ s => In s sites | _ => True end.

Definition crash_site {A} (o : outcome A) : option (string * string) :=
  match o with Crash k s => Some (k, s) | _ => None end.

(* integer code of an outcome, for the comparison with the running implementation:
   0 = OK, 1000 + d = Alert d, 2000 = Raised, 3000 = Crash *)
Definition outcome_code {A} (o : outcome A) : Z :=
  match o with OK _ => 0 | Alert d => 1000 + d | Raised _ => 2000 | Crash _ _ => 3000 end.

Definition outcome_text {A} (o : outcome A) : string :=
  match o with
  | OK _ => "ok" | Alert _ => "alert" | Raised c => c
  | Crash k s => k ++ "@" ++ s
  end%string.

(* ---- Python helpers ------------------------------------------------------ *)
Definition nonempty {A} (l : list A) : bool := match l with [] => false | _ => true end.
Definition is_some {A} (o : option A) : bool := match o with Some _ => true | None => false end.
Definition is_none {A} (o : option A) : bool := match o with Some _ => false | None => true end.
Definition truthy_opt {A} (t : A -> bool) (o : option A) : bool :=
  match o with None => false | Some a => t a end.
Definition always_true {A} (_ : A) : bool := true.

Definition ver := (Z * Z)%type.
Definition ver_eqb (a b : ver) : bool := (fst a =? fst b) && (snd a =? snd b).
Definition ver_ltb (a b : ver) : bool :=
  (fst a <? fst b) || ((fst a =? fst b) && (snd a <? snd b)).
Definition ver_leb (a b : ver) : bool := ver_ltb a b || ver_eqb a b.

Definition opt_eqb {A} (e : A -> A -> bool) (a b : option A) : bool :=
  match a, b with
  | None, None => true
  | Some x, Some y => e x y
  | _, _ => false
  end.

Fixpoint lst_eqb {A} (e : A -> A -> bool) (a b : list A) : bool :=
  match a, b with
  | [], [] => true
  | x :: xs, y :: ys => e x y && lst_eqb e xs ys
  | _, _ => false
  end.

Definition mem {A} (e : A -> A -> bool) (x : A) (l : list A) : bool := existsb (e x) l.

Fixpoint has_dups {A} (e : A -> A -> bool) (l : list A) : bool :=
  match l with
  | [] => false
  | x :: xs => mem e x xs || has_dups e xs
  end.

(* len(set(l)) *)
Fixpoint dedup {A} (e : A -> A -> bool) (l : list A) : list A :=
  match l with
  | [] => []
  | x :: xs => if mem e x xs then dedup e xs else x :: dedup e xs
  end.

Definition is_ascii (b : list Z) : bool := forallb (fun x => (0 <=? x) && (x <? 128)) b.

(* x[i] on a Python sequence, negative indices wrap; IndexError explicit *)
Definition seq_index {A} (site : string) (l : list A) (i : Z) : outcome A :=
  match py_index l i with
  | Ok x => OK x
  | Err _ => Crash "IndexError" site
  end.

(* first element matching, as next((i for i in l if p i), None) *)
Definition find_first {A} (p : A -> bool) (l : list A) : option A := find p l.

(* comprehension forms whose condition/element can fail (evaluated element by element,
   left to right, exactly as the Python generator does) *)
Fixpoint find_firstM {A} (p : A -> outcome bool) (l : list A) : outcome (option A) :=
  match l with
  | [] => OK None
  | x :: xs => bindo (p x) (fun b => if b then OK (Some x) else find_firstM p xs)
  end.
Fixpoint existsbM {A} (p : A -> outcome bool) (l : list A) : outcome bool :=
  match l with
  | [] => OK false
  | x :: xs => bindo (p x) (fun b => if b then OK true else existsbM p xs)
  end.
Fixpoint filterM {A} (p : A -> outcome bool) (l : list A) : outcome (list A) :=
  match l with
  | [] => OK []
  | x :: xs => bindo (p x) (fun b => bindo (filterM p xs) (fun r => OK (if b then x :: r else r)))
  end.
Fixpoint mapM {A B} (f : A -> outcome B) (l : list A) : outcome (list B) :=
  match l with
  | [] => OK []
  | x :: xs => bindo (f x) (fun y => bindo (mapM f xs) (fun r => OK (y :: r)))
  end.

Lemma crash_in_bindo {A B} sites (m : outcome A) (f : A -> outcome B) :
  crash_in sites m -> (forall a, m = OK a -> crash_in sites (f a)) -> crash_in sites (bindo m f).
Proof.
  destruct m; cbn [bindo crash_in]; intros H1 H2; auto.
Qed.

Lemma crash_in_foldMo {A B} sites (f : A -> B -> outcome A) l :
  (forall a x, In x l -> crash_in sites (f a x)) -> forall a, crash_in sites (foldMo f l a).
Proof.
  induction l as [|x xs IH]; intros H a; cbn [foldMo crash_in]; [exact I|].
  apply crash_in_bindo.
  - apply H. left. reflexivity.
  - intros a' _. apply IH. intros a0 y Hy. apply H. right. exact Hy.
Qed.

Lemma crash_in_nil_ncrash {A} (o : outcome A) : crash_in [] o <-> ncrash o.
Proof. destruct o; cbn; tauto. Qed.

Lemma crash_in_mono {A} s1 s2 (o : outcome A) : incl s1 s2 -> crash_in s1 o -> crash_in s2 o.
Proof. destruct o; cbn; auto. Qed.

Lemma crash_in_find_firstM {A} sites (p : A -> outcome bool) l :
  (forall x, crash_in sites (p x)) -> crash_in sites (find_firstM p l).
Proof.
  intros H. induction l as [|x xs IH]; cbn [find_firstM crash_in]; [exact I|].
  apply crash_in_bindo; [apply H|]. intros [|] _; [exact I|exact IH].
Qed.
Lemma crash_in_existsbM {A} sites (p : A -> outcome bool) l :
  (forall x, crash_in sites (p x)) -> crash_in sites (existsbM p l).
Proof.
  intros H. induction l as [|x xs IH]; cbn [existsbM crash_in]; [exact I|].
  apply crash_in_bindo; [apply H|]. intros [|] _; [exact I|exact IH].
Qed.
Lemma crash_in_filterM {A} sites (p : A -> outcome bool) l :
  (forall x, crash_in sites (p x)) -> crash_in sites (filterM p l).
Proof.
  intros H. induction l as [|x xs IH]; cbn [filterM crash_in]; [exact I|].
  apply crash_in_bindo; [apply H|]. intros b _.
  apply crash_in_bindo; [exact IH|]. intros r _. exact I.
Qed.
Lemma crash_in_mapM {A B} sites (f : A -> outcome B) l :
  (forall x, crash_in sites (f x)) -> crash_in sites (mapM f l).
Proof.
  intros H. induction l as [|x xs IH]; cbn [mapM crash_in]; [exact I|].
  apply crash_in_bindo; [apply H|]. intros b _.
  apply crash_in_bindo; [exact IH|]. intros r _. exact I.
Qed.
