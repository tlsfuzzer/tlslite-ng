(* C09: the oracles of the regenerated code: hash / HMAC (KDF) and the Rijndael block cipher (AES modes). *)
From Coq Require Import ZArith List Bool String.
From TV Require Import Base.Prelude.
Import ListNotations.
Open Scope Z_scope.
Open Scope string_scope.

(* ---- hash / HMAC oracles ------------------------------------------------------- *)
(* hashlib and hmac are not modelled: o_hash alg data and o_hmac alg key data stand for
   hashlib.new(alg, data).digest() and hmac.new(key, data, alg).digest() *)
Record Oracles := mkOracles {
  o_hash : string -> list Z -> list Z;
  o_hmac : string -> list Z -> list Z -> list Z }.

Definition digest_size (alg : string) : option Z :=
  if String.eqb alg "md5" then Some 16 else if String.eqb alg "sha1" then Some 20
  else if String.eqb alg "sha224" then Some 28 else if String.eqb alg "sha256" then Some 32
  else if String.eqb alg "sha384" then Some 48 else if String.eqb alg "sha512" then Some 64 else None.
Definition hash_block_size (alg : string) : Z :=
  if String.eqb alg "sha384" then 128 else if String.eqb alg "sha512" then 128 else 64.

(* getattr(hashlib, alg)().digest_size *)
Definition py_digest_size (alg : string) : res Z :=
  match digest_size alg with Some n => Ok n | None => Err AttributeError end.

(* hmac.HMAC(key, digestmod=alg): ValueError for an unknown digest name *)
Definition mk_hmac (O : Oracles) (alg : string) (key : list Z) : res HMac :=
  match digest_size alg with
  | Some n => Ok {| mac_ds := n; mac_bs := hash_block_size alg; mac_fn := o_hmac O alg key; mac_acc := [] |}
  | None => Err ValueError
  end.


(* ---- block cipher oracles ------------------------------------------------------------ *)
(* bo_enc key block / bo_dec key block stand for Rijndael(key, 16).encrypt(block) / .decrypt(block) *)
Record BlockOracle := mkBlockOracle {
  bo_enc : list Z -> list Z -> list Z;
  bo_dec : list Z -> list Z -> list Z }.

(* Rijndael(key, block_size): the key schedule is part of the oracle; the constructor only checks sizes *)
Definition mk_rijndael (key : list Z) (block_size : Z) : res (list Z) :=
  if negb (Z.eqb block_size 16 || Z.eqb block_size 24 || Z.eqb block_size 32) then Err ValueError
  else if negb (Z.eqb (zlen key) 16 || Z.eqb (zlen key) 24 || Z.eqb (zlen key) 32) then Err ValueError
  else Ok key.
