(* C19 -- validate() seen on contents only (no heap), and the refinement lemma: the by-reference
   model computes it on every well-formed object, whatever its attributes share (since /repo 851aa29
   validate() writes only to cells it allocated itself). *)
From Coq Require Import ZArith List Bool String Lia.
From TV Require Import Base.Prelude Base.ListUpd Model.C19_Settings Spec.C19_Domain Proofs.C19_Frame.
Import ListNotations.
Open Scope Z_scope.

Definition not_3des (v : val) : bool := negb (py_eq v (VStr "3des")).

Definition cchecks_A (T : tables) (v : list (list val)) (c : scalars) : res unit :=
  _ <- guard (isnil (nth F_certificateTypes v [])) ;;
  _ <- sanityCheckKeySizes v c ;;
  _ <- sanityCheckPrimitivesNames T v c ;;
  sanityCheckProtocolVersions_raises T c.

Definition cstep_versions (v : list (list val)) (c : scalars) : res (list (list val)) :=
  match filter_range (clip_lo (minVersion c)) (maxVersion c) (nth F_versions v []) with
  | Ok l => Ok (lupd v F_versions l)
  | Err e => Err e
  end.

Definition cstep_mac (v0 v1 : list (list val)) (c : scalars) : list (list val) :=
  if ver_lt (maxVersion c) (3, 3) then lupd v1 F_macNames (filter keep_old_mac (nth F_macNames v0 [])) else v1.

Definition cstep_impl (I : install) (v : list (list val)) : list (list val) :=
  lupd v F_cipherImplementations (filter (impl_available I) (nth F_cipherImplementations v [])).

Definition cstep_ciphers (I : install) (v : list (list val)) : list (list val) :=
  if negb (i_tdes I) then lupd v F_cipherNames (filter not_3des (nth F_cipherNames v [])) else v.

Definition cchecks_C (T : tables) (v : list (list val)) (c : scalars) : res unit :=
  _ <- sanityCheckPsks T v ;; sanityCheckTicketSettings T v c.

Definition cvalidate (T : tables) (I : install) (v : list (list val)) (c : scalars) : res (list (list val)) :=
  match cchecks_A T v c with Err e => Err e | Ok _ =>
  match cstep_versions v c with Err e => Err e | Ok v1 =>
  match sanityCheckExtensions T v1 c with Err e => Err e | Ok _ =>
  let v2 := cstep_mac v v1 c in
  match cchecks_C T v2 c with Err e => Err e | Ok _ =>
  let v4 := cstep_impl I v2 in
  if isnil (nth F_cipherImplementations v4 []) then Err ValueError else
  let v5 := cstep_ciphers I v4 in
  if isnil (nth F_cipherNames v5 []) then Err ValueError else Ok v5
  end end end end.

Lemma wf_length h o : wf h o = true -> List.length (locs o) = NF.
Proof. unfold wf. intros H. apply andb_true_iff in H. destruct H as [H _]. apply Nat.eqb_eq in H. exact H. Qed.

Lemma wf_alloc h o l : wf h o = true -> In l (locs o) -> (l < List.length h)%nat.
Proof.
  unfold wf. intros H Hl. apply andb_true_iff in H. destruct H as [_ H]. rewrite forallb_forall in H.
  apply Nat.ltb_lt. apply H. exact Hl.
Qed.

Lemma G_lists h o f : (f < List.length (locs o))%nat -> G h o f = nth f (lists h o) [].
Proof.
  intros H. unfold G, L, lists.
  rewrite (nth_indep (map (hget h) (locs o)) [] (hget h O)) by (rewrite map_length; exact H).
  rewrite map_nth. reflexivity.
Qed.

Lemma lists_length h o : List.length (lists h o) = List.length (locs o).
Proof. unfold lists. apply map_length. Qed.

Lemma lists_NF h o : wf h o = true -> List.length (lists h o) = NF.
Proof. intros W. rewrite lists_length. apply (wf_length h o W). Qed.

Lemma lists_frame h h' o : wf h o = true -> frame_all h h' -> lists h' o = lists h o.
Proof. intros W [_ Fr]. apply map_ext_in. intros l Hl. apply Fr. eapply wf_alloc; eassumption. Qed.

Lemma lupd_lupd {A} (l : list A) k x y : lupd (lupd l k x) k y = lupd l k y.
Proof. exact (upd_twice l k x y). Qed.

Lemma map_hget_hset h q x (l : list loc) k :
  nth k l O = q -> (k < List.length l)%nat -> (q < List.length h)%nat ->
  (forall j, (j < List.length l)%nat -> j <> k -> nth j l O <> q) ->
  map (hget (hset h q x)) l = lupd (map (hget h) l) k x.
Proof.
  revert k. induction l as [|a t IH]; intros [|k] Hk Hlen Hq U; cbn [List.length nth map lupd] in *; try lia.
  - subst a. rewrite hget_hset_eq by exact Hq. f_equal.
    apply map_ext_in. intros b Hb. apply hget_hset_neq.
    destruct (In_nth t b O Hb) as [j [Hj Ej]]. specialize (U (Datatypes.S j) ltac:(lia) ltac:(lia)). cbn in U. congruence.
  - rewrite hget_hset_neq.
    + f_equal. apply IH; auto; [lia|]. intros j Hj Hjk. apply (U (Datatypes.S j)); lia.
    + specialize (U O ltac:(lia) ltac:(lia)). cbn in U. exact U.
Qed.

Lemma L_rebind_other o f p g : g <> f -> L (set_loc o f p) g = L o g.
Proof. apply L_set_loc_neq. Qed.

Lemma nth_in_range {A} (l : list A) f d : True -> nth f l d = nth f l d.
Proof. reflexivity. Qed.

(* The simulation kept along validate(): the object o under construction is allocated in the current
   heap h, its list attributes hold v, and its scalars are still those of the receiver s. *)
Set Implicit Arguments.
Record sim (s : settings) (h : heap) (o : settings) (v : list (list val)) : Prop := {
  sim_wf : wf h o = true;
  sim_lists : lists h o = v;
  sim_sc : sc o = sc s }.
Unset Implicit Arguments.

Lemma sim_G s h o v f : sim s h o v -> (f <? NF)%nat = true -> G h o f = nth f v [].
Proof. intros [W <- _] Hf. apply G_lists. rewrite (wf_length h o W). apply Nat.ltb_lt. exact Hf. Qed.

Lemma sim_alloc s h o v f y : sim s h o v -> sim s (fst (alloc h o f y)) (snd (alloc h o f y)) (lupd v f y).
Proof.
  intros [W <- C]. cbn [alloc fst snd]. split; [| |exact C].
  - pose proof W as W0. unfold wf in W0 |- *. apply andb_true_iff in W0. destruct W0 as [W1 W2].
    cbn [locs set_loc]. rewrite upd_length, W1, app_length. apply forallb_upd; [|apply Nat.ltb_lt; cbn; lia].
    rewrite forallb_forall in *. intros l Hl. apply Nat.ltb_lt. apply (wf_alloc h o l W) in Hl. lia.
  - unfold lists at 1. cbn [locs set_loc]. rewrite map_lupd, hget_app_new. f_equal. apply (lists_frame h _ o W (frame_alloc h y)).
Qed.

Lemma sim_macnames s h0 h o v0 v :
  wf h0 s = true -> lists h0 s = v0 -> frame_all h0 h -> sim s h o v ->
  sim s (fst (step_macnames s h o)) (snd (step_macnames s h o)) (cstep_mac v0 v (sc s)).
Proof.
  intros W0 V0 F0 S. rewrite step_macnames_eq. unfold cstep_mac. rewrite (sim_sc S).
  destruct (ver_lt (maxVersion (sc s)) (3, 3)); [|exact S].
  replace (nth F_macNames v0 []) with (G h s F_macNames); [apply (sim_alloc s h o v), S|].
  rewrite <- V0, <- (lists_frame h0 h s W0 F0). apply G_lists. rewrite (wf_length h0 s W0). unfold NF, F_macNames. lia.
Qed.

Lemma sim_impl I s h o v : sim s h o v -> sim s (fst (step_impl I h o)) (snd (step_impl I h o)) (cstep_impl I v).
Proof.
  intros S. unfold cstep_impl. rewrite step_impl_eq, <- (sim_G s h o v F_cipherImplementations S eq_refl).
  apply (sim_alloc s h o v), S.
Qed.

Lemma sim_ciphers I s h o v : sim s h o v -> sim s (fst (step_ciphers I h o)) (snd (step_ciphers I h o)) (cstep_ciphers I v).
Proof.
  intros S. unfold cstep_ciphers. rewrite step_ciphers_eq. destruct (i_tdes I); [exact S|]. cbn [negb].
  rewrite <- (sim_G s h o v F_cipherNames S eq_refl). apply (sim_alloc s h o v), S.
Qed.

Lemma validate_refines T I h s :
  wf h s = true ->
  match validate T I h s with
  | (h', Ok s') => cvalidate T I (lists h s) (sc s) = Ok (lists h' s') /\ sc s' = sc s /\ wf h' s' = true
  | (h', Err e) => cvalidate T I (lists h s) (sc s) = Err e
  end.
Proof.
  intros W. assert (S0 : sim s h s (lists h s)) by (split; auto).
  unfold validate, cvalidate, checks_A. rewrite (sim_G s h s _ F_certificateTypes S0 eq_refl). fold (cchecks_A T (lists h s) (sc s)).
  destruct (cchecks_A T (lists h s) (sc s)); [|reflexivity].
  rewrite step_versions_eq. unfold cstep_versions. rewrite (sim_G s h s _ F_versions S0 eq_refl).
  destruct (filter_range _ _ (nth F_versions (lists h s) [])) as [y|]; [|reflexivity].
  pose proof (sim_alloc s h s _ F_versions y S0) as S1. unfold alloc in *.
  cbn [fst snd] in S1. set (h1 := (h ++ [y])%list) in *. set (o1 := set_loc s F_versions (List.length h)) in *.
  rewrite (sim_lists S1), (sim_sc S1).
  destruct (sanityCheckExtensions T _ (sc s)); [|reflexivity].
  pose proof (sim_macnames s h h1 o1 _ _ W eq_refl (frame_alloc h y) S1) as S2.
  destruct (step_macnames s h1 o1) as [h2 o2]. cbn [fst snd] in S2.
  unfold checks_C. rewrite (sim_lists S2), (sim_sc S2). fold (cchecks_C T (cstep_mac (lists h s) (lupd (lists h s) F_versions y) (sc s)) (sc s)).
  destruct (cchecks_C T _ (sc s)); [|reflexivity]. cbv zeta.
  pose proof (sim_impl I s h2 o2 _ S2) as S4.
  destruct (step_impl I h2 o2) as [h4 o4]. cbn [fst snd] in S4.
  rewrite (sim_G s h4 o4 _ F_cipherImplementations S4 eq_refl).
  destruct (isnil (nth F_cipherImplementations _ [])); [reflexivity|].
  pose proof (sim_ciphers I s h4 o4 _ S4) as S5.
  destruct (step_ciphers I h4 o4) as [h5 o5]. cbn [fst snd] in S5.
  rewrite (sim_G s h5 o5 _ F_cipherNames S5 eq_refl).
  destruct (isnil (nth F_cipherNames _ [])); [reflexivity|].
  destruct S5 as [W5 V5 C5]. rewrite V5. auto.
Qed.

Corollary validate_is_ok T I h s :
  wf h s = true -> is_ok (snd (validate T I h s)) = is_ok (cvalidate T I (lists h s) (sc s)).
Proof.
  intros W. pose proof (validate_refines T I h s W) as R.
  destruct (validate T I h s) as [h' [s'|e]]; cbn [snd]; [destruct R as [-> _]|rewrite R]; reflexivity.
Qed.
