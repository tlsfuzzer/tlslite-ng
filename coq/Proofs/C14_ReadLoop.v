(* C14 lemmas: one read()/readAsync() call conserves data and tickets: what it returns and leaves
   buffered is what was buffered and what the messages it consumed carried. *)
From Coq Require Import ZArith List Lia.
From TV Require Import Base.Prelude Base.PreludeFacts Model.C14_ReadLoop.
Import ListNotations.
Open Scope Z_scope.

Definition n_tickets (ms : list msg) : Z :=
  zlen (filter (fun m => match m with MTicket => true | _ => false end) ms).

Lemma n_tickets_cons m ms :
  n_tickets (m :: ms) = (match m with MTicket => 1 | _ => 0 end) + n_tickets ms.
Proof. unfold n_tickets. rewrite zlen_filter_cons. destruct m; reflexivity. Qed.

Lemma handle_conserves m st ms :
  r_buf (fst (handle m st)) ++ data_of ms = r_buf st ++ data_of (m :: ms) /\
  r_tickets (fst (handle m st)) + n_tickets ms = r_tickets st + n_tickets (m :: ms).
Proof.
  rewrite n_tickets_cons. unfold data_of. cbn [map concat].
  destruct m; cbn [handle fst r_buf r_tickets]; rewrite <- ?app_assoc; split; reflexivity || lia.
Qed.

Lemma read_loop_conserves mx mn : forall ms t st,
  let '(r, st', ms') := read_loop mx mn t st ms in
  exists consumed, ms = consumed ++ ms' /\
    delivered r ++ r_buf st' = r_buf st ++ data_of consumed /\
    r_tickets st' = r_tickets st + n_tickets consumed /\
    (r = RPending -> ms' = []).
Proof.
  (* leaving the loop consumes nothing and cuts the buffer in two *)
  assert (Hfin : forall st ms, exists consumed, ms = consumed ++ ms /\
    delivered (fst (finish mx st)) ++ r_buf (snd (finish mx st)) = r_buf st ++ data_of consumed /\
    r_tickets (snd (finish mx st)) = r_tickets st + n_tickets consumed /\
    (fst (finish mx st) = RPending -> ms = [])).
  { intros st ms. exists []. unfold finish. cbn. rewrite app_nil_r, Z.add_0_r.
    repeat split; [destruct mx; apply py_slice_split|discriminate]. }
  induction ms as [|m ms IH]; intros t st; cbn [read_loop];
    (destruct (loop_cond mn t st);
     [|specialize (Hfin st); destruct (finish mx st); apply Hfin]).
  - exists []. cbn. rewrite app_nil_r, Z.add_0_r. repeat split.
  - pose proof (handle_conserves m st) as Hh. destruct (handle m st) as [st1 t1]. cbn [fst] in Hh.
    specialize (IH t1 st1). destruct (read_loop mx mn t1 st1 ms) as [[r st'] ms'].
    destruct IH as (consumed & H1 & H2 & H3 & H4). destruct (Hh consumed) as [Hb Ht].
    exists (m :: consumed). rewrite H1, H2, H3. auto.
Qed.
