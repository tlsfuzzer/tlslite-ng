(* Every body accepted by the CBC MAC-and-padding specification, or by the padding check of
   _macThenDecrypt, has the sender's shape and satisfies the verdict of the check on that shape
   (C12_Shape.wf_shape, C01_Cbc.etm_pad_shape); bodies are byte strings, so the padding length read from
   them is a byte. *)
From Coq Require Import ZArith List Bool Lia.
From TV Require Import Base.Prelude Base.PreludeFacts Spec.CbcCheck Model.C01_RecordPipe Proofs.C01_Lists Proofs.C01_Cbc Proofs.C12_Shape.
Import ListNotations.
Open Scope Z_scope.

Definition bytes_list (l : list Z) : Prop := forall x, In x l -> 0 <= x <= 255.

Lemma all_bytes_bytes_list l : all_bytes l = true -> bytes_list l.
Proof.
  intros H x Hx. pose proof (proj1 (all_bytes_In l) H x Hx). lia.
Qed.

Lemma cbc_shape_of (l : list Z) ds : 0 <= ds -> bytes_list l -> last_byte l + 1 + ds <= zlen l ->
  exists d t padb, l = d ++ t ++ padb ++ [last_byte l] /\ zlen t = ds /\ zlen padb = last_byte l /\
                   last_byte l <= 255.
Proof.
  intros Hds Hb Hfit. destruct (exists_last (l := l)) as [l' [y ->]]; [intros ->; change (0 + 1 + ds <= 0) in Hfit; lia|].
  rewrite last_byte_snoc in *. rewrite zlen_app, zlen_cons, zlen_nil in Hfit.
  assert (Hy : 0 <= y <= 255) by (apply Hb, in_or_app; right; left; reflexivity).
  set (m := zlen l' - (y + ds)).
  exists (ztake m l'), (ztake ds (zdrop m l')), (zdrop ds (zdrop m l')).
  rewrite (app_assoc _ _ [y]), ztake_zdrop, (app_assoc _ _ [y]), ztake_zdrop.
  split; [reflexivity|]. rewrite zlen_ztake, !zlen_zdrop by (rewrite ?zlen_zdrop; lia). lia.
Qed.

Section Elim.
Variables (ver : Z * Z) (bs : Z) (mac : HMac) (seqb : list Z) (ty : Z).

Lemma well_formed_elim body : 0 <= mac_ds mac -> bytes_list body ->
  well_formed ver bs mac seqb ty body = true ->
  exists d t padb p, body = d ++ t ++ padb ++ [p] /\ zlen t = mac_ds mac /\
                     pad_ok ver bs padb p /\ t = tag_of ver mac seqb ty d /\ 0 <= p <= 255.
Proof.
  intros Hds Hbytes H.
  (* the two length tests give the shape ... *)
  pose proof (well_formed_fits _ _ _ _ _ _ H) as Hfit. fold (last_byte body) in Hfit.
  destruct (cbc_shape_of body (mac_ds mac) Hds Hbytes (proj2 Hfit)) as [d [t [padb [Hb [Ht [Hpl Hp]]]]]].
  (* ... and on the shape the verdict is wf_shape *)
  rewrite Hb, wf_shape in H by assumption. apply andb_true_iff in H. destruct H as [Hpad Htag].
  exists d, t, padb, (last_byte body).
  split; [exact Hb|]. split; [exact Ht|]. split; [apply pad_verdict_iff; assumption|].
  split; [apply list_eqb_spec; exact Htag|pose proof (zlen_nonneg padb); lia].
Qed.
End Elim.

Lemma bytes_list_zdrop n l : bytes_list l -> bytes_list (zdrop n l).
Proof.
  intros H x Hx. apply H. rewrite <- (ztake_zdrop n l). apply in_or_app. right. exact Hx.
Qed.

Lemma etm_padding_elim (c : Cfg) (d2 : list Z) : bytes_list d2 -> etm_padding_ok c d2 = true ->
  exists dd padb, d2 = dd ++ padb ++ [zlen padb] /\ zlen padb <= 255 /\
    (is_ssl3 (c_ver c) = true \/ Forall (fun b => b = zlen padb) padb).
Proof.
  intros Hbytes H.
  assert (Hfit : last_byte d2 + 1 + 0 <= zlen d2).
  { unfold etm_padding_ok in H. cbv zeta in H. apply andb_true_iff, proj1, Z.leb_le in H. lia. }
  destruct (cbc_shape_of d2 0 (Z.le_refl 0) Hbytes Hfit) as [dd [t [padb [Hd [Ht [Hpl Hp]]]]]].
  apply zlen_0_nil in Ht. subst t. cbn [app] in Hd. rewrite <- Hpl in Hd.
  exists dd, padb. rewrite Hd, etm_pad_shape in H.
  split; [exact Hd|]. split; [lia|apply etm_pad_verdict_iff, H].
Qed.
