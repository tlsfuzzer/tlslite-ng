(* C05 -- lemmas about Model.C05_Auth: a flow that returns Ok has passed every check on the way,
   read off one bind at a time. *)
From Coq Require Import ZArith List Bool String.
From TV Require Import Base.Prelude Base.PreludeFacts Base.C05_Lib Model.C05_Auth.
Import ListNotations.
Open Scope Z_scope.

(* a cbn or simpl over a flow stops at the bytes to be signed: unfolded, the generated calcVerifyBytes with its 64
   literal spaces triples the goal *)
Arguments vb13 : simpl never.
Arguments verify_bytes : simpl never.

Lemma is_nil_false {A} (l : list A) : is_nil l = false -> l <> [].
Proof. destruct l; [discriminate|intros _ H; discriminate H]. Qed.

Lemma is_nil_true {A} (l : list A) : is_nil l = true -> l = [].
Proof. destruct l; [reflexivity|discriminate]. Qed.

Lemma guard_Ok b x u : guard b (Err x) = Ok u -> b = true.
Proof. destruct b; [reflexivity|discriminate]. Qed.

Lemma opt_alert_Ok a u : opt_alert a = Ok u -> a = None.
Proof. destruct a; [discriminate|reflexivity]. Qed.

Lemma key_from_chain_Ok cm u : key_from_chain cm = Ok u -> cm_chain cm <> [].
Proof. unfold key_from_chain. destruct (is_nil (cm_chain cm)) eqn:N; [discriminate|intros _; exact (is_nil_false _ N)]. Qed.

(* the end of a flow *)
Lemma sealed_Ok {A} O w r x (s0 s : A) :
  (_ <- records r ;; _ <- finished O w r (Err x) ;; Ok s0) = Ok s ->
  r_rec_ok r = true /\ fin_ok O w (r_tr_fin r) (r_fin r) = true /\ s0 = s.
Proof.
  intros H. apply bind_Ok in H as (u & Hr & H). apply bind_Ok in H as (u' & Hf & H). injection H as H.
  exact (conj (guard_Ok _ _ _ Hr) (conj (guard_Ok _ _ _ Hf) H)).
Qed.

Definition dc_proved (O : Orc) (r : Run) (cm : CertMsg) (d : DC) (ctx sg : list Z) : Prop :=
  sch_in (dc_cv_alg d) (r_dc_offered r) = true /\
  sch_in (dc_alg d) (r_offered r) = true /\
  sig_ok O (cm_key cm) (Some (dc_alg d)) (dc_tbs (cm_cert cm) (dc_cred d) (dc_alg d)) (dc_sig d) = true /\
  sig_ok O (dc_key d) (Some (dc_cv_alg d)) ctx sg = true.

Lemma dc_verify_Ok O r cm d sch u :
  dc_verify O r cm d sch = Ok u ->
  sch_in (dc_cv_alg d) (r_dc_offered r) = true /\ sch_in (dc_alg d) (r_offered r) = true /\ dc_cv_alg d = sch /\
  sig_ok O (cm_key cm) (Some (dc_alg d)) (dc_tbs (cm_cert cm) (dc_cred d) (dc_alg d)) (dc_sig d) = true.
Proof.
  unfold dc_verify. intros H.
  apply bind_Ok in H as (u1 & H1 & H). apply bind_Ok in H as (u2 & H2 & H). apply bind_Ok in H as (u3 & H3 & H).
  apply bind_Ok in H as (u4 & _ & H).
  exact (conj (guard_Ok _ _ _ H1) (conj (guard_Ok _ _ _ H2) (conj (proj1 (pairZ_eqb_spec _ _) (guard_Ok _ _ _ H3)) (guard_Ok _ _ _ H)))).
Qed.

(* What stands behind a recorded chain: the peer's Certificate and CertificateVerify as this endpoint checked them, with
   the witnesses as parameters.  server_cv13: TLS 1.3 client; client_cv13: TLS 1.3 server; client_cv12: server, TLS <= 1.2. *)
Set Implicit Arguments.
Record server_cv13 O r s cm sch0 sg ctx : Prop := {
  sv_cert : r_cert r = Some cm;
  sv_chain : s_server_chain s = Some (cm_chain cm);
  sv_nonempty : cm_chain cm <> [];
  sv_cv : r_cv r = Some (Some sch0, sg);
  sv_bytes : vb13 O sch0 (r_prf r) tag_server (r_tr_cv r) = Ok ctx;
  sv_proof :
    (cm_dc cm = [] /\ s_dc s = false /\ sch_in sch0 (r_offered r) = true /\ sch_in sch0 (r_valid r) = true /\ sig_ok O (cm_key cm) (Some sch0) ctx sg = true) \/
    (exists d, cm_dc cm = [d] /\ s_dc s = true /\ dc_cv_alg d = sch0 /\ dc_proved O r cm d ctx sg) }.

Record client_cv13 O r c cm sch sg ctx : Prop := {
  k_cert : r_cert r = Some cm;
  k_chain : c = cm_chain cm;
  k_nonempty : c <> [];
  k_cv : r_cv r = Some (Some sch, sg);
  k_valid : sch_in sch (r_valid r) = true;
  k_bytes : vb13 O sch (r_prf r) tag_client (r_tr_cv r) = Ok ctx;
  k_sig : sig_ok O (cm_key cm) (Some sch) ctx sg = true }.

Record client_cv12 O r c cm osch sg sigalg vb : Prop := {
  v_cert : r_cert r = Some cm;
  v_chain : c = cm_chain cm;
  v_nonempty : c <> [];
  v_cv : r_cv r = Some (osch, sg);
  v_bytes : verify_bytes O (r_ver r) (r_tr_cv r) sigalg (r_premaster r) (r_cr r) (r_sr r) None tag_client
                         (Some (cm_keytype cm)) = Ok vb;
  v_sig : sig_ok O (cm_key cm) sigalg vb sg = true;
  v_tls12 : r_ver r = (3, 3) -> exists sch, osch = Some sch /\ sigalg = Some sch /\ sch_in sch (r_valid r) = true;
  v_older : r_ver r <> (3, 3) -> sigalg = if String.eqb (cm_keytype cm) "ecdsa" then Some (2, 3) else None }.
Unset Implicit Arguments.

Lemma client13_Ok O r s :
  client13 O r = Ok s ->
  r_rec_ok r = true /\ fin_ok O FIN_S13 (r_tr_fin r) (r_fin r) = true /\ s_psk s = r_psk r /\
  match r_psk r with
  | Some _ => s_server_chain s = None /\ s_dc s = false
  | None => exists cm sch0 sg ctx, server_cv13 O r s cm sch0 sg ctx
  end.
Proof.
  unfold client13. intros H.
  apply bind_Ok in H as (u & Hr & H). apply bind_Ok in H as ([chain isdc] & Hb & H).
  apply bind_Ok in H as (u' & Hf & H). injection H as <-. cbn [s_server_chain s_dc s_psk].
  split; [exact (guard_Ok _ _ _ Hr)|]. split; [exact (guard_Ok _ _ _ Hf)|]. split; [reflexivity|].
  destruct (r_psk r); [injection Hb as <- <-; split; reflexivity|].
  destruct (r_cert r) as [cm|] eqn:Ec; [|discriminate Hb]. destruct (r_cv r) as [[[sch0|] sg]|] eqn:Ev; try discriminate Hb.
  apply bind_Ok in Hb as (u1 & _ & Hb). apply bind_Ok in Hb as (ctx & Hvb & Hb).
  apply bind_Ok in Hb as (u2 & Hk & Hb). apply bind_Ok in Hb as ([[[key sch] curve] dc] & Hsel & Hb).
  apply bind_Ok in Hb as (u3 & _ & Hb). apply bind_Ok in Hb as (u4 & Hsig & Hb). apply guard_Ok in Hsig.
  injection Hb as <- <-. exists cm, sch0, sg, ctx.
  constructor; [exact Ec|reflexivity|exact (key_from_chain_Ok _ _ Hk)|exact Ev|exact Hvb|]. cbn [s_dc]. destruct (cm_dc cm) as [|d [|]]; [left|right|discriminate Hsel].
  - (* no delegated credential *)
    destruct (sch_in sch0 (r_offered r)); [|discriminate Hsel]. destruct (sch_in sch0 (r_valid r)); [|discriminate Hsel].
    injection Hsel as <- <- _ <-. repeat split. exact Hsig.
  - destruct (is_nil (r_dc_offered r)); [discriminate Hsel|].
    apply bind_Ok in Hsel as (u5 & Hdc & Hsel). injection Hsel as <- <- _ <-.
    apply dc_verify_Ok in Hdc as (P1 & P2 & P3 & P4). exists d. repeat split; assumption.
Qed.

Lemma server13_Ok O r s :
  server13 O r = Ok s ->
  r_rec_ok r = true /\ fin_ok O FIN_C13 (r_tr_fin r) (r_fin r) = true /\ s_psk s = r_psk r /\
  (forall id, r_psk r = Some id -> binder_ok O id (r_tr_binder r) (r_binder r) = true) /\
  forall c, s_client_chain s = Some c ->
    match r_psk r with
    | Some _ => r_ticket_chain r = Some c
    | None => r_req_cert r = true /\ exists cm sch sg ctx, client_cv13 O r c cm sch sg ctx
    end.
Proof.
  unfold server13. intros H.
  apply bind_Ok in H as (psk & Hp & H). apply bind_Ok in H as (u & Hr & H).
  apply bind_Ok in H as (chain & Hch & H). apply bind_Ok in H as (u' & Hcv & H).
  apply bind_Ok in H as (u'' & Hf & H). injection H as <-. cbn [s_psk s_client_chain].
  split; [exact (guard_Ok _ _ _ Hr)|]. split; [exact (guard_Ok _ _ _ Hf)|].
  assert (Hpsk : psk = r_psk r /\ forall id, r_psk r = Some id -> binder_ok O id (r_tr_binder r) (r_binder r) = true).
  { destruct (r_psk r) as [id'|]; [|injection Hp as <-; split; [reflexivity|discriminate]].
    destruct (binder_ok O id' (r_tr_binder r) (r_binder r)) eqn:B; [|discriminate Hp].
    injection Hp as <-. split; [reflexivity|intros id [= <-]; exact B]. }
  destruct Hpsk as (-> & Hb). split; [reflexivity|]. split; [exact Hb|]. intros c Hc.
  destruct chain as [cm|]; [|destruct (r_psk r); [exact Hc|discriminate Hc]].
  destruct (r_req_cert r); [|discriminate Hch]. destruct (r_psk r); [discriminate Hch|].
  split; [reflexivity|]. destruct (r_cert r) as [cm'|] eqn:Ec; [|discriminate Hch].
  destruct (is_nil (cm_chain cm')) eqn:N; [discriminate Hch|]. injection Hch as ->. injection Hc as <-.
  destruct (r_cv r) as [[[sch|] sg]|] eqn:Ev; try discriminate Hcv.
  apply bind_Ok in Hcv as (u1 & Hv & Hcv). apply bind_Ok in Hcv as (ctx & Hvb & Hcv).
  apply bind_Ok in Hcv as (u2 & _ & Hcv). apply bind_Ok in Hcv as (u3 & _ & Hcv).
  exists cm, sch, sg, ctx.
  constructor; [exact Ec|reflexivity|exact (is_nil_false _ N)|exact Ev|exact (guard_Ok _ _ _ Hv)|exact Hvb|exact (guard_Ok _ _ _ Hcv)].
Qed.

Lemma verify_ske_ok O r cm osch params sg u :
  verify_ske O r cm osch params sg = Ok u ->
  sig_ok O (cm_key cm) (if ver_lt (r_ver r) (3, 3) then None else osch) (ske_tbs r params) sg = true /\
  (ver_lt (r_ver r) (3, 3) = false -> exists sch, osch = Some sch /\ sch_in sch (r_valid r) = true).
Proof.
  unfold verify_ske. intros H. destruct (ver_lt (r_ver r) (3, 3)).
  - destruct (is_nil sg); [discriminate H|]. split; [exact (guard_Ok _ _ _ H)|discriminate].
  - destruct osch as [s|]; [|discriminate H]. destruct (sch_in s (r_valid r)) eqn:Vs; [|discriminate H]. cbn [negb] in H.
    split; [|intros _; exact (ex_intro _ s (conj eq_refl Vs))].
    (* every remaining branch ends in the same signature check *)
    destruct (sch_in s [(8,7); (8,8)]); [destruct (is_nil sg); [discriminate H|exact (guard_Ok _ _ _ H)]|].
    destruct (snd s =? 3); [destruct (is_none _); [discriminate H|exact (guard_Ok _ _ _ H)]|].
    destruct (snd s =? 2); [exact (guard_Ok _ _ _ H)|].
    apply bind_Ok in H as (u' & _ & H). destruct (is_nil sg); [discriminate H|exact (guard_Ok _ _ _ H)].
Qed.

Lemma server12_Ok O r s :
  server12 O r = Ok s ->
  r_rec_ok r = true /\ fin_ok O FIN_C12 (r_tr_fin r) (r_fin r) = true /\
  (forall u, s_srp_user s = Some u ->
     kx_is_srp (r_kx r) = true /\ r_srp_user r = Some u /\ r_srp_known r = true /\ r_kx_alert r = None) /\
  forall c, s_client_chain s = Some c ->
    ((r_kx r =? 0) || (r_kx r =? 1) = true) /\ r_req_cert r = true /\
    exists cm osch sg sigalg vb, client_cv12 O r c cm osch sg sigalg vb.
Proof.
  unfold server12. intros H. apply bind_Ok in H as (chain & Hch & H).
  apply sealed_Ok in H as (Hr & Hf & <-). cbn [s_srp_user s_client_chain].
  split; [exact Hr|]. split; [exact Hf|]. destruct (kx_is_srp (r_kx r)).
  - apply bind_Ok in Hch as (u1 & Hk & Hch). apply bind_Ok in Hch as (u2 & Ha & Hch). injection Hch as <-.
    split; [|discriminate]. intros u Hu.
    exact (conj eq_refl (conj Hu (conj (guard_Ok _ _ _ Hk) (opt_alert_Ok _ _ Ha)))).
  - split; [discriminate|]. intros c ->.
    destruct ((r_kx r =? 0) || (r_kx r =? 1)); [|discriminate Hch]. split; [reflexivity|].
    apply bind_Ok in Hch as (u1 & _ & Hch).
    destruct (r_req_cert r); [|discriminate Hch]. split; [reflexivity|].
    destruct (r_cert r) as [cm|] eqn:Ec; [|discriminate Hch]. destruct (is_nil (cm_chain cm)) eqn:N; [discriminate Hch|].
    destruct (r_cv r) as [[osch sg]|] eqn:Ev; [|discriminate Hch].
    apply bind_Ok in Hch as (sigalg & Hsa & Hch). apply bind_Ok in Hch as (vb & Hvb & Hch).
    apply bind_Ok in Hch as (u2 & _ & Hch). apply bind_Ok in Hch as (u3 & Hsig & Hch). injection Hch as <-.
    exists cm, osch, sg, sigalg, vb.
    constructor; [exact Ec|reflexivity|exact (is_nil_false _ N)|exact Ev|exact Hvb|exact (guard_Ok _ _ _ Hsig)| |];
      destruct (pairZ_eqb (r_ver r) (3, 3)) eqn:V.
    + intros _. destruct osch as [sch|]; [|discriminate Hsa]. destruct (sch_in sch (r_valid r)) eqn:Vs; [|discriminate Hsa].
      injection Hsa as <-. exact (ex_intro _ sch (conj eq_refl (conj eq_refl Vs))).
    + intros X. apply pairZ_eqb_spec in X. congruence.
    + intros X. apply pairZ_eqb_spec in V. contradiction.
    + intros _. injection Hsa as <-. reflexivity.
Qed.

Lemma wrapper_failed_handshake (e : exn) (cl : bool) (w : option (list Z)) (fp : list Z -> list Z) :
  exists e', wrapper (Err e) cl w fp = Err e'.
Proof.
  unfold wrapper, map_exn. destruct e; try (eexists; reflexivity).
  destruct (code =? X_DecryptionFailed); [eexists; reflexivity|].
  destruct (code =? X_IllegalParameter); eexists; reflexivity.
Qed.
