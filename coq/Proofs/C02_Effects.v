(* C02: instances showing that the hypotheses of the C02 theorems are satisfiable, each separately: the transparent
   primitives, which meet the _ideal ones, meet no mode_ok (their outputs grow with the input). *)
From Coq Require Import ZArith List Lia.
From TV Require Import Base.Prelude Base.PreludeFacts Model.C01_RecordPipe Toy.C01_ToyCipher Spec.C01_Contracts
  Spec.C02_Ideal Proofs.C01_Lists Proofs.C01_ToyOk.
Import ListNotations.
Open Scope Z_scope.

Lemma toy_aead_tight key tl : aead_tight (toy_prim_aead key tl).
Proof.
  intros n buf a p. cbn [toy_prim_aead pr_seal pr_open]. unfold ta_open, ta_seal.
  destruct (zlen buf - tl <? 0) eqn:E; [discriminate|].
  destruct (list_eqb (ta_tag key tl n a (ztake (zlen buf - tl) buf)) (zdrop (zlen buf - tl) buf)) eqn:Eq; [|discriminate].
  intros H. injection H as <-. apply list_eqb_spec in Eq.
  destruct (ts_run_involutive (ztake (zlen buf - tl) buf) (ta_ks0 key n)) as [H1 _]. rewrite H1, Eq.
  symmetry. apply ztake_zdrop.
Qed.

Lemma id_aead_tight key tl mac : 0 <= tl -> aead_tight (id_prim mac (ta_seal key tl) (ta_open key tl)).
Proof. intros _. exact (toy_aead_tight key tl). Qed.

(* the toy stream cipher encrypts and decrypts by the same function, so cipher_onto is cipher_ok
   (toy_stream_cipher_ok) read the other way *)
Lemma toy_stream_cipher_onto mk mds mbs : cipher_onto (toy_prim_stream mk mds mbs) eq 1.
Proof.
  intros s r y <- Hm. destruct (toy_stream_cipher_ok mk mds mbs s s y eq_refl Hm) as [H1 [H2 H3]]. auto.
Qed.

(* "transparent" primitives: the ideal hypotheses are satisfiable (only) by outputs that contain
   their input *)
Definition transparent_mac (tagbyte : Z) : HMac :=
  {| mac_ds := 0; mac_bs := 64; mac_fn := fun x => tagbyte :: x; mac_acc := [] |}.
Definition transparent_seal (k : Z) (n p a : list Z) : list Z :=
  [k; zlen n; zlen p] ++ n ++ p ++ a.
Definition transparent_prim (k : Z) : Prim unit :=
  {| pr_enc := fun s x => (s, x); pr_dec := fun s x => (s, x); pr_mac := transparent_mac k;
     pr_seal := transparent_seal k; pr_open := fun _ _ _ => None |}.

Lemma transparent_mac_injective k : mac_injective_ideal (transparent_prim k).
Proof. intros x y H. cbn in H. injection H as H. exact H. Qed.

Lemma transparent_mac_disjoint k1 k2 : k1 <> k2 -> mac_disjoint_ideal (transparent_prim k1) (transparent_prim k2).
Proof. intros Hk x y H. cbn in H. injection H as H _. contradiction. Qed.

Lemma transparent_seal_injective k : seal_injective_ideal (transparent_prim k).
Proof.
  intros n1 p1 a1 n2 p2 a2 H. cbn [transparent_prim pr_seal] in H. unfold transparent_seal in H.
  cbn [app] in H. injection H as Hn Hp H.
  apply app_inv_len in H; [|unfold zlen in Hn; lia]. destruct H as [-> H].
  apply app_inv_len in H; [|unfold zlen in Hp; lia]. destruct H as [-> ->]. auto.
Qed.

Lemma transparent_seal_disjoint k1 k2 : k1 <> k2 -> seal_disjoint_ideal (transparent_prim k1) (transparent_prim k2).
Proof. intros Hk n1 p1 a1 n2 p2 a2 H. cbn in H. injection H as H _. contradiction. Qed.
