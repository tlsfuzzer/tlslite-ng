(* C19 -- validate() on contents in normal form: every check reads the INPUT, and the result is the input
   with four attributes replaced *)
From Coq Require Import ZArith List Bool.
From TV Require Import Base.Prelude Base.ListUpd Model.C19_Settings Spec.C19_Domain Proofs.C19_Frame Proofs.C19_Pure Proofs.C19_Facts.
Import ListNotations.
Open Scope Z_scope.

Definition pmac (c : scalars) : val -> bool := if ver_lt (maxVersion c) (3, 3) then keep_old_mac else (fun _ => true).

Lemma cstep_mac_eq v0 v1 c :
  nth F_macNames v1 [] = nth F_macNames v0 [] ->
  cstep_mac v0 v1 c = lupd v1 F_macNames (filter (pmac c) (nth F_macNames v0 [])).
Proof.
  intros E. unfold cstep_mac, pmac. destruct (ver_lt (maxVersion c) (3, 3)); [reflexivity|].
  rewrite filter_true, <- E. symmetry. apply lupd_same.
Qed.

Lemma cstep_ciphers_eq I v :
  cstep_ciphers I v = lupd v F_cipherNames (filter (cipher_available I) (nth F_cipherNames v [])).
Proof.
  unfold cstep_ciphers, cipher_available. destruct (i_tdes I); cbn [negb].
  - erewrite filter_ext; [rewrite filter_true; symmetry; apply lupd_same|].
    intros a. rewrite andb_false_r. reflexivity.
  - f_equal. apply filter_ext. intros a. rewrite andb_true_r. reflexivity.
Qed.

(* the attributes validate() rebinds; the check blocks that run after the first rebinding read none of them *)
Definition rebound : list nat := [F_cipherNames; F_macNames; F_cipherImplementations; F_versions].

Lemma ext_lupd T v c f x : In f rebound -> sanityCheckExtensions T (lupd v f x) c = sanityCheckExtensions T v c.
Proof.
  intros H. unfold sanityCheckExtensions.
  destruct H as [<-|[<-|[<-|[<-|[]]]]]; rewrite !nth_upd_other by discriminate; reflexivity.
Qed.

Lemma C_lupd T v c f x : In f rebound -> cchecks_C T (lupd v f x) c = cchecks_C T v c.
Proof.
  intros H. unfold cchecks_C, sanityCheckPsks, sanityCheckTicketSettings.
  destruct H as [<-|[<-|[<-|[<-|[]]]]]; rewrite !nth_upd_other by discriminate; reflexivity.
Qed.

Definition clip (c : scalars) : val -> bool := pair_in_range (clip_lo (minVersion c)) (maxVersion c).

Definition output (I : install) (c : scalars) (v : list (list val)) : list (list val) :=
  lupd (lupd (lupd (lupd v F_versions (filter (clip c) (nth F_versions v [])))
                   F_macNames (filter (pmac c) (nth F_macNames v [])))
             F_cipherImplementations (filter (impl_available I) (nth F_cipherImplementations v [])))
       F_cipherNames (filter (cipher_available I) (nth F_cipherNames v [])).

Theorem cvalidate_normal T I v c :
  List.length v = NF ->
  cvalidate T I v c =
  (_ <- cchecks_A T v c ;;
   _ <- filter_range (clip_lo (minVersion c)) (maxVersion c) (nth F_versions v []) ;;
   _ <- sanityCheckExtensions T v c ;;
   _ <- cchecks_C T v c ;;
   _ <- guard (isnil (filter (impl_available I) (nth F_cipherImplementations v []))) ;;
   _ <- guard (isnil (filter (cipher_available I) (nth F_cipherNames v []))) ;;
   Ok (output I c v)).
Proof.
  intros Len. unfold cvalidate.
  destruct (cchecks_A T v c); [|reflexivity]. cbn [bind].
  unfold cstep_versions. rewrite filter_range_eq. fold (clip c). destruct (forallb is_pair _); [|reflexivity]. cbn [bind].
  rewrite ext_lupd by (cbn; tauto). destruct (sanityCheckExtensions T v c); [|reflexivity]. cbn [bind]. cbv zeta.
  rewrite cstep_mac_eq by (apply nth_upd_other; discriminate).
  rewrite !C_lupd by (cbn; tauto). destruct (cchecks_C T v c); [|reflexivity]. cbn [bind].
  unfold cstep_impl. rewrite cstep_ciphers_eq.
  rewrite !nth_upd_same by (rewrite !upd_length, Len; apply Nat.ltb_lt; reflexivity).
  rewrite !(nth_upd_other _ F_cipherImplementations), !(nth_upd_other _ F_macNames), !(nth_upd_other _ F_versions)
    by discriminate.
  unfold output, guard. destruct (isnil _); [reflexivity|]. destruct (isnil _); reflexivity.
Qed.

Lemma output_length I c v : List.length (output I c v) = List.length v.
Proof. unfold output. rewrite !upd_length. reflexivity. Qed.

Lemma nth_lupd (l : list (list val)) f g x : (f <? NF)%nat = true -> List.length l = NF ->
  nth g (lupd l f x) [] = if (g =? f)%nat then x else nth g l [].
Proof.
  intros H E. destruct (Nat.eqb_spec g f) as [->|N]; [|apply nth_upd_other; exact N].
  apply nth_upd_same. rewrite E. apply Nat.ltb_lt. exact H.
Qed.

Lemma nth_output I c v f : List.length v = NF ->
  nth f (output I c v) [] =
  if (f =? F_cipherNames)%nat then filter (cipher_available I) (nth F_cipherNames v [])
  else if (f =? F_cipherImplementations)%nat then filter (impl_available I) (nth F_cipherImplementations v [])
  else if (f =? F_macNames)%nat then filter (pmac c) (nth F_macNames v [])
  else if (f =? F_versions)%nat then filter (clip c) (nth F_versions v []) else nth f v [].
Proof. intros Len. unfold output. rewrite !nth_lupd by (rewrite ?upd_length; (exact Len || reflexivity)). reflexivity. Qed.
