(* C04 -- a toy instance of the idealised primitives: the hypotheses H_ideal_hash and
   H_ideal_prf of Proofs/C04_Tamper.v are satisfiable.  hash = an injective
   (prefix-free) serialisation of the transcript term, fin = the tuple itself:
   this is the free term algebra written as byte strings. *)
From Coq Require Import ZArith List Lia.
From TV Require Import Model.C04_Tamper Model.C04_Toy.
Import ListNotations.
Open Scope Z_scope.

Definition prefix_free {A} (e : A -> list Z) : Prop :=
  forall x y r r', e x ++ r = e y ++ r' -> x = y /\ r = r'.

Lemma pf_Z : prefix_free eZ.
Proof. intros x y r r' H. cbn in H. injection H as -> ->. split; reflexivity. Qed.

Lemma pf_B : prefix_free eB.
Proof. intros x y r r' H. cbn in H. injection H as H ->. split; [|reflexivity]. destruct x, y; congruence. Qed.

Lemma pf_pair {A B} (e1 : A -> list Z) (e2 : B -> list Z) : prefix_free e1 -> prefix_free e2 -> prefix_free (ePair e1 e2).
Proof.
  intros H1 H2 [a b] [a' b'] r r' H. unfold ePair in H. cbn [fst snd] in H.
  rewrite <- !app_assoc in H. apply H1 in H. destruct H as [-> H]. apply H2 in H. destruct H as [-> ->].
  split; reflexivity.
Qed.

Lemma pf_flat {A} (e : A -> list Z) : prefix_free e ->
  forall l l' r r', length l = length l' -> flat_map e l ++ r = flat_map e l' ++ r' -> l = l' /\ r = r'.
Proof.
  intros He l. induction l as [|x xs IH]; intros [|y ys] r r' Hl H; cbn in Hl; try discriminate.
  - cbn in H. split; [reflexivity|exact H].
  - cbn [flat_map] in H. rewrite <- !app_assoc in H. apply He in H. destruct H as [-> H].
    apply IH in H; [|lia]. destruct H as [-> ->]. split; reflexivity.
Qed.

Lemma pf_list {A} (e : A -> list Z) : prefix_free e -> prefix_free (eList e).
Proof.
  intros He l l' r r' H. unfold eList in H. cbn [app] in H. injection H as Hl H.
  apply Nat2Z.inj in Hl. apply (pf_flat e He); assumption.
Qed.

Lemma pf_map {A B} (f : A -> B) (e : B -> list Z) : (forall x y, f x = f y -> x = y) -> prefix_free e -> prefix_free (fun x => e (f x)).
Proof. intros Hf He x y r r' H. apply He in H. destruct H as [H ->]. split; [apply Hf; exact H|reflexivity]. Qed.

Lemma pf_ext : prefix_free eExt.
Proof. apply pf_pair; [apply pf_Z|apply pf_list, pf_Z]. Qed.

Lemma pf_CH : prefix_free eCH.
Proof.
  unfold eCH. apply (pf_map ch_tuple).
  - intros [] [] H. unfold ch_tuple in H. cbn in H. injection H. intros. subst. reflexivity.
  - repeat (apply pf_pair; [first [apply pf_Z | apply pf_list, pf_Z]|]).
    apply pf_pair; [apply pf_list, pf_ext|apply pf_list, pf_list, pf_Z].
Qed.

Lemma pf_SH : prefix_free eSH.
Proof.
  unfold eSH. apply (pf_map sh_tuple).
  - intros [] [] H. unfold sh_tuple in H. cbn in H. injection H. intros. subst. reflexivity.
  - repeat (apply pf_pair; [first [apply pf_Z | apply pf_B]|]).
    apply pf_list, pf_ext.
Qed.

(* takes off one element only: injection would go on into the encodings behind it *)
Lemma cons_eq_inv (a b : Z) l l' : a :: l = b :: l' -> a = b /\ l = l'.
Proof. intros H. split; [exact (f_equal (hd 0) H) | exact (f_equal (@tl Z) H)]. Qed.

Lemma pf_msg : prefix_free eMsg.
Proof.
  intros x y r r' H.
  destruct x, y; cbn [eMsg app] in H; apply cons_eq_inv in H as [Htag H]; try discriminate Htag.
  - apply pf_CH in H as [-> ->]. split; reflexivity.
  - apply pf_SH in H as [-> ->]. split; reflexivity.
  - apply (pf_list eZ pf_Z) in H as [-> ->]. split; reflexivity.
  - injection H as -> -> ->. split; reflexivity.
  - apply (pf_list eZ pf_Z) in H as [-> ->]. split; reflexivity.
Qed.

Lemma toy_hash_ideal a t a' t' : toy_hash a t = toy_hash a' t' -> a = a' /\ t = t'.
Proof.
  unfold toy_hash. intros H. apply cons_eq_inv in H as [-> H]. split; [reflexivity|].
  assert (H' : eList eMsg t ++ [] = eList eMsg t' ++ []) by (rewrite !app_nil_r; exact H).
  apply (pf_list eMsg pf_msg) in H' as [-> _]. reflexivity.
Qed.

Lemma toy_fin_ideal k l d k' l' d' : toy_fin k l d = toy_fin k' l' d' -> k = k' /\ l = l' /\ d = d'.
Proof. unfold toy_fin. intros H. injection H as -> -> ->. repeat split. Qed.
