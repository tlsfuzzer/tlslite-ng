(* The protection paths of TLS <= 1.2 (TLS 1.3: Proofs/C01_Tls13.v).  Sender and receiver are
   compositions of the same few steps -- sequence number, record MAC (append / split and compare),
   bulk cipher under its contract, CBC padding, AEAD sealing --, each characterised once.  Where a path
   branches on a flag -- a cipher or none under encrypt-then-MAC, an explicit nonce or none under AEAD --
   the branching part is a stage of its own (etm_seal / etm_open, frame / nonce_recv) with one lemma per
   direction.  Per path:
     X_image_accepted : path_image_at X -- what a sender in step with the receiver produces, for ANY
                        choice of padding / IV block / explicit nonce the receiver's checks admit
                        (legal), is accepted, yields the protected record and has length wire_len;
     X_rt : path_rt_at X -- tlslite's own sender succeeds and makes such a choice.
   The converse, accept -> image (path_accept_at), is Proofs/C02_Accept.v. *)
From Coq Require Import ZArith List Bool Lia.
From TV Require Import Base.Prelude Base.PreludeFacts Base.Bytes Spec.CbcCheck Model.C01_RecordPipe Spec.C01_Contracts
  Model.C02_RecordAccept Proofs.C01_Lists Proofs.C01_Cbc.
Import ListNotations.
Open Scope Z_scope.

Lemma ver_macable_cases v : ver_macable v = true -> v = (3,0) \/ v = (3,1) \/ v = (3,2) \/ v = (3,3).
Proof.
  unfold ver_macable. cbn [existsb]. rewrite !orb_true_iff, !pairZ_eqb_spec.
  intros [H|[H|[H|[H|H]]]]; auto. discriminate.
Qed.

Lemma ver_macable_not13 v : ver_macable v = true -> ver_lt (3,3) v = false.
Proof. intros H. apply ver_macable_cases in H. destruct H as [->|[->|[->| ->]]]; reflexivity. Qed.

Lemma rbind_ok_inv {A B} (m : rres A) (f : A -> rres B) b :
  rbind m f = ROk b -> exists a, m = ROk a /\ f a = ROk b.
Proof. destruct m as [a|e]; cbn [rbind]; [eauto|discriminate]. Qed.

Lemma div256_byte n : 0 <= n < 65536 -> is_byte (n / 256) = true.
Proof.
  intros H. apply is_byte_iff. split; [apply Z.div_pos; lia|apply Z.div_lt_upper_bound; lia].
Qed.

(* mode_ok with a name for every fact: legacy_ok and block_ok, of which the clauses of the three MAC paths are made, and
   what the proofs read of mode_ok P R MAead12 c with the flag the dispatchers test *)
Set Implicit Arguments.
Record legacy_cfg CS (P : Prim CS) (c : Cfg) : Prop := {
  l_ver : ver_macable (c_ver c) = true;
  l_rec13 : c_tls13 c = false;
  l_aead : c_aead c = false;
  l_mac : c_has_mac c = true;
  l_mac_ok : mac_ok P;
  l_ds : 0 < ds P <= 1024 }.

Record block_cfg CS (P : Prim CS) (R : CS -> CS -> Prop) (c : Cfg) : Prop := {
  b_block : c_block c = true;
  b_bs : 0 < c_bs c <= 256;
  b_cipher : cipher_ok P R (c_bs c);
  b_iv : ver_le (3, 2) (c_ver c) = true -> zlen (c_fixed_iv c) = c_bs c }.

Record aead12_cfg CS (P : Prim CS) (c : Cfg) : Prop := {
  a_enc : c_has_enc c = true;
  a_aead : c_aead c = true;
  a_aead_ok : aead_ok P (c_tag c);
  a_tag : 0 <= c_tag c <= 1024;
  a_nonce : zlen (c_fixed_nonce c) + (if uses_xor_nonce c then 0 else 8) = c_nonce_len c;
  a_xor_implicit : uses_xor_nonce c = true -> explicit_nonce c = false;
  a_plus : is_tls13_plus c = false }.
Unset Implicit Arguments.

Section RT.
Context {CS : Type}.
Variable P : Prim CS.
Variable R : CS -> CS -> Prop.
Variable c : Cfg.

Lemma legacy_cfg_of : legacy_ok P c -> legacy_cfg P c.
Proof. intros [Hv [H13 [Ha [Hm [Hml Hds]]]]]. constructor; assumption. Qed.

Lemma block_cfg_of : block_ok P R c -> block_cfg P R c.
Proof. intros [Hb [Hbs [Hciph Hiv]]]. constructor; assumption. Qed.

Lemma mode_legacy md : mode_ok P R md c -> match md with MAead12 | MTls13 => True | _ => legacy_cfg P c end.
Proof. destruct md; intros [_ H]; [exact (legacy_cfg_of (proj1 H)).. | exact I | exact I]. Qed.

Lemma mode_aead12 : mode_ok P R MAead12 c -> aead12_cfg P c.
Proof.
  intros [_ [Hv [_ [He [Ha [Hok [Ht [Hn Hx]]]]]]]].
  refine {| a_enc := He; a_aead := Ha; a_aead_ok := Hok; a_tag := Ht; a_nonce := Hn; a_xor_implicit := Hx; a_plus := _ |}.
  unfold is_tls13_plus. rewrite Hv. reflexivity.
Qed.

Definition bump (s : St CS) : St CS := {| st_cs := st_cs s; st_seq := st_seq s + 1 |}.

Lemma next_seq_ok (s : St CS) : 0 <= st_seq s < 18446744073709551616 ->
  next_seq s = ROk (be_bytes 8 (st_seq s), bump s).
Proof.
  intros H. unfold next_seq.
  destruct (0 <=? st_seq s) eqn:E1; [|lia]. destruct (st_seq s <? 18446744073709551616) eqn:E2; [|lia].
  reflexivity.
Qed.

Lemma next_seq_inv (s : St CS) b s1 : next_seq s = ROk (b, s1) ->
  0 <= st_seq s < 18446744073709551616 /\ b = be_bytes 8 (st_seq s) /\ s1 = bump s.
Proof.
  unfold next_seq. destruct ((0 <=? st_seq s) && (st_seq s <? 18446744073709551616)) eqn:E; [|discriminate].
  intros H. injection H as <- <-. apply andb_true_iff in E. destruct E as [E1 E2].
  apply Z.leb_le in E1. apply Z.ltb_lt in E2. auto.
Qed.

Lemma sync_next (s r : St CS) cs cr : sync R s r -> R cs cr ->
  sync R {| st_cs := cs; st_seq := st_seq s + 1 |} {| st_cs := cr; st_seq := st_seq r + 1 |}.
Proof. intros [_ [Hq H0]] HR. unfold sync. cbn [st_cs st_seq]. split; [exact HR|]. split; lia. Qed.

Lemma sync_bump (s r : St CS) : sync R s r -> sync R (bump s) (bump r).
Proof. intros H. apply (sync_next s r _ _ H). apply H. Qed.

Set Implicit Arguments.
Record round_trip (s r : St CS) (ty : Z) (data : list Z) (s' : St CS) (w : Wire) (r' : St CS) : Prop := {
  rt_protect : protect c P s (ty, data) = ROk (s', w);
  rt_unprotect : unprotect c P r w = ROk (r', (ty, data));
  rt_sync : sync R s' r';
  rt_seq : st_seq s' = st_seq s + 1 }.
Unset Implicit Arguments.

Lemma calc_mac_ok m seqb ty data : is_byte ty = true -> ver_macable (c_ver c) = true -> zlen data < 65536 ->
  calc_mac c m seqb ty data = ROk (tag_of (c_ver c) m seqb ty data).
Proof.
  intros H1 H2 H3. unfold calc_mac. rewrite H1, H2. cbn [negb].
  destruct (65536 <=? zlen data) eqn:E; [lia|reflexivity].
Qed.

Lemma calc_mac_inv m seqb ty data t : calc_mac c m seqb ty data = ROk t ->
  is_byte ty = true /\ ver_macable (c_ver c) = true /\ zlen data < 65536 /\
  t = tag_of (c_ver c) m seqb ty data.
Proof.
  unfold calc_mac. destruct (is_byte ty); [|discriminate]. destruct (ver_macable (c_ver c)); [|discriminate].
  cbn [negb]. destruct (65536 <=? zlen data) eqn:E; [discriminate|]. intros H. injection H as <-.
  repeat split; auto. lia.
Qed.

(* the tag of the record (ty, data) at sequence number n: mac_fn over the key and mac_input c n ty data *)
Definition tag (n ty : Z) (data : list Z) : list Z := tag_of (c_ver c) (pr_mac P) (be_bytes 8 n) ty data.

(* when calculateMAC does not raise *)
Definition mac_pre (n ty : Z) (data : list Z) : Prop :=
  0 <= n < 18446744073709551616 /\ is_byte ty = true /\ ver_macable (c_ver c) = true /\ zlen data < 65536.

Lemma append_mac_spec (s s' : St CS) ty data d : c_has_mac c = true ->
  append_mac c P s ty data = ROk (s', d) <->
  mac_pre (st_seq s) ty data /\ s' = bump s /\ d = data ++ tag (st_seq s) ty data.
Proof.
  intros Hm. unfold append_mac. rewrite Hm. split.
  - intros H. apply rbind_ok_inv in H. destruct H as [[seqb s2] [Hns H]].
    apply next_seq_inv in Hns. destruct Hns as [Hr [-> ->]].
    apply rbind_ok_inv in H. destruct H as [t [Hcm H]].
    apply calc_mac_inv in Hcm. destruct Hcm as [Hb [Hv [Hl ->]]].
    injection H as <- <-. unfold mac_pre. auto.
  - intros [[Hr [Hb [Hv Hl]]] [-> ->]]. rewrite next_seq_ok by exact Hr. cbn [rbind].
    rewrite calc_mac_ok by assumption. reflexivity.
Qed.

Lemma append_mac_ok (s : St CS) ty data : c_has_mac c = true -> mac_pre (st_seq s) ty data ->
  append_mac c P s ty data = ROk (bump s, data ++ tag (st_seq s) ty data).
Proof. intros Hm Hpre. apply append_mac_spec; auto. Qed.

(* the receiver's side, as inlined in _decryptStreamThenMAC and _macThenDecrypt *)
Definition check_mac (s : St CS) (ty : Z) (d : list Z) : rres (St CS * list Z) :=
  if ds P >? zlen d then RErr EBadMac else
  let m := zlen d - ds P in
  '(seqb, s2) <~ next_seq s ;;
  t <~ calc_mac c (pr_mac P) seqb ty (ztake m d) ;;
  if list_eqb t (zdrop m d) then ROk (s2, ztake m d) else RErr EBadMac.

Lemma check_mac_inv (r r' : St CS) ty d data : check_mac r ty d = ROk (r', data) ->
  mac_pre (st_seq r) ty data /\ r' = bump r /\ d = data ++ tag (st_seq r) ty data /\
  data = ztake (zlen d - ds P) d.
Proof.
  unfold check_mac. destruct (ds P >? zlen d); [discriminate|]. cbv zeta. intros H.
  apply rbind_ok_inv in H. destruct H as [[seqb s2] [Hns H]].
  apply next_seq_inv in Hns. destruct Hns as [Hr [-> ->]].
  apply rbind_ok_inv in H. destruct H as [t [Hcm H]].
  apply calc_mac_inv in Hcm. destruct Hcm as [Hb [Hv [Hl ->]]].
  destruct (list_eqb _ (zdrop (zlen d - ds P) d)) eqn:Eq; [|discriminate].
  injection H as <- <-. apply list_eqb_spec in Eq.
  split; [unfold mac_pre; auto|]. split; [reflexivity|]. split; [|reflexivity].
  unfold tag. rewrite Eq. symmetry. apply ztake_zdrop.
Qed.

Lemma check_mac_intro (r : St CS) n ty data : mac_ok P -> st_seq r = n -> mac_pre n ty data ->
  check_mac r ty (data ++ tag n ty data) = ROk (bump r, data).
Proof.
  intros Hml <- [Hr [Hb [Hv Hl]]]. unfold check_mac. cbv zeta.
  assert (Ht : zlen (tag (st_seq r) ty data) = ds P) by apply Hml.
  rewrite zlen_app, Ht. pose proof (zlen_nonneg data).
  destruct (ds P >? zlen data + ds P) eqn:E; [lia|].
  replace (zlen data + ds P - ds P) with (zlen data) by lia.
  rewrite ztake_app_exact, zdrop_app_exact by reflexivity. rewrite next_seq_ok by exact Hr. cbn [rbind].
  rewrite calc_mac_ok by assumption. cbn [rbind]. fold (tag (st_seq r) ty data).
  rewrite list_eqb_refl. reflexivity.
Qed.

(* _decryptStreamThenMAC is that check on the (decrypted) body; a missing MAC version shows in both *)
Lemma stream_recv (r : St CS) ty body x : c_has_mac c = true ->
  decrypt_stream_then_mac c P r ty body = ROk x <->
  check_mac (if c_has_enc c then set_cs r (fst (pr_dec P (st_cs r) body)) else r) ty
            (if c_has_enc c then snd (pr_dec P (st_cs r) body) else body) = ROk x.
Proof.
  intros Hm. unfold decrypt_stream_then_mac. rewrite Hm. destruct (c_has_enc c); [|reflexivity].
  destruct (ver_macable (c_ver c)) eqn:Hv; [reflexivity|]. split; [discriminate|].
  destruct x as [r' data]. intros H. apply check_mac_inv in H. destruct H as [[_ [_ [Hv' _]]] _]. congruence.
Qed.

(* the tail of _macThenDecrypt *)
Definition cbc_open (s1 : St CS) (d1 : list Z) : rres (St CS * list Z) :=
  if negb (zlen d1 mod c_bs c =? 0) then RErr EDecryptFailed else
  let r := pr_dec P (st_cs s1) d1 in
  let d2 := cbc_strip c (snd r) in
  if zlen d2 =? 0 then RErr EBadMac else
  if etm_padding_ok c d2
  then ROk (set_cs s1 (fst r), ztake (zlen d2 - (last_byte d2 + 1)) d2)
  else RErr EBadMac.

(* the cipher part of _macThenDecrypt, and of _encryptThenMAC under the sender's choices *)
Definition etm_open (s1 : St CS) (d1 : list Z) : rres (St CS * list Z) :=
  if c_has_enc c then cbc_open s1 d1 else ROk (s1, d1).

Definition etm_seal (s : St CS) (data : list Z) (ch : Choice) : rres (St CS * list Z) :=
  if c_has_enc c then
    let d2 := cbc_padded ch data in
    if negb (zlen d2 mod c_bs c =? 0) then RErr EAssert else
    let r := pr_enc P (st_cs s) d2 in ROk (set_cs s (fst r), snd r)
  else ROk (s, data).

Lemma etm_recv (r : St CS) ty body : c_has_mac c = true ->
  mac_then_decrypt c P r ty body = ('(s1, d1) <~ check_mac r ty body ;; etm_open s1 d1).
Proof. intros Hm. unfold mac_then_decrypt, check_mac. rewrite Hm, Z.gtb_ltb. reflexivity. Qed.

(* _decryptThenMAC past its assertions *)
Lemma cbc_recv (r : St CS) ty body : legacy_cfg P c -> c_block c = true ->
  decrypt_then_mac c P r ty body =
  if negb (zlen body mod c_bs c =? 0) then RErr EDecryptFailed else
  let dec := pr_dec P (st_cs r) body in
  let d := cbc_strip c (snd dec) in
  '(seqb, r1) <~ next_seq (set_cs r (fst dec)) ;;
  if negb (is_byte ty) then RErr EValue else
  if well_formed (c_ver c) (c_bs c) (pr_mac P) seqb ty d
  then ROk (r1, ztake (zlen d - (last_byte d + 1 + ds P)) d) else RErr EBadMac.
Proof.
  intros L Hb. unfold decrypt_then_mac. rewrite (l_ver L), Hb, (l_mac L). reflexivity.
Qed.

Definition send_path (md : mode) (s : St CS) ty data : rres (St CS * list Z) :=
  match md with
  | MStream | MCbc => mac_then_encrypt c P s ty data
  | MEtm => encrypt_then_mac c P s ty data
  | _ => encrypt_then_seal c P s ty data
  end.

Definition send_path_with (md : mode) (s : St CS) ty data ch : rres (St CS * list Z) :=
  match md with
  | MStream | MCbc => mte_body_with c P s ty data ch
  | MEtm => etm_body_with c P s ty data ch
  | _ => aead_body_with c P s ty data ch
  end.

Definition recv_path (md : mode) (r : St CS) hty (hver : Z * Z) body : rres (St CS * list Z) :=
  match md with
  | MStream => decrypt_stream_then_mac c P r hty body
  | MCbc => decrypt_then_mac c P r hty body
  | MEtm => mac_then_decrypt c P r hty body
  | _ => decrypt_and_unseal c P r (hty, hver, body)
  end.

Definition body_len (md : mode) (data body : list Z) : Prop :=
  match md with
  | MStream => zlen body = zlen data + ds P
  | MCbc => zlen data + ds P <= zlen body <= zlen data + ds P + 2 * c_bs c
  | MEtm => zlen data + ds P <= zlen body <= zlen data + ds P + 2 * (if c_has_enc c then c_bs c else 0)
  | _ => zlen data + c_tag c <= zlen body <= zlen data + c_tag c + 8
  end.

Definition path_rt_at (md : mode) : Prop := forall (s r : St CS) ty data,
  mode_ok P R md c -> sync R s r -> is_byte ty = true -> zlen data <= 16384 ->
  st_seq s < 18446744073709551616 ->
  exists s' body r',
    send_path md s ty data = ROk (s', body) /\ body_len md data body /\
    recv_path md r ty (c_ver c) body = ROk (r', data) /\
    sync R s' r' /\ st_seq s' = st_seq s + 1.

(* the sender's choices that the receiver's checks admit: the proof-side twin of C02_Corollaries.choice_legal, in which
   Props/C02.v is written and which is declared later (it unfolds to this) *)
Definition legal (md : mode) (ch : Choice) : Prop :=
  match md with
  | MStream => True
  | MCbc => pad_legal c ch
  | MEtm => c_has_enc c = true ->
            zlen (ch_pad ch) <= 255 /\
            (is_ssl3 (c_ver c) = true \/ Forall (fun b => b = zlen (ch_pad ch)) (ch_pad ch)) /\
            zlen (ch_ivb ch) = iv_len c
  | MAead12 => explicit_nonce c = true -> zlen (ch_nonce ch) = 8
  | MTls13 => 0 <= ch_zeros ch
  end.

Definition wire_len (md : mode) (data : list Z) (ch : Choice) : Z :=
  let padded := zlen (ch_ivb ch) + zlen (ch_pad ch) + 1 in
  match md with
  | MStream => zlen data + ds P
  | MCbc => zlen data + ds P + padded
  | MEtm => zlen data + ds P + (if c_has_enc c then padded else 0)
  | _ => zlen data + c_tag c + (if explicit_nonce c then 8 else 0)
  end.

Lemma zlen_cbc_padded ch (x : list Z) : zlen (cbc_padded ch x) = zlen x + (zlen (ch_ivb ch) + zlen (ch_pad ch) + 1).
Proof. unfold cbc_padded. rewrite !zlen_app, zlen_cons, zlen_nil. lia. Qed.

Definition path_image_at (md : mode) : Prop := forall (s s' r : St CS) ty hver data ch body,
  mode_ok P R md c -> sync R s r -> legal md ch ->
  send_path_with md s ty data ch = ROk (s', body) ->
  exists r', recv_path md r ty hver body = ROk (r', data) /\ sync R s' r' /\
             st_seq s' = st_seq s + 1 /\ zlen body = wire_len md data ch.

Definition no_choice : Choice := {| ch_pad := []; ch_ivb := []; ch_nonce := []; ch_zeros := 0 |}.

Lemma mte_body_with_stream (s : St CS) ty data ch : c_block c = false ->
  mte_body_with c P s ty data ch = mac_then_encrypt c P s ty data.
Proof. intros H. unfold mte_body_with, mac_then_encrypt. rewrite H. reflexivity. Qed.

Lemma stream_image_accepted : path_image_at MStream.
Proof.
  intros s s' r ty hver data ch body Hmode Hsync _ Hp. pose proof Hmode as [_ [L%legacy_cfg_of [_ [Hblk Henc]]]].
  pose proof (l_mac L) as Hm. pose proof (l_mac_ok L) as Hml.
  pose proof Hsync as [HR [Hseq H0]]. cbn [send_path_with recv_path wire_len] in *.
  rewrite mte_body_with_stream in Hp by exact Hblk. unfold mac_then_encrypt in Hp. apply rbind_ok_inv in Hp. destruct Hp as [[s1 d1] [Ha Hp]].
  apply (append_mac_spec _ _ _ _ _ Hm) in Ha. destruct Ha as [Hpre [-> ->]]. rewrite Hblk in Hp. cbn [andb] in Hp.
  rewrite Hseq in Hpre, Hp.
  assert (Hl : zlen (data ++ tag (st_seq r) ty data) = zlen data + ds P) by (rewrite zlen_app; f_equal; apply Hml).
  destruct (c_has_enc c) eqn:He; injection Hp as <- <-; cbn [bump st_cs]; eexists.
  - destruct (Henc eq_refl (st_cs s) (st_cs r) (data ++ tag (st_seq r) ty data) HR (Z.mod_1_r _)) as [Hd [Hlen HR']].
    split; [apply (stream_recv _ _ _ _ Hm); rewrite He, Hd; apply check_mac_intro; [exact Hml|reflexivity|exact Hpre]|].
    split; [exact (sync_next s r _ _ Hsync HR')|]. split; [reflexivity|lia].
  - split; [apply (stream_recv _ _ _ _ Hm); rewrite He; apply check_mac_intro; [exact Hml|reflexivity|exact Hpre]|].
    split; [exact (sync_bump s r Hsync)|]. split; [reflexivity|exact Hl].
Qed.

Lemma stream_rt : path_rt_at MStream.
Proof.
  intros s r ty data Hmode Hsync Hb Hl Hs. cbn [send_path recv_path body_len].
  pose proof Hmode as [_ [L%legacy_cfg_of [_ [Hblk _]]]].
  assert (Hsend : exists s' body, mac_then_encrypt c P s ty data = ROk (s', body)).
  { pose proof (l_ver L) as Hv. pose proof (l_mac L) as Hm. destruct Hsync as [_ [_ H0]].
    assert (Hpre : mac_pre (st_seq s) ty data) by (unfold mac_pre; repeat split; auto; lia).
    unfold mac_then_encrypt. rewrite append_mac_ok by assumption. cbn [rbind]. rewrite Hblk. cbn [andb]. destruct (c_has_enc c); eauto. }
  destruct Hsend as [s' [body Hsend]].
  assert (Hw : mte_body_with c P s ty data no_choice = ROk (s', body))
    by (rewrite mte_body_with_stream by exact Hblk; exact Hsend).
  destruct (stream_image_accepted s s' r ty (c_ver c) data no_choice body Hmode Hsync I Hw) as [r' [A [B [C D]]]].
  exists s', body, r'. auto.
Qed.

Lemma cbc_image_accepted : path_image_at MCbc.
Proof.
  intros s s' r ty hver data ch body Hmode Hsync [_ [Hpad Hivl]] Hp. pose proof Hmode as [_ [L%legacy_cfg_of [_ [Henc Bk%block_cfg_of]]]].
  pose proof (l_mac L) as Hm. pose proof (l_mac_ok L) as Hml. pose proof (b_block Bk) as Hb1.
  pose proof Hsync as [HR [Hseq H0]]. cbn [send_path_with recv_path wire_len] in *.
  unfold mte_body_with in Hp. apply rbind_ok_inv in Hp. destruct Hp as [[s1 d1] [Ha Hp]].
  apply (append_mac_spec _ _ _ _ _ Hm) in Ha. destruct Ha as [[Hr [Hb _]] [-> ->]].
  rewrite Henc, Hb1 in Hp. cbn [andb] in Hp.
  destruct (zlen (cbc_padded ch (data ++ tag (st_seq s) ty data)) mod c_bs c =? 0) eqn:Emod; [|discriminate].
  apply Z.eqb_eq in Emod. injection Hp as <- <-. cbn [bump st_cs].
  destruct (b_cipher Bk (st_cs s) (st_cs r) _ HR Emod) as [Hdec [Hclen HR']].
  rewrite (cbc_recv _ _ _ L Hb1), Hclen, Emod. cbn [Z.eqb negb]. cbv zeta.
  rewrite Hdec, (cbc_strip_padded c ch _ Hivl), <- app_assoc.
  rewrite next_seq_ok by (cbn [set_cs st_seq]; lia). cbn [rbind set_cs st_seq]. rewrite Hb. cbn [negb].
  assert (Ht : zlen (tag (st_seq s) ty data) = mac_ds (pr_mac P)) by apply Hml.
  rewrite well_formed_intro; [|exact Ht|exact (conj eq_refl Hpad)|unfold tag; rewrite Hseq; reflexivity].
  unfold ds. rewrite (strip_intro (pr_mac P)) by (exact Ht || reflexivity).
  eexists. split; [reflexivity|]. split; [exact (sync_next s r _ _ Hsync HR')|]. split; [reflexivity|].
  rewrite zlen_cbc_padded, zlen_app, Ht. lia.
Qed.

(* tlslite's own choice: the fixed IV block as plaintext of the first block, minimal padding *)
Lemma add_padding_choice (x : list Z) : block_cfg P R c ->
  exists ch, add_padding (c_bs c) (iv_prefix c ++ x) = cbc_padded ch x /\
    pad_legal c ch /\ Forall (fun b => b = zlen (ch_pad ch)) (ch_pad ch) /\
    zlen (cbc_padded ch x) mod c_bs c = 0 /\ zlen (ch_ivb ch) + zlen (ch_pad ch) + 1 <= 2 * c_bs c.
Proof.
  intros Bk. pose proof (b_bs Bk) as Hbs. pose proof (b_iv Bk) as Hiv.
  destruct (add_padding_spec (c_bs c) (iv_prefix c ++ x) ltac:(lia)) as [p [Hp [Hpad Hmod]]].
  assert (Hivl : zlen (iv_prefix c) = iv_len c).
  { unfold iv_prefix, iv_len. destruct (ver_le (3, 2) (c_ver c)); [apply Hiv|]; reflexivity. }
  assert (Hivb : 0 <= iv_len c <= c_bs c) by (unfold iv_len; destruct (ver_le (3, 2) (c_ver c)); lia).
  exists {| ch_pad := repeat p (Z.to_nat p); ch_ivb := iv_prefix c; ch_nonce := []; ch_zeros := 0 |}.
  unfold cbc_padded, pad_legal. cbn [ch_pad ch_ivb]. rewrite zlen_repeat, Z2Nat.id by lia.
  split; [rewrite Hpad, <- app_assoc; reflexivity|].
  split; [split; [lia|split; [apply (pad_ok_honest (c_ver c) (c_bs c) p Hp)|exact Hivl]]|].
  split; [apply Forall_repeat; reflexivity|].
  rewrite !zlen_app, zlen_repeat, zlen_cons, zlen_nil, Z2Nat.id, Hivl in * by lia.
  split; [rewrite <- Hmod; f_equal; lia|lia].
Qed.

Lemma cbc_rt : path_rt_at MCbc.
Proof.
  intros s r ty data Hmode Hsync Hb Hl Hs. cbn [send_path recv_path body_len].
  pose proof Hmode as [_ [L%legacy_cfg_of [_ [Henc Bk%block_cfg_of]]]]. pose proof (l_ver L) as Hv. pose proof (l_mac L) as Hm.
  pose proof (b_block Bk) as Hb1. pose proof Hsync as [_ [_ H0]].
  assert (Hpre : mac_pre (st_seq s) ty data) by (unfold mac_pre; repeat split; auto; lia).
  destruct (add_padding_choice (data ++ tag (st_seq s) ty data) Bk) as [ch [Hadd [Hleg [_ [Hmod Hlen]]]]].
  assert (Hsend : mac_then_encrypt c P s ty data = mte_body_with c P s ty data ch).
  { unfold mac_then_encrypt, mte_body_with. rewrite append_mac_ok by assumption. cbn [rbind].
    rewrite Henc, Hb1, Hadd. reflexivity. }
  assert (Hok : exists s' body, mte_body_with c P s ty data ch = ROk (s', body)).
  { unfold mte_body_with. rewrite append_mac_ok by assumption. cbn [rbind]. rewrite Henc, Hb1, Hmod. cbn. eauto. }
  destruct Hok as [s' [body Hok]].
  destruct (cbc_image_accepted s s' r ty (c_ver c) data ch body Hmode Hsync Hleg Hok) as [r' [A [B [C D]]]].
  exists s', body, r'. rewrite Hsend. split; [exact Hok|]. split; [|auto].
  cbn [wire_len] in D. pose proof (zlen_nonneg (ch_ivb ch)). pose proof (zlen_nonneg (ch_pad ch)). lia.
Qed.

Lemma etm_open_seal (s s1 r : St CS) data ch ct :
  (c_has_enc c = true -> block_ok P R c) -> R (st_cs s) (st_cs r) -> legal MEtm ch ->
  etm_seal s data ch = ROk (s1, ct) ->
  exists r1, etm_open r ct = ROk (r1, data) /\ R (st_cs s1) (st_cs r1) /\
             st_seq s1 = st_seq s /\ st_seq r1 = st_seq r /\
             zlen ct = zlen data + (if c_has_enc c then zlen (ch_ivb ch) + zlen (ch_pad ch) + 1 else 0).
Proof.
  intros Hblk HR Hleg Hs. unfold etm_seal, etm_open in *. cbn [legal] in Hleg.
  destruct (c_has_enc c); [|injection Hs as <- <-; exists r; repeat split; [exact HR|lia]].
  pose proof (b_cipher (block_cfg_of (Hblk eq_refl))) as Hciph. destruct (Hleg eq_refl) as [_ [Hpad Hivl]].
  destruct (zlen (cbc_padded ch data) mod c_bs c =? 0) eqn:Emod; [|discriminate]. apply Z.eqb_eq in Emod.
  injection Hs as <- <-. destruct (Hciph (st_cs s) (st_cs r) _ HR Emod) as [Hdec [Hclen HR']].
  unfold cbc_open. rewrite Hclen, Emod. cbn [Z.eqb negb]. cbv zeta. rewrite Hdec, (cbc_strip_padded c ch _ Hivl).
  rewrite zlen_padded. pose proof (zlen_nonneg data). pose proof (zlen_nonneg (ch_pad ch)).
  destruct (zlen data + zlen (ch_pad ch) + 1 =? 0) eqn:Ez; [lia|].
  rewrite <- zlen_padded, etm_padding_intro, etm_strip_padded by exact Hpad.
  eexists. split; [reflexivity|]. rewrite zlen_cbc_padded. auto.
Qed.

Lemma etm_image_accepted : path_image_at MEtm.
Proof.
  intros s s' r ty hver data ch body Hmode Hsync Hleg Hp. pose proof Hmode as [_ [L%legacy_cfg_of [_ Bk]]].
  pose proof (l_mac L) as Hm. pose proof (l_mac_ok L) as Hml. pose proof Hsync as [HR [Hseq H0]].
  cbn [send_path_with recv_path wire_len] in *.
  change (etm_body_with c P s ty data ch) with ('(s1, d1) <~ etm_seal s data ch ;; append_mac c P s1 ty d1) in Hp.
  apply rbind_ok_inv in Hp. destruct Hp as [[s1 ct] [He Hp]].
  apply (append_mac_spec _ _ _ _ _ Hm) in Hp. destruct Hp as [Hpre [-> ->]].
  destruct (etm_open_seal s s1 (bump r) data ch ct Bk HR Hleg He) as [r1 [Hop [HR' [Hs1 [Hr1 Hlen]]]]].
  rewrite etm_recv, (check_mac_intro r (st_seq s1)) by (try assumption; lia). cbn [rbind].
  exists r1. split; [exact Hop|]. cbn [bump st_seq st_cs] in *.
  split; [split; [exact HR'|cbn [bump st_seq]; lia]|]. split; [lia|]. rewrite zlen_app, (Hml _ : zlen (tag _ _ _) = _). destruct (c_has_enc c); lia.
Qed.

Lemma etm_own_choice (s : St CS) data : (c_has_enc c = true -> block_ok P R c) ->
  exists ch s1 ct, legal MEtm ch /\ etm_seal s data ch = ROk (s1, ct) /\
    (forall ty, encrypt_then_mac c P s ty data = append_mac c P s1 ty ct) /\
    zlen data + ds P <= wire_len MEtm data ch <= zlen data + ds P + 2 * (if c_has_enc c then c_bs c else 0).
Proof.
  intros Hblk. unfold encrypt_then_mac, etm_seal. cbn [legal wire_len]. destruct (c_has_enc c).
  - destruct (add_padding_choice data (block_cfg_of (Hblk eq_refl))) as [ch [Hadd [[H255 [_ Hivl]] [Hfa [Hmod Hlen]]]]].
    pose proof (zlen_nonneg (ch_ivb ch)). pose proof (zlen_nonneg (ch_pad ch)).
    exists ch. rewrite Hadd, Hmod. cbn [Z.eqb negb]. eexists _, _. split; [auto|]. split; [reflexivity|]. split; [reflexivity|lia].
  - exists no_choice, s, data. split; [discriminate|]. split; [reflexivity|]. split; [reflexivity|lia].
Qed.

Lemma etm_rt : path_rt_at MEtm.
Proof.
  intros s r ty data Hmode Hsync Hb Hl Hs. cbn [send_path recv_path body_len].
  pose proof Hmode as [_ [L%legacy_cfg_of [_ Bk]]]. pose proof (l_ver L) as Hv. pose proof (l_mac L) as Hm.
  pose proof (l_ds L) as Hds. pose proof Hsync as [HR [_ H0]].
  destruct (etm_own_choice s data Bk) as [ch [s1 [ct [Hleg [Hseal [Hown Hk]]]]]].
  destruct (etm_open_seal s s1 r data ch ct Bk HR Hleg Hseal) as [_ [_ [_ [Hs1 [_ Hlen]]]]].
  assert (Hct : zlen ct < 65536).
  { cbn [wire_len] in Hk. destruct (c_has_enc c); [pose proof (b_bs (block_cfg_of (Bk eq_refl)))|]; lia. }
  assert (Happ : append_mac c P s1 ty ct = ROk (bump s1, ct ++ tag (st_seq s1) ty ct)).
  { apply append_mac_ok; [exact Hm|]. unfold mac_pre. repeat split; auto; lia. }
  assert (Hw : etm_body_with c P s ty data ch = ROk (bump s1, ct ++ tag (st_seq s1) ty ct)).
  { change (etm_body_with c P s ty data ch) with ('(s1, d1) <~ etm_seal s data ch ;; append_mac c P s1 ty d1).
    rewrite Hseal. exact Happ. }
  destruct (etm_image_accepted s _ r ty (c_ver c) data ch _ Hmode Hsync Hleg Hw) as [r' [A [B [C D]]]].
  eexists _, _, r'. rewrite Hown. split; [exact Happ|]. split; [rewrite D; exact Hk|auto].
Qed.

(* zip stops at the shorter list, and the left one is never shorter than fixed *)
Lemma zlen_xor_nonce fixed seqb : zlen (xor_nonce fixed seqb) = zlen fixed.
Proof. unfold xor_nonce, zeros, zlen. rewrite map_length, combine_length, app_length, repeat_length. lia. Qed.

Lemma get_nonce_xor seqb : uses_xor_nonce c = true -> zlen seqb <= zlen (c_fixed_nonce c) ->
  get_nonce c seqb = ROk (xor_nonce (c_fixed_nonce c) seqb).
Proof.
  intros Hx Hl. unfold get_nonce. rewrite Hx. destruct (zlen (c_fixed_nonce c) <? zlen seqb) eqn:E; [lia|reflexivity].
Qed.

Lemma get_nonce_ok seqb : zlen seqb = 8 ->
  zlen (c_fixed_nonce c) + (if uses_xor_nonce c then 0 else 8) = c_nonce_len c ->
  (uses_xor_nonce c = true -> 8 <= zlen (c_fixed_nonce c)) ->
  exists n, get_nonce c seqb = ROk n /\ zlen n = c_nonce_len c /\
            (uses_xor_nonce c = false -> n = c_fixed_nonce c ++ seqb).
Proof.
  intros Hs Hn Hx. destruct (uses_xor_nonce c) eqn:E.
  - specialize (Hx eq_refl). rewrite (get_nonce_xor seqb E) by lia.
    eexists. split; [reflexivity|]. split; [|discriminate]. rewrite zlen_xor_nonce. lia.
  - unfold get_nonce. rewrite E. eexists. split; [reflexivity|]. split; [|reflexivity]. rewrite zlen_app. lia.
Qed.

(* the explicit nonce of AES-GCM / CCM in TLS 1.2: the sender's choice travels in front of the
   ciphertext, the receiver takes it from there; every other AEAD derives the nonce on both sides *)
Definition frame (ch : Choice) (ct : list Z) : list Z := if explicit_nonce c then ch_nonce ch ++ ct else ct.

Definition nonce_recv (seqb body : list Z) : rres (list Z * list Z) :=
  if explicit_nonce c then
    if 8 >? zlen body then RErr EBadMac else ROk (c_fixed_nonce c ++ ztake 8 body, zdrop 8 body)
  else n <~ get_nonce c seqb ;; ROk (n, body).

Lemma nonce_recv_frame seqb ch ct nonce : (explicit_nonce c = true -> zlen (ch_nonce ch) = 8) ->
  (if explicit_nonce c then ROk (c_fixed_nonce c ++ ch_nonce ch) else get_nonce c seqb) = ROk nonce ->
  nonce_recv seqb (frame ch ct) = ROk (nonce, ct) /\ zlen (frame ch ct) = zlen ct + (if explicit_nonce c then 8 else 0).
Proof.
  unfold nonce_recv, frame. intros H8 Hno. destruct (explicit_nonce c); [|rewrite Hno; split; [reflexivity|lia]].
  specialize (H8 eq_refl). injection Hno as <-. rewrite zlen_app, H8. pose proof (zlen_nonneg ct).
  destruct (8 >? 8 + zlen ct) eqn:E; [lia|].
  rewrite ztake_app_exact, zdrop_app_exact by (symmetry; exact H8). split; [reflexivity|lia].
Qed.

Lemma nonce_recv_inv seqb body nonce buf : nonce_recv seqb body = ROk (nonce, buf) ->
  exists ch, (explicit_nonce c = true -> zlen (ch_nonce ch) = 8) /\
    (if explicit_nonce c then ROk (c_fixed_nonce c ++ ch_nonce ch) else get_nonce c seqb) = ROk nonce /\
    body = frame ch buf.
Proof.
  unfold nonce_recv, frame. destruct (explicit_nonce c).
  - destruct (8 >? zlen body) eqn:E8; [discriminate|]. intros H. injection H as <- <-.
    exists {| ch_pad := []; ch_ivb := []; ch_nonce := ztake 8 body; ch_zeros := 0 |}. cbn [ch_nonce].
    split; [intros _; apply zlen_ztake; lia|]. split; [reflexivity|symmetry; apply ztake_zdrop].
  - intros H. apply rbind_ok_inv in H. destruct H as [n [Hg H]]. injection H as <- <-.
    exists no_choice. split; [discriminate|auto].
Qed.

(* tlslite's own choice: the explicit nonce is the sequence number *)
Lemma aead_own_choice (s : St CS) ty data : aead12_cfg P c ->
  0 <= st_seq s < 18446744073709551616 -> is_byte ty = true -> 0 <= zlen data < 65536 ->
  exists ch, legal MAead12 ch /\ exists s' body,
    aead_body_with c P s ty data ch = ROk (s', body) /\ encrypt_then_seal c P s ty data = ROk (s', body).
Proof.
  intros G Hs Hb Hl. pose proof (a_plus G) as Hn13.
  assert (Hx8 : uses_xor_nonce c = true -> 8 <= zlen (c_fixed_nonce c)).
  { unfold uses_xor_nonce. rewrite Hn13, orb_false_r. intros Hx. apply andb_true_iff in Hx.
    destruct Hx as [_ Hx]. apply Z.eqb_eq in Hx. lia. }
  destruct (get_nonce_ok (be_bytes 8 (st_seq s)) (be_zlen 8 _) (a_nonce G) Hx8) as [nonce [Hgn [Hnlen Hnexp]]].
  exists {| ch_pad := []; ch_ivb := []; ch_nonce := be_bytes 8 (st_seq s); ch_zeros := 0 |}.
  split; [intros _; apply be_zlen|]. unfold encrypt_then_seal, aead_body_with. cbn [ch_nonce].
  rewrite next_seq_ok by exact Hs. cbn [rbind]. rewrite Hn13, Hb, (div256_byte (zlen data)) by exact Hl. cbn [andb negb].
  rewrite Hgn. cbn [rbind]. rewrite Hnlen, Z.eqb_refl. cbn [negb].
  destruct (explicit_nonce c) eqn:Ee; [|cbn [rbind]; eauto].
  (* an explicit nonce is not an XOR nonce, so get_nonce appended the sequence number to the fixed part *)
  rewrite Hnexp; [cbn [rbind]; eauto|].
  destruct (uses_xor_nonce c) eqn:Ex; [|reflexivity]. rewrite (a_xor_implicit G Ex) in Ee. discriminate Ee.
Qed.

(* _decryptAndUnseal read backwards: the nonce and ciphertext it took from the body, the
   additional data it built from the header, and the opening that gave data *)
Set Implicit Arguments.
Record unsealed (r r' : St CS) (hty : Z) (hver : Z * Z) (body data nonce buf aad : list Z) : Prop := {
  un_seq : 0 <= st_seq r < 18446744073709551616;
  un_state : r' = bump r;
  un_open : pr_open P nonce buf aad = Some data;
  un_tag : c_tag c <= zlen buf;
  un_nonce : nonce_recv (be_bytes 8 (st_seq r)) body = ROk (nonce, buf);
  un_aad : if is_tls13_plus c
           then hty = 23 /\ hver = (3, 3) /\ aad = aad13 hty hver (zlen body)
           else is_byte hty && is_byte ((zlen buf - c_tag c) / 256) = true /\
                aad = aad12 c (be_bytes 8 (st_seq r)) hty (zlen buf - c_tag c) }.
Unset Implicit Arguments.

Lemma unseal_inv (r r' : St CS) hty hver body data :
  decrypt_and_unseal c P r (hty, hver, body) = ROk (r', data) ->
  exists nonce buf aad, unsealed r r' hty hver body data nonce buf aad.
Proof.
  intros Hacc. unfold decrypt_and_unseal in Hacc.
  apply rbind_ok_inv in Hacc. destruct Hacc as [[seqb s2] [Hns Hacc]].
  apply next_seq_inv in Hns. destruct Hns as [Hrange [-> ->]].
  apply rbind_ok_inv in Hacc. destruct Hacc as [[nonce buf] [Hnb Hacc]].
  destruct (c_tag c >? zlen buf) eqn:Et; [discriminate|].
  apply rbind_ok_inv in Hacc. destruct Hacc as [aad [Haad Hacc]].
  destruct (pr_open P nonce buf aad) as [p|] eqn:Eo; [|discriminate]. injection Hacc as <- <-.
  exists nonce, buf, aad. split; [exact Hrange|reflexivity|exact Eo|lia| |].
  - exact Hnb.
  - destruct (is_tls13_plus c).
    + destruct (hty =? 23) eqn:E23; [|discriminate]. destruct (pairZ_eqb hver (3, 3)) eqn:Ev; [|discriminate].
      cbn [negb] in Haad. injection Haad as <-. apply Z.eqb_eq in E23. apply pairZ_eqb_spec in Ev. auto.
    + destruct (is_byte hty && _) eqn:Eb; [|discriminate]. cbn [negb] in Haad. injection Haad as <-. auto.
Qed.

Lemma aead12_image_accepted : path_image_at MAead12.
Proof.
  intros s s' r ty hver data ch body Hmode Hsync Hch Hp. cbn [send_path_with recv_path wire_len legal] in *. pose proof Hsync as [HR [Hseq H0]]. pose proof (mode_aead12 Hmode) as G.
  pose proof (a_plus G) as Hn13. pose proof (a_aead_ok G) as Hok.
  unfold aead_body_with in Hp.
  apply rbind_ok_inv in Hp. destruct Hp as [[seqb s2] [Hns Hp]].
  apply next_seq_inv in Hns. destruct Hns as [Hrange [-> ->]].
  rewrite Hn13 in Hp.
  destruct (is_byte ty && is_byte (zlen data / 256)) eqn:Eb; [|discriminate]. cbn [negb] in Hp.
  apply rbind_ok_inv in Hp. destruct Hp as [nonce [Hno Hp]]. injection Hp as <- <-.
  destruct (Hok nonce data (aad12 c (be_bytes 8 (st_seq s)) ty (zlen data))) as [Hopen Hslen].
  set (ct := pr_seal P nonce data (aad12 c (be_bytes 8 (st_seq s)) ty (zlen data))) in *.
  destruct (nonce_recv_frame (be_bytes 8 (st_seq s)) ch ct nonce Hch Hno) as [Hnr Hfl]. fold (frame ch ct).
  pose proof (zlen_nonneg data) as Hd0.
  exists (bump r). split; [|split; [exact (sync_bump s r Hsync)|split; [reflexivity|lia]]].
  unfold decrypt_and_unseal. rewrite next_seq_ok by lia. cbn [rbind]. rewrite <- Hseq.
  fold (nonce_recv (be_bytes 8 (st_seq s)) (frame ch ct)). rewrite Hnr. cbn [rbind].
  destruct (c_tag c >? zlen ct) eqn:Et; [lia|]. rewrite Hn13, Hslen.
  replace (zlen data + c_tag c - c_tag c) with (zlen data) by lia. rewrite Eb. cbn [negb rbind].
  rewrite Hopen. reflexivity.
Qed.

Lemma aead12_rt : path_rt_at MAead12.
Proof.
  intros s r ty data Hmode Hsync Hb Hl Hs. cbn [send_path recv_path body_len]. pose proof Hsync as [_ [_ H0]].
  pose proof (zlen_nonneg data).
  destruct (aead_own_choice s ty data (mode_aead12 Hmode)) as [ch [Hleg [s' [body [Hw Hsend]]]]]; [lia|exact Hb|lia|].
  destruct (aead12_image_accepted s s' r ty (c_ver c) data ch body Hmode Hsync Hleg Hw) as [r' [A [B [C D]]]].
  exists s', body, r'. split; [exact Hsend|]. split; [cbn [wire_len] in D; destruct (explicit_nonce c); lia|auto].
Qed.

Lemma path_image md : md <> MTls13 -> path_image_at md.
Proof.
  intros Hmd. destruct md; [exact stream_image_accepted|exact cbc_image_accepted|exact etm_image_accepted|
                            exact aead12_image_accepted|contradiction].
Qed.

Lemma path_rt md : md <> MTls13 -> path_rt_at md.
Proof. intros Hmd. destruct md; [exact stream_rt|exact cbc_rt|exact etm_rt|exact aead12_rt|contradiction]. Qed.
End RT.
Arguments mode_legacy {CS P R c md} _.
Arguments mode_aead12 {CS P R c} _.
