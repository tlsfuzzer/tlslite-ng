(* C10: the two DSA keys of the examples of Props/C10.v. *)
From Coq Require Import ZArith.
From TV Require Import Model.C10_RsaMath Model.C10_Dsa.
Open Scope Z_scope.

(* the hypotheses are satisfiable: p = 607, q = 101, g = 64 = 2^6 (order 101), x = 57; it is the key
   Python_DSAKey.generate() makes from q = 101, k = 3 (p = 2kq + 1), index = 2 (g = index^((p-1)//q)) *)
Definition toy_dsa : dsa_key := {| dk_p := 607; dk_q := 101; dk_g := 64; dk_x := 57; dk_y := powmod 64 57 607 |}.

(* The group hypothesis g^q = 1 (mod p) is necessary: parameters with q not dividing p-1 -- the kind
   Python_DSAKey.generate_qp() produced BEFORE /repo b7d3c31 (its loop exited when (p-1) % q was
   NON-zero) -- give signatures that do not verify (Props/C10.v dsa_group_hypothesis_is_necessary).
   p = 23, q = 7, g = 2^3, x = 3, data = [5], k = 2. *)
Definition bad_dsa : dsa_key := {| dk_p := 23; dk_q := 7; dk_g := 8; dk_x := 3; dk_y := powmod 8 3 23 |}.
