(* C02: from acceptance by recvRecord back to the receive function of the path; no wire is accepted
   at two sequence numbers or under two keys (ideal MAC / AEAD). *)
From Coq Require Import ZArith List.
From TV Require Import Base.Prelude Model.C01_RecordPipe Spec.C01_Contracts Spec.C02_Ideal Proofs.C01_RoundTrip
  Proofs.C01_Tls13 Proofs.C01_Delivery Proofs.C02_Integrity.
Import ListNotations.
Open Scope Z_scope.

Definition integrity_mode (md : mode) : Prop := md = MEtm \/ md = MAead12 \/ md = MTls13.

Section Paths.
Context {CS : Type}.
Variable R : CS -> CS -> Prop.

Lemma accept_recv_path (c : Cfg) (P : Prim CS) md r r' hty hver body ty p :
  mode_ok P R md c -> (md = MTls13 -> hty = 23) ->
  unprotect c P r (hty, hver, body) = ROk (r', (ty, p)) ->
  exists inner, recv_path P c md r hty hver body = ROk (r', inner) /\
                match md with MTls13 => de_pad inner | _ => ROk (hty, inner) end = ROk (ty, p).
Proof.
  intros Hmode H23 H. destruct (mode_tls13_dec md) as [->|Hmd].
  - specialize (H23 eq_refl). subst hty.
    destruct (unprotect13_inv (mode_tls13 Hmode) _ _ _ _ _ _ H) as [inner [A [D _]]]. eauto.
  - destruct (proj1 (unprotect_legacy_ok P R c md _ _ _ _ _ _ _ Hmd Hmode) H) as [-> [A _]].
    exists p. split; [exact A|]. destruct md; [| | | |contradiction]; reflexivity.
Qed.

Lemma recv_path_aead (c : Cfg) (P : Prim CS) md r hty hver body : md = MAead12 \/ md = MTls13 ->
  recv_path P c md r hty hver body = decrypt_and_unseal c P r (hty, hver, body).
Proof. intros [->| ->]; reflexivity. Qed.

Lemma mode_xor_nonce (c : Cfg) (P : Prim CS) md : mode_ok P R md c ->
  is_tls13_plus c = true -> uses_xor_nonce c = true /\ 8 <= zlen (c_fixed_nonce c).
Proof.
  intros Hmode E. destruct (mode_tls13_dec md) as [->|Hmd].
  - pose proof (mode_tls13 Hmode) as T. split; [apply T|rewrite (t_nonce T); apply T].
  - destruct (legacy_flags P R c md Hmd Hmode) as [Hn13 _]. congruence.
Qed.

(* a wire accepted under two keys: other direction, other epoch, other connection *)
Theorem two_keys_never_both (c1 c2 : Cfg) (P1 P2 : Prim CS) md r1 r1' r2 r2' hty hver body x1 x2 :
  integrity_mode md -> mode_ok P1 R md c1 -> mode_ok P2 R md c2 -> explicit_nonce c1 = explicit_nonce c2 ->
  (md = MTls13 -> hty = 23) ->
  (md = MEtm -> mac_disjoint_ideal P1 P2 /\ ds P1 = ds P2) ->
  (md <> MEtm -> aead_tight P1 /\ aead_tight P2 /\ seal_disjoint_ideal P1 P2) ->
  unprotect c1 P1 r1 (hty, hver, body) = ROk (r1', x1) ->
  unprotect c2 P2 r2 (hty, hver, body) = ROk (r2', x2) -> False.
Proof.
  intros Him Hm1 Hm2 Hex H23 Hmac Haead H1 H2. destruct x1 as [ty1 p1], x2 as [ty2 p2].
  destruct (accept_recv_path c1 P1 md _ _ _ _ _ _ _ Hm1 H23 H1) as [i1 [A1 _]].
  destruct (accept_recv_path c2 P2 md _ _ _ _ _ _ _ Hm2 H23 H2) as [i2 [A2 _]].
  destruct Him as [->|Ha].
  - destruct (Hmac eq_refl) as [Hd He].
    exact (etm_cross_key c1 c2 P1 P2 _ _ _ _ _ _ _ _ _ (l_mac (mode_legacy Hm1))
             (l_mac (mode_legacy Hm2)) Hd He A1 A2).
  - rewrite recv_path_aead in A1, A2 by exact Ha.
    destruct Haead as [T1 [T2 Hd]]; [destruct Ha as [->| ->]; discriminate|].
    exact (aead_cross_key c1 c2 P1 P2 _ _ _ _ _ _ _ _ _ _ _ T1 T2 Hd Hex A1 A2).
Qed.
End Paths.

Section Reject.
Context {CS : Type}.
Variable R : CS -> CS -> Prop.
Variable c : Cfg.

Lemma two_accepts_same_position_ideal (P : Prim CS) md r1 r1' r2 r2' hty hver body ty1 p1 ty2 p2 :
  integrity_mode md -> mode_ok P R md c -> (md = MTls13 -> hty = 23) ->
  (md = MEtm -> mac_injective_ideal P) ->
  (md <> MEtm -> aead_tight P /\ seal_injective_ideal P) ->
  unprotect c P r1 (hty, hver, body) = ROk (r1', (ty1, p1)) ->
  unprotect c P r2 (hty, hver, body) = ROk (r2', (ty2, p2)) ->
  st_seq r1 = st_seq r2 /\ ty1 = ty2 /\ (md <> MEtm -> p1 = p2).
Proof.
  intros Him Hmode H23 Hmac Haead H1 H2.
  destruct (accept_recv_path R c P md _ _ _ _ _ _ _ Hmode H23 H1) as [i1 [A1 D1]].
  destruct (accept_recv_path R c P md _ _ _ _ _ _ _ Hmode H23 H2) as [i2 [A2 D2]].
  destruct Him as [->|Ha].
  - pose proof (l_mac (mode_legacy Hmode)) as Hm.
    destruct (etm_binds_ideal c P _ _ _ _ _ _ _ _ _ Hm (Hmac eq_refl) A1 A2) as [A _].
    injection D1 as <- _. injection D2 as <- _. split; [exact A|]. split; [reflexivity|]. intros X. contradiction.
  - rewrite recv_path_aead in A1, A2 by exact Ha.
    destruct Haead as [Ht Hi]; [destruct Ha as [->| ->]; discriminate|].
    destruct (aead_binds_ideal c P _ _ _ _ _ _ _ _ _ _ _ Ht Hi (mode_xor_nonce R c P md Hmode) A1 A2) as [A [_ B]].
    subst i2. rewrite D1 in D2. injection D2 as <- <-. auto.
Qed.

Lemma two_keys_never_both_ideal (P1 P2 : Prim CS) md r1 r1' r2 r2' hty hver body x1 x2 :
  integrity_mode md -> mode_ok P1 R md c -> mode_ok P2 R md c -> (md = MTls13 -> hty = 23) ->
  (md = MEtm -> mac_disjoint_ideal P1 P2 /\ ds P1 = ds P2) ->
  (md <> MEtm -> aead_tight P1 /\ aead_tight P2 /\ seal_disjoint_ideal P1 P2) ->
  unprotect c P1 r1 (hty, hver, body) = ROk (r1', x1) ->
  unprotect c P2 r2 (hty, hver, body) = ROk (r2', x2) -> False.
Proof. intros Him Hm1 Hm2. exact (two_keys_never_both R c c P1 P2 md _ _ _ _ _ _ _ _ _ Him Hm1 Hm2 eq_refl). Qed.
End Reject.
