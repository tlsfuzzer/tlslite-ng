(* C03 -- the untampered run of Model/C03_Negotiate.v: every stage function is characterised once (what its
   flight or hello is, within whose policy each value lies, and the view it leaves as a function of the flight),
   a completed run is split into its stages, and the agreement and policy theorems combine the stage facts. *)
From Coq Require Import ZArith List Bool Lia.
From TV Require Import Base.Prelude Base.PreludeFacts Gen.C03Tables Model.C03_Negotiate
                       Spec.C07_NegotiateRFC Proofs.C07_Spec.
Import ListNotations.
Open Scope Z_scope.

Lemma memZ_In x l : memZ x l = true <-> In x l.
Proof. exact (mem_In x l). Qed.

Lemma first_matching_common a b : first_matching a b = first_common a b (fun _ => true).
Proof.
  induction a as [|y t IH]; [reflexivity|]. cbn [first_matching first_common].
  rewrite andb_true_r, IH. reflexivity.
Qed.

Lemma first_matching_some a b x : first_matching a b = Some x -> In x a /\ In x b.
Proof. rewrite first_matching_common. intros H. apply first_common_some in H as (A & B & _). exact (conj A B). Qed.

Lemma first_matching_is_some a b x : In x a -> In x b -> exists y, first_matching a b = Some y.
Proof. rewrite first_matching_common. intros A B. exact (first_common_exists _ _ _ x A B eq_refl). Qed.

Lemma in_flat_map_filter (f : list Z -> list Z) (bases : list (list Z)) x :
  In x (flat_map f bases) -> exists b, In b bases /\ In x (f b).
Proof. intros H. apply in_flat_map in H. exact H. Qed.

Lemma if_some {A} {b : bool} {o : option A} {x} : (if b then o else None) = Some x -> o = Some x.
Proof. destruct b; [exact (fun E => E)|discriminate]. Qed.

(* the protocol every server path selects *)
Definition alpn_choice (ca sa : option (list Z)) : option Z :=
  match ca, sa with Some a, Some b => first_matching a b | _, _ => None end.

Definition picked_from (offered : option (list Z)) (own : list Z) (x : Z) : Prop :=
  exists l, offered = Some l /\ In x l /\ In x own.

Lemma picked_within {offered own x mine} : picked_from offered own x -> (forall l, offered = Some l -> l = mine) ->
  In x mine /\ In x own.
Proof. intros [l [A [B C]]] E. rewrite <- (E l A). exact (conj B C). Qed.

Definition admitted_P (tbl : list (Z * bool * list Z)) (names : list Z) (v s : Z) : Prop :=
  exists n gate l, In (n, gate, l) tbl /\ In n names /\ (gate = true -> 3 <= v) /\ In s l.

Lemma admitted_spec tbl names v s : admitted tbl names v s = true -> admitted_P tbl names v s.
Proof.
  unfold admitted, admitted_P. rewrite existsb_exists.
  intros [[[n gate] l] [Hin H]].
  apply andb_true_iff in H. destruct H as [H H3]. apply andb_true_iff in H. destruct H as [H1 H2].
  exists n, gate, l. repeat split.
  - exact Hin.
  - apply memZ_In. exact H1.
  - intros ->. apply Z.leb_le. exact H2.
  - apply memZ_In. exact H3.
Qed.

Definition suite_within (st : Settings) (v s : Z) : Prop :=
  admitted_P mac_table (st_macs st) v s /\
  admitted_P cipher_table (st_ciphers st) v s /\
  ((4 <= v /\ In s kx_tls13_list) \/ admitted_P kx_table (st_kxs st) v s).

Lemma suite_allowed_within st v s : suite_allowed st v s = true -> suite_within st v s.
Proof.
  unfold suite_allowed, suite_within. intros H.
  apply andb_true_iff in H. destruct H as [H H3]. apply andb_true_iff in H. destruct H as [H1 H2].
  split; [apply admitted_spec; exact H1|]. split; [apply admitted_spec; exact H2|].
  apply orb_true_iff in H3. destruct H3 as [H3|H3].
  - left. apply andb_true_iff in H3. destruct H3 as [A B]. split; [apply Z.leb_le; exact A|apply memZ_In; exact B].
  - right. apply admitted_spec. exact H3.
Qed.

Lemma in_get_suites st v bases x : In x (get_suites st v bases) -> suite_allowed st v x = true.
Proof.
  unfold get_suites. intros H. apply in_flat_map in H. destruct H as [b [_ H]].
  apply filter_In in H. exact (proj2 H).
Qed.

Lemma in_filter_for_version l lo hi x : In x (filter_for_version l lo hi) -> In x l /\ suite_in_version lo hi x = true.
Proof. apply filter_In. Qed.

Lemma suite_in_version_listed lo hi x : suite_in_version lo hi x = true -> In x (ssl3Suites ++ tls12Suites ++ tls13Suites).
Proof.
  unfold suite_in_version. rewrite !orb_true_iff, !andb_true_iff, !memZ_In, !in_app_iff. tauto.
Qed.

Definition client_groups_policy (st : Settings) : list Z := st_shares st ++ st_curves st ++ st_dhgroups st.

Lemma in_curves_to_list st v g : In g (curves_to_list st v) -> In g (st_curves st).
Proof.
  unfold curves_to_list. destruct (_ || _); [|auto]. intros H. apply filter_In in H. exact (proj1 H).
Qed.

(* the last step of client_groups, its test and lists as variables *)
Lemma in_shares_then_rest (b : bool) (shares groups0 : list Z) x :
  In x (match groups0 with
        | [] => []
        | _ => if b then shares ++ filter (fun g => negb (memZ g shares)) groups0 else groups0 end) ->
  In x shares \/ In x groups0.
Proof.
  destruct groups0 as [|y t]; [intros []|]. destruct b; [|auto]. intros H. apply in_app_or in H.
  destruct H as [H|H]; [left; exact H|right; apply filter_In in H; exact (proj1 H)].
Qed.

Lemma in_client_groups c g : In g (client_groups c) -> In g (client_groups_policy (cl_set c)).
Proof.
  unfold client_groups, client_groups_policy. intros H. apply in_shares_then_rest in H. apply in_or_app.
  destruct H as [H|H]; [left; exact H|right].
  (* groups0: the curves if an ECDHE suite or TLS 1.3 is on offer, the FFDHE groups if a DHE suite or TLS 1.3 is *)
  apply in_app_or in H. apply in_or_app. destruct H as [H|H].
  - left. destruct (_ || _) in H; [exact (in_curves_to_list _ _ _ H)|destruct H].
  - right. destruct (_ || _) in H; [exact H|destruct H].
Qed.

(* the extensions a hello carries are the client's settings or absent; WHEN one is absent the record does not say:
   that is read off client_offer itself, past its one failure by nonempty_sigalgs_ok *)
Set Implicit Arguments.
Record offer_spec (c : Client) (ch : CHello) : Prop := {
  of_ver : ch_ver ch = Z.min (st_maxV (cl_set c)) 3;
  of_suites : ch_suites ch = scsv_renego :: client_suites c ++ (if cl_fallback c then [scsv_fallback] else []);
  of_sni : ch_sni ch = cl_sni c;
  of_npn : ch_npn ch = match cl_npn c with Some _ => true | None => false end;
  of_alpn : forall a, ch_alpn ch = Some a -> cl_alpn c = Some a;
  of_rsl : forall r, ch_rsl ch = Some r -> st_rsl (cl_set c) = Some r;
  of_sigalgs : forall l, ch_sigalgs ch = Some l -> l = client_sigalgs (cl_set c);
  of_groups : forall gs, ch_groups ch = Some gs -> gs = client_groups c;
  of_shares : forall sh, ch_shares ch = Some sh -> sh = st_shares (cl_set c);
  of_psk_modes : forall m, ch_psk_modes ch = Some m -> m = st_psk_modes (cl_set c) }.
Unset Implicit Arguments.

(* the only way client_offer fails *)
Lemma nonempty_sigalgs_ok {A} (sa : option (list Z)) (b : bool) (e1 e2 : exn) (r : res A) y :
  match sa with Some [] => if b then Err e1 else Err e2 | _ => r end = Ok y -> r = Ok y.
Proof. destruct sa as [[|]|]; [destruct b; discriminate|auto|auto]. Qed.

Lemma client_offer_ok {c ch} : client_offer c = Ok ch -> offer_spec c ch.
Proof.
  unfold client_offer. intros H. apply nonempty_sigalgs_ok in H. injection H as <-.
  constructor; cbn [ch_ver ch_suites ch_sni ch_npn ch_alpn ch_rsl ch_sigalgs ch_groups ch_shares ch_psk_modes];
    try reflexivity.
  - intros a E. exact (if_some E).
  - intros r E. exact (if_some E).
  - intros l E. apply if_some, if_some in E. injection E as <-. reflexivity.
  - intros gs E. apply if_some in E. destruct (client_groups c); [discriminate E|]. injection E as <-. reflexivity.
  - intros sh E. apply if_some in E. injection E as <-. reflexivity.
  - intros m E. apply if_some in E. injection E as <-. reflexivity.
Qed.

Lemma client_offer_npn c ch : client_offer c = Ok ch ->
  ch_npn ch = match cl_npn c with Some _ => true | None => false end.
Proof. intros H. exact (of_npn (client_offer_ok H)). Qed.

(* the two signalling values are in none of the version tables *)
Lemma offered_suite_is_clients {c ch} lo hi x : offer_spec c ch ->
  In x (ch_suites ch) -> suite_in_version lo hi x = true -> In x (client_suites c).
Proof.
  intros H IN SV. rewrite (of_suites H) in IN.
  apply suite_in_version_listed, memZ_In in SV.
  destruct IN as [<-|IN]; [discriminate SV|].
  apply in_app_or in IN. destruct IN as [IN|IN]; [exact IN|].
  destruct (cl_fallback c); [|destruct IN].
  destruct IN as [<-|[]]. discriminate SV.
Qed.

Lemma pick_ske_sig_some {st offered cert v sg} :
  pick_ske_sig st offered cert v = Ok (Some sg) -> picked_from offered (sig_hashes_to_list st false cert v) sg.
Proof.
  unfold pick_ske_sig. destruct offered as [l|]; [|discriminate].
  destruct (first_matching _ l) eqn:E; [|discriminate]. intros H. injection H as <-.
  apply first_matching_some in E. exists l. split; [reflexivity|]. split; [exact (proj2 E)|exact (proj1 E)].
Qed.

Lemma server_select_suite_ok {s ch v suites suite sig} :
  server_select_suite s ch v suites = Ok (suite, sig) ->
  In suite suites /\ In suite (ch_suites ch) /\
  forall sg, sig = Some sg -> picked_from (ch_sigalgs ch) (sig_hashes_to_list (sv_set s) false (sv_cert s) v) sg.
Proof.
  unfold server_select_suite. intros H.
  destruct (fix_eddsa_server && (v <? 3) && _); [discriminate H|].
  destruct (first_matching _ (ch_suites ch)) as [x|] eqn:F; [|destruct (_ && existsb _ (ch_suites ch)); discriminate H].
  apply bind_Ok in H as (sg' & P & H).
  (* the checks on an ECDSA certificate's curve only ever refuse *)
  assert (E : Ok (x, sg') = Ok (suite, sig)).
  { destruct (sv_cert s), (ch_groups ch), (ch_sigalgs ch) as [[|]|]; try exact H.
    destruct (_ =? 2); [|exact H]. destruct ((v <=? 3) && _); [discriminate H|].
    destruct ((4 <=? v) && _); [discriminate H|exact H]. }
  injection E as <- <-. apply first_matching_some in F. destruct F as [A B].
  split; [|split; [exact B|]].
  - assert (Hx : In x (filter_for_certificate suites (sv_cert s))).
    { destruct (fix_psk_prf_tls13_only && _) in A; [exact A|]. destruct (map snd _) in A; [exact A|].
      destruct (fix_psk_prf_fallback && _) in A; [exact A|]. apply filter_In in A. exact (proj1 A). }
    apply filter_In in Hx. exact (proj1 Hx).
  - intros sg ->. destruct ((3 <? v) && _) in P; [discriminate P|]. exact (pick_ske_sig_some P).
Qed.

Lemma in_server_suites s ch v x : In x (server_suites s ch v) ->
  suite_allowed (sv_set s) v x = true /\ suite_in_version v v x = true.
Proof.
  unfold server_suites. intros H.
  destruct (match ch_groups ch with None => (true, true) | Some cg => _ end) as [ec ff].
  apply in_filter_for_version in H. destruct H as [H Hv]. split; [|exact Hv].
  destruct (sv_srp s).
  - apply in_app_or in H. destruct H as [H|H]; [|exact (in_get_suites _ _ _ _ H)].
    destruct (sv_cert s); [exact (in_get_suites _ _ _ _ H)|destruct H].
  - destruct (sv_cert s); [|destruct (sv_anon s); exact (in_get_suites _ _ _ _ H)].
    assert (G : forall (b : bool) bases, In x (if b then get_suites (sv_set s) v bases else []) ->
                  suite_allowed (sv_set s) v x = true).
    { intros [|] bases I; [exact (in_get_suites _ _ _ _ I)|destruct I]. }
    apply in_app_or in H. destruct H as [H|H]; [exact (G _ _ H)|].
    apply in_app_or in H. destruct H as [H|H]; [exact (G _ _ H)|].
    apply in_app_or in H. destruct H as [H|H]; [exact (G _ _ H)|exact (in_get_suites _ _ _ _ H)].
Qed.

Lemma server_hello_stage_ok {s ch h v suite sig grp} :
  server_hello_stage s ch h = Ok (v, suite, sig, grp) ->
  server_min_version (sv_set s) ch = Ok tt /\ server_pick_version (sv_set s) ch = Ok v /\
  server_select_suite s ch v (server_suites s ch v) = Ok (suite, sig) /\
  (3 < v -> server_group13 (sv_set s) ch = Ok grp).
Proof.
  unfold server_hello_stage. intros H.
  apply bind_Ok in H as ([] & MV & H). apply bind_Ok in H as ([] & _ & H).
  apply bind_Ok in H as (v' & PV & H). apply bind_Ok in H as ([] & _ & H). apply bind_Ok in H as ([] & _ & H).
  apply bind_Ok in H as ([su sg] & SS & H). apply bind_Ok in H as (g & G & H). injection H as <- <- <- <-.
  repeat split; try assumption.
  intros L. apply Z.ltb_lt in L. rewrite L in G. exact G.
Qed.

(* with supported_versions the server picks from its `versions` list; without, it answers a hello of version <= 3
   inside [minVersion, maxVersion] *)
Lemma server_version_choice st ch v :
  server_min_version st ch = Ok tt -> server_pick_version st ch = Ok v -> ch_ver ch <= 3 ->
  In v (st_versions st) \/ (st_minV st <= st_maxV st -> st_minV st <= v <= st_maxV st).
Proof.
  unfold server_min_version, server_pick_version. intros MV PV L.
  destruct (ch_supver ch) as [vs|].
  - destruct (first_matching (st_versions st) vs) eqn:F; [|discriminate PV].
    injection PV as <-. left. exact (proj1 (first_matching_some _ _ _ F)).
  - right. intros W. destruct (ch_ver ch <? st_minV st) eqn:L1; [discriminate MV|]. apply Z.ltb_ge in L1.
    destruct (st_maxV st <? ch_ver ch) eqn:L2; injection PV as <-;
      [apply Z.ltb_lt in L2|apply Z.ltb_ge in L2]; lia.
Qed.

(* the preference list of server_group13; the same expression as client_groups_policy *)
Definition server_groups_policy (st : Settings) : list Z := st_shares st ++ st_curves st ++ st_dhgroups st.

Lemma server_group13_in st ch grp : server_group13 st ch = Ok grp ->
  picked_from (ch_shares ch) (server_groups_policy st) (fst grp) \/
  picked_from (ch_groups ch) (server_groups_policy st) (fst grp).
Proof.
  unfold server_group13, server_groups_policy. intros H.
  destruct (ch_shares ch) as [sh|]; [|discriminate H].
  destruct (first_matching (filter _ _) sh) eqn:F1.
  - destruct (first_matching (st_shares st ++ st_curves st ++ st_dhgroups st) sh) eqn:F2; [|discriminate H].
    injection H as <-. apply first_matching_some in F2. cbn [fst].
    left. exists sh. split; [reflexivity|]. split; [exact (proj2 F2)|exact (proj1 F2)].
  - destruct (first_matching _ (match ch_groups ch with Some g => g | None => [] end)) eqn:F2; [|discriminate H].
    injection H as <-. apply first_matching_some in F2. destruct F2 as [A B]. cbn [fst].
    apply filter_In in A. right. destruct (ch_groups ch) as [gs|]; [|destruct B].
    exists gs. split; [reflexivity|]. split; [exact B|exact (proj1 A)].
Qed.

(* Each view is a function of the server's flight, the hello and the end's own configuration: the stage lemmas say
   so in one equation each, and that the two ends agree is seen by comparing the two functions.  Two fields of the
   TLS <= 1.2 client's view are not functions of the flight and stay arguments, filled from the view itself
   (lr_client_view): vw_npn, tied to the flight by lc_no_npn only, and vw_sig, of which nothing is said. *)

(* what both finish functions make of the server's provisional view *)
Definition after_finish (sv0 : View) (npn chain : option Z) : View :=
  {| vw_version := vw_version sv0; vw_suite := vw_suite sv0; vw_etm := vw_etm sv0; vw_ems := vw_ems sv0;
     vw_alpn := vw_alpn sv0; vw_npn := npn; vw_sni := vw_sni sv0; vw_send_limit := vw_send_limit sv0;
     vw_recv_limit := vw_recv_limit sv0; vw_server_chain := vw_server_chain sv0; vw_client_chain := chain;
     vw_sig := vw_sig sv0; vw_secret := vw_secret sv0 |}.

Definition legacy_secret (fl : Flight) : SecretIn :=
  {| si_version := fl_version fl; si_prf := prf_of (fl_suite fl); si_ems := fl_ems fl;
     si_kex := kex_of (fl_suite fl); si_group := fl_group fl; si_dh_bits := fl_dh_bits fl;
     si_psk := None; si_hrr := false |}.

Definition tls13_secret (fl : Flight) (psk : option Z) : SecretIn :=
  {| si_version := fl_version fl; si_prf := prf_of (fl_suite fl); si_ems := true;
     si_kex := match fl_group fl with Some _ => 4 | None => 5 end;
     si_group := fl_group fl; si_dh_bits := None; si_psk := psk; si_hrr := fl_hrr fl |}.

Definition authed_suite (suite : Z) : bool :=
  memZ suite certAllSuites || memZ suite ecdheEcdsaSuites || memZ suite dheDsaSuites.

Definition chain_id (c : option Cert) : option Z := match c with Some x => Some (ct_id x) | None => None end.

Definition sized_key (c : Cert) : Prop := ct_alg c = 0 \/ ct_alg c = 1 \/ ct_alg c = 5.

Lemma check_chain_key_size who st v c :
  check_chain who st v c = Ok tt -> sized_key c -> st_min_key st <= ct_bits c <= st_max_key st.
Proof.
  unfold check_chain, sized_key. intros H A.
  destruct (ct_alg c =? 2) eqn:E2; [apply Z.eqb_eq in E2; lia|].
  destruct ((ct_alg c =? 3) || (ct_alg c =? 4)) eqn:E3.
  { apply orb_true_iff in E3. destruct E3 as [E3|E3]; apply Z.eqb_eq in E3; lia. }
  destruct (ct_bits c <? st_min_key st) eqn:L1; [discriminate H|].
  destruct (st_max_key st <? ct_bits c) eqn:L2; [discriminate H|].
  apply Z.ltb_ge in L1. apply Z.ltb_ge in L2. lia.
Qed.

Lemma check_chain_curve who st v c :
  check_chain who st v c = Ok tt -> ct_alg c = 2 -> v <= 3 -> In (ct_curve c) (st_curves st).
Proof.
  unfold check_chain. intros H A Hv. rewrite A in H. cbn [Z.eqb Pos.eqb] in H.
  destruct (v <=? 3) eqn:L; [|apply Z.leb_gt in L; lia]. cbn [andb] in H.
  destruct (memZ (ct_curve c) (st_curves st)) eqn:M; [apply memZ_In; exact M|discriminate H].
Qed.

Definition legacy_server_view (s : Server) (ch : CHello) (fl : Flight) : View :=
  {| vw_version := fl_version fl; vw_suite := fl_suite fl; vw_etm := fl_etm fl; vw_ems := fl_ems fl;
     vw_alpn := fl_alpn fl; vw_npn := None; vw_sni := ch_sni ch;
     vw_send_limit := match fl_rsl fl, ch_rsl ch with Some _, Some r => Z.min two14 r | _, _ => two14 end;
     vw_recv_limit := match fl_rsl fl with Some r => r | None => two14 end;
     vw_server_chain := if memZ (fl_suite fl) certAllSuites || memZ (fl_suite fl) ecdheEcdsaSuites
                           || (fix_dhe_dsa_chain && memZ (fl_suite fl) dheDsaSuites)
                        then chain_id (sv_cert s) else None;
     vw_client_chain := None; vw_sig := None; vw_secret := legacy_secret fl |}.

(* sg: the scheme the client remembers, of which nothing is said *)
Definition legacy_client_view (c : Client) (fl : Flight) (ccert : option Cert) (npn sg : option Z) : View :=
  {| vw_version := fl_version fl; vw_suite := fl_suite fl; vw_etm := fl_etm fl; vw_ems := fl_ems fl;
     vw_alpn := fl_alpn fl; vw_npn := npn; vw_sni := cl_sni c;
     vw_send_limit := match fl_rsl fl with Some r => r | None => two14 end;
     vw_recv_limit := match fl_rsl fl, st_rsl (cl_set c) with Some _, Some mine => Z.min two14 mine | _, _ => two14 end;
     vw_server_chain := if authed_suite (fl_suite fl) then chain_id (fl_cert fl) else None;
     vw_client_chain := chain_id ccert; vw_sig := sg; vw_secret := legacy_secret fl |}.

Set Implicit Arguments.
Record server_legacy_spec (s : Server) (ch : CHello) (v suite : Z) (fl : Flight) : Prop := {
  ls_version : fl_version fl = v;
  ls_suite : fl_suite fl = suite;
  ls_psk : fl_psk fl = None;
  ls_rsl : forall r, fl_rsl fl = Some r -> exists r', ch_rsl ch = Some r';
  ls_alpn : fl_alpn fl = alpn_choice (ch_alpn ch) (sv_alpn s);
  ls_group : forall g, fl_group fl = Some g ->
             kex_of suite = 2 /\ In g (st_curves (sv_set s)) \/
             kex_of suite = 1 /\ picked_from (ch_groups ch) (st_dhgroups (sv_set s)) g;
  ls_sig : forall sg, fl_sig fl = Some sg ->
           picked_from (ch_sigalgs ch) (sig_hashes_to_list (sv_set s) false (sv_cert s) 3) sg;
  ls_cert : fl_cert fl = if authed_suite suite then sv_cert s else None;
  ls_cert_req : forall algs, fl_cert_req fl = Some algs -> algs = sig_hashes_to_list (sv_set s) false None v }.

Record client_legacy_spec (c : Client) (fl : Flight) (ccert : option Cert) (npn : option Z) : Prop := {
  lc_no_npn : fl_npn fl = None -> npn = None;
  lc_curve : kex_of (fl_suite fl) = 2 -> forall g, fl_group fl = Some g -> In g (st_curves (cl_set c));
  lc_srp_size : kex_of (fl_suite fl) = 3 -> forall b, fl_srp_bits fl = Some b ->
                st_min_key (cl_set c) <= b <= st_max_key (cl_set c);
  lc_dh_size : fix_dh_size = true -> kex_of (fl_suite fl) = 1 -> forall b, fl_dh_bits fl = Some b ->
               st_min_key (cl_set c) <= b <= st_max_key (cl_set c);
  lc_authed : authed_suite (fl_suite fl) = true -> forall sc, fl_cert fl = Some sc ->
              check_chain 1000 (cl_set c) (fl_version fl) sc = Ok tt /\
              forall sg, fl_sig fl = Some sg -> In sg (sig_hashes_to_list (cl_set c) false (Some sc) 3);
  lc_ccert : ccert = match fl_cert_req fl with Some _ => cl_cert c | None => None end }.
Unset Implicit Arguments.

Lemma server_legacy_ok {s ch v suite fl sv0} :
  server_legacy s ch v suite = Ok (fl, sv0) -> sv0 = legacy_server_view s ch fl /\ server_legacy_spec s ch v suite fl.
Proof.
  unfold server_legacy. fold (authed_suite suite). intros H.
  apply bind_Ok in H as (ems & _ & H). apply bind_Ok in H as (alpn & A & H).
  apply bind_Ok in H as (sig & S & H). apply bind_Ok in H as (srp & _ & H).
  apply bind_Ok in H as (dh & DH & H). apply bind_Ok in H as (ec & EC & H).
  apply bind_Ok in H as ([] & _ & H). apply bind_Ok in H as ([] & _ & H). injection H as <- <-.
  split.
  { unfold legacy_server_view, legacy_secret. cbn [fl_version fl_suite fl_etm fl_ems fl_alpn fl_rsl fl_group fl_dh_bits].
    destruct (ch_rsl ch), (st_rsl (sv_set s)); reflexivity. }
  constructor;
    cbn [fl_version fl_suite fl_psk fl_alpn fl_rsl fl_group fl_sig fl_cert fl_cert_req];
    try reflexivity.
  - intros r E. destruct (ch_rsl ch) as [r'|]; [exists r'; reflexivity|discriminate E].
  - unfold alpn_choice. destruct (ch_alpn ch) as [a|], (sv_alpn s) as [b|]; try (injection A as <-; reflexivity).
    destruct (first_matching a b); [injection A as <-; reflexivity|discriminate A].
  - intros g Hg. destruct (kex_of suite =? 2) eqn:K2.
    + left. split; [apply Z.eqb_eq; exact K2|]. subst ec.
      destruct (first_matching _ (curves_to_list (sv_set s) v)) eqn:F; [|discriminate EC].
      injection EC as <-. exact (in_curves_to_list _ _ _ (proj2 (first_matching_some _ _ _ F))).
    + right. destruct (kex_of suite =? 1) eqn:K1; [|injection DH as <-; discriminate Hg].
      split; [apply Z.eqb_eq; exact K1|].
      destruct (ch_groups ch) as [gs|]; [|injection DH as <-; discriminate Hg].
      destruct (first_matching gs (st_dhgroups (sv_set s))) eqn:F.
      * injection DH as <-. injection Hg as <-. exists gs. exact (conj eq_refl (first_matching_some _ _ _ F)).
      * destruct (_ && _) in DH; [destruct (memZ suite anonSuites) in DH; discriminate DH|].
        injection DH as <-. discriminate Hg.
  - intros sg E. destruct (_ && (3 <=? v)); [|discriminate E]. subst sig.
    destruct (_ || _) in S; [|discriminate S]. exact (pick_ske_sig_some S).
  - intros algs E. destruct (_ && sv_req_cert s); [|discriminate E]. injection E as <-. reflexivity.
Qed.

Lemma client_legacy_ok {c ch fl cv ccert cvalg npn} :
  client_legacy c ch fl = Ok (cv, ccert, cvalg, npn) ->
  cv = legacy_client_view c fl ccert npn (vw_sig cv) /\ client_legacy_spec c fl ccert npn.
Proof.
  unfold client_legacy. fold (authed_suite (fl_suite fl)). intros H.
  apply bind_Ok in H as ([] & _ & H). apply bind_Ok in H as ([] & AU & H).
  apply bind_Ok in H as ([] & DH & H). apply bind_Ok in H as ([] & _ & H).
  apply bind_Ok in H as ([] & KX & H). apply bind_Ok in H as ([] & _ & H).
  apply bind_Ok in H as (cv' & _ & H). apply bind_Ok in H as ([] & _ & H).
  apply bind_Ok in H as ([] & _ & H). injection H as <- <- <- <-.
  split; [unfold legacy_client_view; cbn [vw_sig]; destruct (fl_rsl fl), (st_rsl (cl_set c)); reflexivity|].
  constructor; try reflexivity.
  - intros ->. destruct (cl_npn c); reflexivity.
  - intros K g Hg. rewrite K, Hg in KX. cbn [Z.eqb Pos.eqb] in KX.
    destruct (memZ g (curves_to_list (cl_set c) 4)) eqn:M; [|discriminate KX].
    apply memZ_In in M. exact (in_curves_to_list _ _ _ M).
  - intros K b Hb. rewrite K, Hb in KX. cbn [Z.eqb Pos.eqb] in KX.
    destruct (b <? _) eqn:L1; [discriminate KX|]. destruct (_ <? b) eqn:L2; [discriminate KX|].
    apply Z.ltb_ge in L1. apply Z.ltb_ge in L2. lia.
  - intros F K b Hb. rewrite F, K, Hb in DH. cbn [Z.eqb Pos.eqb andb] in DH.
    destruct (_ || _) eqn:L in DH; [discriminate DH|]. apply orb_false_iff in L. lia.
  - intros A sc E. rewrite A, E in AU. apply bind_Ok in AU as ([] & CC & AU). split; [exact CC|].
    apply bind_Ok in AU as ([] & _ & AU). intros sg Hsg. rewrite Hsg in AU.
    destruct (memZ sg _) eqn:M; [apply memZ_In; exact M|discriminate AU].
Qed.

Lemma server_legacy_finish_ok {s fl sv0 ccert cv npn sv} :
  server_legacy_finish s fl sv0 ccert cv npn = Ok sv -> (fl_cert_req fl = None -> ccert = None) ->
  sv = after_finish sv0 (match fl_npn fl with Some _ => npn | None => None end) (chain_id ccert) /\
  forall mc, ccert = Some mc -> check_chain 2000 (sv_set s) (fl_version fl) mc = Ok tt.
Proof.
  unfold server_legacy_finish. intros H N. apply bind_Ok in H as (chain & E & H). injection H as <-.
  destruct (fl_cert_req fl), ccert as [cc|].
  - apply bind_Ok in E as ([] & _ & E). apply bind_Ok in E as ([] & CC & E). injection E as <-.
    split; [reflexivity|]. intros mc M. injection M as <-. exact CC.
  - injection E as <-. split; [reflexivity|discriminate].
  - discriminate (N eq_refl).
  - injection E as <-. split; [reflexivity|discriminate].
Qed.

Lemma index_where_nth f l start i x :
  index_where f l start = Some (i, x) -> start <= i /\ nth_error l (Z.to_nat (i - start)) = Some x.
Proof.
  revert start. induction l as [|y t IH]; intros start; cbn [index_where]; [discriminate|].
  destruct (f y).
  - intros H. injection H as <- <-. split; [lia|]. replace (start - start) with 0 by lia. reflexivity.
  - intros H. destruct (IH _ H) as [A B]. split; [lia|].
    replace (Z.to_nat (i - start)) with (S (Z.to_nat (i - (start + 1)))) by lia. exact B.
Qed.

Definition selected_psk (ch : CHello) (fl : Flight) : option Z :=
  match fl_psk fl with Some i => nth_error (ch_psk_ids ch) (Z.to_nat i) | None => None end.

(* 0 = psk_dhe_ke, 1 = psk_ke *)
Definition psk_mode_of (fl : Flight) : Z := match fl_group fl with Some _ => 0 | None => 1 end.

(* neither end takes EtM and EMS from the flight *)
Definition tls13_server_view (s : Server) (ch : CHello) (fl : Flight) : View :=
  {| vw_version := fl_version fl; vw_suite := fl_suite fl; vw_etm := false; vw_ems := true;
     vw_alpn := fl_alpn fl; vw_npn := None; vw_sni := ch_sni ch;
     vw_send_limit := match ch_rsl ch, st_rsl (sv_set s) with Some r, Some _ => Z.min two14 (r - 1) | _, _ => two14 end;
     vw_recv_limit := match ch_rsl ch, st_rsl (sv_set s) with Some _, Some m => Z.min two14 (m - 1) | _, _ => two14 end;
     vw_server_chain := chain_id (sv_cert s); vw_client_chain := None; vw_sig := fl_sig fl;
     vw_secret := tls13_secret fl (selected_psk ch fl) |}.

(* _clientTLS13Handshake stores its configured chain whether or not it was requested *)
Definition tls13_client_view (c : Client) (ch : CHello) (fl : Flight) : View :=
  {| vw_version := fl_version fl; vw_suite := fl_suite fl; vw_etm := false; vw_ems := true;
     vw_alpn := fl_alpn fl; vw_npn := None; vw_sni := cl_sni c;
     vw_send_limit := match fl_rsl fl, st_rsl (cl_set c) with Some r, Some _ => r - 1 | _, _ => two14 end;
     vw_recv_limit := match fl_rsl fl, st_rsl (cl_set c) with Some _, Some m => Z.min two14 (m - 1) | _, _ => two14 end;
     vw_server_chain := chain_id (fl_cert fl); vw_client_chain := chain_id (cl_cert c); vw_sig := fl_sig fl;
     vw_secret := tls13_secret fl (selected_psk ch fl) |}.

Set Implicit Arguments.
Record server_tls13_spec (s : Server) (ch : CHello) (v suite : Z) (alpn : option Z) (fl : Flight) : Prop := {
  ts_version : fl_version fl = v;
  ts_suite : fl_suite fl = suite;
  ts_alpn : fl_alpn fl = alpn;
  ts_dh : fl_dh_bits fl = None;
  ts_rsl : fl_rsl fl = match ch_rsl ch, st_rsl (sv_set s) with
                       | Some _, Some r => Some (Z.min (two14 + 1) r) | _, _ => None end;
  ts_cert : fl_cert fl = match fl_psk fl with None => sv_cert s | Some _ => None end;
  ts_cert_req : forall algs, fl_cert_req fl = Some algs -> algs = sig_hashes_to_list (sv_set s) false None v;
  ts_psk_mode : forall i, fl_psk fl = Some i ->
                picked_from (ch_psk_modes ch) (st_psk_modes (sv_set s)) (psk_mode_of fl) }.

Record client_tls13_spec (c : Client) (fl : Flight) (ccert : option Cert) : Prop := {
  tc_authed : fl_psk fl = None -> forall sc, fl_cert fl = Some sc ->
              check_chain 1000 (cl_set c) (fl_version fl) sc = Ok tt /\
              forall sg, fl_sig fl = Some sg -> In sg (sig_hashes_to_list (cl_set c) false (Some sc) 4);
  tc_ccert : ccert = match fl_cert_req fl with Some _ => cl_cert c | None => None end }.
Unset Implicit Arguments.

Lemma server_tls13_ok {s ch v suite scheme grp alpn fl sv0} :
  server_tls13 s ch v suite scheme grp alpn = Ok (fl, sv0) ->
  sv0 = tls13_server_view s ch fl /\ server_tls13_spec s ch v suite alpn fl /\
  fl_sig fl = match fl_psk fl with None => scheme | Some _ => None end /\
  (forall g, fl_group fl = Some g -> g = fst grp).
Proof.
  unfold server_tls13. intros H.
  (* PSK: the selected (index, identity), named so that the flight and the view mention it as a variable *)
  match type of H with context [index_where ?f ?l ?z] => set (IW := index_where f l z) in * end.
  match type of H with bind (match ?p with _ => _ end) _ = _ => set (PSK := p) in * end.
  apply bind_Ok in H as (dhe & D & H). injection H as <- <-.
  assert (P : match PSK with Some (i, x) => nth_error (ch_psk_ids ch) (Z.to_nat i) = Some x | None => True end).
  { destruct PSK as [[i x]|] eqn:E; [|exact I]. unfold PSK in E. destruct (_ && _) in E; [|discriminate E].
    apply index_where_nth in E. replace (i - 0) with i in E by lia. exact (proj2 E). }
  split; [|split; [|split]].
  - unfold tls13_server_view, tls13_secret, selected_psk. cbn [fl_version fl_suite fl_alpn fl_sig fl_psk fl_group fl_hrr].
    destruct PSK as [[i x]|]; [rewrite P|]; destruct dhe, (ch_rsl ch), (st_rsl (sv_set s)); reflexivity.
  - constructor; unfold psk_mode_of;
      cbn [fl_version fl_suite fl_alpn fl_psk fl_group fl_rsl fl_cert fl_cert_req fl_dh_bits]; try reflexivity.
    + destruct PSK as [[? ?]|]; reflexivity.
    + intros algs E. destruct (_ && sv_req_cert s); [|discriminate E]. injection E as <-. reflexivity.
    + intros i E. destruct PSK as [[j x]|]; [clear E|discriminate E].
      (* without psk_key_exchange_modes neither mode is found and the server has refused *)
      destruct (ch_psk_modes ch) as [m|]; [exists m; split; [reflexivity|]|discriminate D].
      rewrite <- !memZ_In. apply andb_true_iff.
      destruct (memZ 0 _ && memZ 0 _) eqn:A in D; [|destruct (memZ 1 _ && memZ 1 _) eqn:B in D; [|discriminate D]];
        injection D as <-; assumption.
  - cbn [fl_sig fl_psk]. destruct PSK as [[? ?]|]; reflexivity.
  - cbn [fl_group]. intros g E. destruct dhe; [injection E as <-; reflexivity|discriminate E].
Qed.

Lemma server_tls13_alpn_eq s ch : server_tls13_alpn s ch = Ok (alpn_choice (ch_alpn ch) (sv_alpn s)).
Proof. unfold server_tls13_alpn, alpn_choice. destruct (ch_alpn ch), (sv_alpn s); reflexivity. Qed.

Lemma client_tls13_ok {c ch fl cv ccert cvalg} :
  client_tls13 c ch fl = Ok (cv, ccert, cvalg) -> cv = tls13_client_view c ch fl /\ client_tls13_spec c fl ccert.
Proof.
  unfold client_tls13. intros H.
  apply bind_Ok in H as ([] & _ & H). apply bind_Ok in H as ([] & AU & H). apply bind_Ok in H as (a & _ & H).
  injection H as <- <- <-.
  split; [unfold tls13_client_view; destruct (fl_rsl fl), (st_rsl (cl_set c)); reflexivity|].
  constructor; [|reflexivity]. intros P sc E. rewrite P, E in AU. apply bind_Ok in AU as ([] & CC & AU).
  split; [exact CC|]. intros sg Hsg. rewrite Hsg in AU.
  destruct (memZ sg _) eqn:M; [apply memZ_In; exact M|discriminate AU].
Qed.

Lemma server_tls13_finish_ok {s fl sv0 ccert cv sv} :
  server_tls13_finish s fl sv0 ccert cv = Ok sv -> (fl_cert_req fl = None -> ccert = None) ->
  sv = after_finish sv0 None (chain_id ccert) /\
  (fix_tls13_client_key = true -> forall mc, ccert = Some mc -> check_chain 2000 (sv_set s) (fl_version fl) mc = Ok tt).
Proof.
  unfold server_tls13_finish. intros H N. apply bind_Ok in H as (chain & E & H). injection H as <-.
  destruct (fl_cert_req fl), ccert as [cc|].
  - destruct cv; [|discriminate E]. destruct (memZ _ _); [|discriminate E].
    apply bind_Ok in E as ([] & CC & E). injection E as <-.
    split; [destruct (fl_psk fl); reflexivity|]. intros F mc M. injection M as <-. rewrite F in CC. exact CC.
  - injection E as <-. split; [destruct (fl_psk fl); reflexivity|discriminate].
  - discriminate (N eq_refl).
  - injection E as <-. split; [destruct (fl_psk fl); reflexivity|discriminate].
Qed.

Lemma client_check_hello_ok {c ch fl} :
  client_check_hello c ch fl = Ok tt ->
  (st_minV (cl_set c) <= fl_version fl /\
   (fl_version fl <= st_maxV (cl_set c) \/ In (fl_version fl) (st_versions (cl_set c)))) /\
  In (fl_suite fl) (ch_suites ch) /\ suite_in_version (fl_version fl) (fl_version fl) (fl_suite fl) = true.
Proof.
  unfold client_check_hello. intros H.
  destruct (fl_version fl <? st_minV (cl_set c)) eqn:E1; [discriminate H|].
  destruct ((st_maxV (cl_set c) <? fl_version fl) && negb (memZ (fl_version fl) (st_versions (cl_set c)))) eqn:E2;
    [discriminate H|].
  destruct (negb (memZ (fl_suite fl) (filter_for_version (ch_suites ch) (fl_version fl) (fl_version fl)))) eqn:E3;
    [discriminate H|].
  apply Z.ltb_ge in E1. split; [split; [lia|]|].
  - apply andb_false_iff in E2. destruct E2 as [E2|E2].
    + apply Z.ltb_ge in E2. left. lia.
    + apply negb_false_iff in E2. right. apply memZ_In. exact E2.
  - apply negb_false_iff in E3. apply memZ_In in E3. apply in_filter_for_version in E3. exact E3.
Qed.

(* A completed run: everything the theorems below use, stated of the five components of the Outcome.  The
   server's provisional view, the picked signature scheme and TLS 1.3 group, and the client's second flight are
   eliminated here, once. *)
Set Implicit Arguments.
Record legacy_run (c : Client) (s : Server) (ch : CHello) (fl : Flight) (cv sv : View) (ccert : option Cert)
  : Prop := {
  lr_version : fl_version fl <= 3;
  lr_server : server_legacy_spec s ch (fl_version fl) (fl_suite fl) fl;
  lr_client : client_legacy_spec c fl ccert (vw_npn cv);
  lr_client_view : cv = legacy_client_view c fl ccert (vw_npn cv) (vw_sig cv);
  lr_server_view : sv = after_finish (legacy_server_view s ch fl)
                                     (match fl_npn fl with Some _ => vw_npn cv | None => None end) (chain_id ccert) }.

Record tls13_run (c : Client) (s : Server) (ch : CHello) (fl : Flight) (cv sv : View) (ccert : option Cert)
  : Prop := {
  tr_version : 3 < fl_version fl;
  tr_server : server_tls13_spec s ch (fl_version fl) (fl_suite fl) (fl_alpn fl) fl;
  tr_client : client_tls13_spec c fl ccert;
  tr_client_view : cv = tls13_client_view c ch fl;
  tr_server_view : sv = after_finish (tls13_server_view s ch fl) None (chain_id ccert);
  tr_sig : forall sg, fl_sig fl = Some sg ->
           picked_from (ch_sigalgs ch) (sig_hashes_to_list (sv_set s) false (sv_cert s) (fl_version fl)) sg;
  tr_group : forall g, fl_group fl = Some g ->
             picked_from (ch_shares ch) (server_groups_policy (sv_set s)) g \/
             picked_from (ch_groups ch) (server_groups_policy (sv_set s)) g }.

Record run_spec (c : Client) (s : Server) (ch : CHello) (fl : Flight) (cv sv : View) (ccert : option Cert)
  : Prop := {
  ru_offer : offer_spec c ch;
  ru_min : server_min_version (sv_set s) ch = Ok tt;
  ru_pick : server_pick_version (sv_set s) ch = Ok (fl_version fl);
  ru_server_suite : In (fl_suite fl) (server_suites s ch (fl_version fl));
  ru_client_version : st_minV (cl_set c) <= fl_version fl /\
                      (fl_version fl <= st_maxV (cl_set c) \/ In (fl_version fl) (st_versions (cl_set c)));
  ru_offered : In (fl_suite fl) (ch_suites ch);
  ru_version : vw_version sv = fl_version fl;
  ru_suite : vw_suite sv = fl_suite fl;
  ru_alpn : vw_alpn sv = alpn_choice (ch_alpn ch) (sv_alpn s);
  ru_client_chain : vw_client_chain sv = chain_id ccert;
  ru_checked : fl_version fl <= 3 \/ fix_tls13_client_key = true ->
               forall mc, ccert = Some mc -> check_chain 2000 (sv_set s) (fl_version fl) mc = Ok tt;
  ru_stages : legacy_run c s ch fl cv sv ccert \/ tls13_run c s ch fl cv sv ccert }.
Unset Implicit Arguments.

Lemma negotiate_ok {c s o} : negotiate c s = Ok o ->
  run_spec c s (oc_hello o) (oc_flight o) (oc_client o) (oc_server o) (oc_client_cert o).
Proof.
  unfold negotiate. intros H.
  apply bind_Ok in H as (ch & O & H). apply bind_Ok in H as ([[[v suite] sig] grp] & HS & H).
  apply client_offer_ok in O. destruct (server_hello_stage_ok HS) as [MV [PV [SS G]]].
  destruct (server_select_suite_ok SS) as [IS [_ SG]].
  destruct (3 <? v) eqn:L; [apply Z.ltb_lt in L|apply Z.ltb_ge in L].
  - (* the ServerHello the client checks is that of a first server_tls13 run, without ALPN *)
    apply bind_Ok in H as ([fl0 sv00] & S0 & H). apply bind_Ok in H as ([] & CK & H).
    apply bind_Ok in H as (alpn & AL & H). apply bind_Ok in H as ([fl sv0] & S1 & H).
    apply bind_Ok in H as ([[cv ccert] cvalg] & CL & H). apply bind_Ok in H as (sv & FI & H).
    injection H as <-. cbn [oc_hello oc_flight oc_client oc_server oc_client_cert].
    destruct (server_tls13_ok S0) as [_ [R0 _]]. destruct (server_tls13_ok S1) as [-> [R1 [FS FG]]].
    destruct (client_tls13_ok CL) as [EC C].
    destruct (server_tls13_finish_ok FI) as [K F]; [intros N; rewrite (tc_ccert C), N; reflexivity|].
    apply client_check_hello_ok in CK. rewrite (ts_version R0), (ts_suite R0) in CK. destruct CK as [C1 [C2 _]].
    pose proof (ts_version R1) as EV. pose proof (ts_suite R1) as ES. pose proof (ts_alpn R1) as EA.
    rewrite server_tls13_alpn_eq, <- EA in AL. injection AL as AL. symmetry in AL. subst v suite alpn.
    refine {| ru_offer := O; ru_min := MV; ru_pick := PV; ru_server_suite := IS; ru_client_version := C1;
              ru_offered := C2; ru_version := f_equal vw_version K; ru_suite := f_equal vw_suite K;
              ru_alpn := eq_trans (f_equal vw_alpn K) AL; ru_client_chain := f_equal vw_client_chain K;
              ru_checked := _;
              ru_stages := or_intror {| tr_version := L; tr_server := R1; tr_client := C; tr_client_view := EC;
                                        tr_server_view := K; tr_sig := _; tr_group := _ |} |}.
    + intros [V|V]; [lia|exact (F V)].
    + intros sg E. rewrite FS in E. destruct (fl_psk fl); [discriminate E|]. exact (SG sg E).
    + intros g E. rewrite (FG g E). exact (server_group13_in _ _ _ (G L)).
  - apply bind_Ok in H as ([fl sv0] & S1 & H). apply bind_Ok in H as ([] & CK & H).
    apply bind_Ok in H as ([[[cv ccert] cvalg] npn] & CL & H). apply bind_Ok in H as (sv & FI & H).
    injection H as <-. cbn [oc_hello oc_flight oc_client oc_server oc_client_cert].
    destruct (client_legacy_ok CL) as [EC C]. destruct (server_legacy_ok S1) as [-> S].
    destruct (server_legacy_finish_ok FI) as [K F]; [intros N; rewrite (lc_ccert C), N; reflexivity|].
    apply client_check_hello_ok in CK. destruct CK as [C1 [C2 _]].
    pose proof (ls_version S) as EV. pose proof (ls_suite S) as ES.
    assert (EN : vw_npn cv = npn) by (rewrite EC; reflexivity). subst v suite npn.
    exact {| ru_offer := O; ru_min := MV; ru_pick := PV; ru_server_suite := IS; ru_client_version := C1;
             ru_offered := C2; ru_version := f_equal vw_version K; ru_suite := f_equal vw_suite K;
             ru_alpn := eq_trans (f_equal vw_alpn K) (ls_alpn S); ru_client_chain := f_equal vw_client_chain K;
             ru_checked := fun _ => F;
             ru_stages := or_introl {| lr_version := L; lr_server := S; lr_client := C; lr_client_view := EC;
                                       lr_server_view := K |} |}.
Qed.

Definition views_agree_core (cv sv : View) : Prop :=
  vw_version cv = vw_version sv /\ vw_suite cv = vw_suite sv /\ vw_etm cv = vw_etm sv /\
  vw_ems cv = vw_ems sv /\ vw_alpn cv = vw_alpn sv /\ vw_npn cv = vw_npn sv /\ vw_sni cv = vw_sni sv /\
  vw_send_limit cv = vw_recv_limit sv /\ vw_recv_limit cv = vw_send_limit sv /\
  vw_secret cv = vw_secret sv.

Lemma views_agree_core_all c s o : negotiate c s = Ok o -> views_agree_core (oc_client o) (oc_server o).
Proof.
  intros H. pose proof (negotiate_ok H) as R. pose proof (ru_offer R) as O.
  destruct (ru_stages R) as [L|T].
  - rewrite (lr_client_view L), (lr_server_view L). unfold views_agree_core, legacy_client_view, legacy_server_view, after_finish.
    cbn [vw_version vw_suite vw_etm vw_ems vw_alpn vw_npn vw_sni vw_send_limit vw_recv_limit vw_secret].
    (* split closes a field on which the two functions agree by computation; left: NPN, SNI, the client's receive limit *)
    repeat split.
    + destruct (fl_npn _) eqn:N; [reflexivity|exact (lc_no_npn (lr_client L) N)].
    + symmetry. exact (of_sni O).
    + (* the server echoes record_size_limit only if the client sent its own *)
      destruct (fl_rsl _) as [r|] eqn:E; [|reflexivity].
      destruct (ls_rsl (lr_server L) E) as [r' E']. rewrite E', (of_rsl O E'). reflexivity.
  - rewrite (tr_client_view T), (tr_server_view T). unfold views_agree_core, tls13_client_view, tls13_server_view, after_finish.
    cbn [vw_version vw_suite vw_etm vw_ems vw_alpn vw_npn vw_sni vw_send_limit vw_recv_limit vw_secret].
    rewrite (ts_rsl (tr_server T)). (* left: SNI and the two limits *) repeat split.
    + symmetry. exact (of_sni O).
    + destruct (ch_rsl _) as [r|] eqn:E; [|reflexivity]. destruct (st_rsl (sv_set s)) as [m|]; [|reflexivity].
      rewrite (of_rsl O E). unfold two14. lia.
    + destruct (ch_rsl _) as [r|] eqn:E; [|reflexivity]. destruct (st_rsl (sv_set s)) as [m|]; [|reflexivity].
      rewrite (of_rsl O E). reflexivity.
Qed.

(* the server forgets its own chain under DHE_DSS unless fix_dhe_dsa_chain is present *)
Lemma server_chain_agrees c s o : negotiate c s = Ok o -> fl_psk (oc_flight o) = None ->
  fix_dhe_dsa_chain = true \/ memZ (vw_suite (oc_server o)) dheDsaSuites = false ->
  vw_server_chain (oc_client o) = vw_server_chain (oc_server o).
Proof.
  intros H P D. pose proof (negotiate_ok H) as R. rewrite (ru_suite R) in D. destruct (ru_stages R) as [L|T].
  - rewrite (lr_client_view L), (lr_server_view L). cbn [after_finish legacy_client_view legacy_server_view vw_server_chain].
    rewrite (ls_cert (lr_server L)). unfold authed_suite.
    destruct D as [-> | ->]; [rewrite andb_true_l|rewrite andb_false_r, !orb_false_r];
      destruct (_ || _); reflexivity.
  - rewrite (tr_client_view T), (tr_server_view T). cbn [after_finish tls13_client_view tls13_server_view vw_server_chain].
    rewrite (ts_cert (tr_server T)), P. reflexivity.
Qed.

Lemma exporter_same p1 p2 p3 cv sv label len : vw_version cv = vw_version sv -> vw_secret cv = vw_secret sv ->
  exporter p1 p2 p3 cv label len = exporter p1 p2 p3 sv label len.
Proof. intros V S. unfold exporter. rewrite V, S. reflexivity. Qed.

Lemma version_within_client c s o : negotiate c s = Ok o ->
  let v := vw_version (oc_server o) in
  st_minV (cl_set c) <= v /\ (v <= st_maxV (cl_set c) \/ In v (st_versions (cl_set c))).
Proof. intros H. pose proof (negotiate_ok H) as R. cbn zeta. rewrite (ru_version R). exact (ru_client_version R). Qed.

Definition versions_clipped (st : Settings) : Prop :=
  st_minV st <= st_maxV st /\ forall x, In x (st_versions st) -> st_minV st <= x <= st_maxV st.

Lemma server_version_of_run c s o : negotiate c s = Ok o ->
  let v := vw_version (oc_server o) in
  In v (st_versions (sv_set s)) \/
  (st_minV (sv_set s) <= st_maxV (sv_set s) -> st_minV (sv_set s) <= v <= st_maxV (sv_set s)).
Proof.
  intros H. pose proof (negotiate_ok H) as R. cbn zeta. rewrite (ru_version R).
  apply (server_version_choice _ _ _ (ru_min R) (ru_pick R)). rewrite (of_ver (ru_offer R)). lia.
Qed.

Lemma version_within_server c s o : negotiate c s = Ok o -> versions_clipped (sv_set s) ->
  st_minV (sv_set s) <= vw_version (oc_server o) <= st_maxV (sv_set s).
Proof. intros H [W1 W2]. destruct (server_version_of_run c s o H) as [I|B]; [exact (W2 _ I)|exact (B W1)]. Qed.

Lemma suite_of_run c s o : negotiate c s = Ok o ->
  let v := vw_version (oc_server o) in let suite := vw_suite (oc_server o) in
  In suite (client_suites c) /\ suite_allowed (sv_set s) v suite = true /\ suite_in_version v v suite = true.
Proof.
  intros H. pose proof (negotiate_ok H) as R. cbn zeta. rewrite (ru_version R), (ru_suite R).
  destruct (in_server_suites _ _ _ _ (ru_server_suite R)) as [A V].
  split; [exact (offered_suite_is_clients _ _ _ (ru_offer R) (ru_offered R) V)|]. split; assumption.
Qed.

Lemma suite_within_both c s o : negotiate c s = Ok o ->
  let v := vw_version (oc_server o) in let suite := vw_suite (oc_server o) in
  suite_within (cl_set c) (st_maxV (cl_set c)) suite /\ suite_within (sv_set s) v suite /\
  suite_in_version v v suite = true.
Proof.
  intros H. destruct (suite_of_run c s o H) as (A & B & C).
  split; [|split; [|exact C]]; apply suite_allowed_within; [exact (in_get_suites _ _ _ _ A)|exact B].
Qed.

Lemma group_within_both c s o g : negotiate c s = Ok o -> fl_group (oc_flight o) = Some g ->
  In g (server_groups_policy (sv_set s)) /\ In g (client_groups_policy (cl_set c)).
Proof.
  intros H Hg. pose proof (negotiate_ok H) as R. pose proof (ru_offer R) as O.
  unfold server_groups_policy, client_groups_policy. destruct (ru_stages R) as [L|T].
  - destruct (ls_group (lr_server L) Hg) as [[K I]|[K C]].
    + split; apply in_or_app; right; apply in_or_app; left; [exact I|exact (lc_curve (lr_client L) K Hg)].
    + destruct (picked_within C (of_groups O)) as [J I].
      split; [apply in_or_app; right; apply in_or_app; right; exact I|exact (in_client_groups _ _ J)].
  - destruct (tr_group T Hg) as [C|C].
    + destruct (picked_within C (of_shares O)) as [J I]. split; [exact I|apply in_or_app; left; exact J].
    + destruct (picked_within C (of_groups O)) as [J I]. split; [exact I|exact (in_client_groups _ _ J)].
Qed.

Lemma sig_within_both c s o sg : negotiate c s = Ok o -> fl_sig (oc_flight o) = Some sg ->
  In sg (client_sigalgs (cl_set c)) /\
  In sg (sig_hashes_to_list (sv_set s) false (sv_cert s)
           (if vw_version (oc_server o) <=? 3 then 3 else vw_version (oc_server o))).
Proof.
  intros H Hs. pose proof (negotiate_ok H) as R. rewrite (ru_version R). destruct (ru_stages R) as [L|T].
  - rewrite (proj2 (Z.leb_le _ 3) (lr_version L)). exact (picked_within (ls_sig (lr_server L) Hs) (of_sigalgs (ru_offer R))).
  - rewrite (proj2 (Z.leb_gt _ 3) (tr_version T)). exact (picked_within (tr_sig T Hs) (of_sigalgs (ru_offer R))).
Qed.

Lemma alpn_within_both c s o p : negotiate c s = Ok o -> vw_alpn (oc_server o) = Some p ->
  exists a b, cl_alpn c = Some a /\ sv_alpn s = Some b /\ In p a /\ In p b.
Proof.
  intros H Hp. pose proof (negotiate_ok H) as R. rewrite (ru_alpn R) in Hp. unfold alpn_choice in Hp.
  destruct (ch_alpn _) as [a|] eqn:A; [|discriminate Hp]. destruct (sv_alpn s) as [b|]; [|discriminate Hp].
  exists a, b. split; [exact (of_alpn (ru_offer R) A)|]. split; [reflexivity|]. exact (first_matching_some _ _ _ Hp).
Qed.

(* the TLS <= 1.2 client tests the server's scheme against its settings at (3, 3) whatever version was
   negotiated, the TLS 1.3 client at TLS 1.3 *)
Lemma server_cert_checked c s o sc : negotiate c s = Ok o -> fl_cert (oc_flight o) = Some sc ->
  check_chain 1000 (cl_set c) (fl_version (oc_flight o)) sc = Ok tt /\
  forall sg, fl_sig (oc_flight o) = Some sg ->
    In sg (sig_hashes_to_list (cl_set c) false (Some sc) (if fl_version (oc_flight o) <=? 3 then 3 else 4)).
Proof.
  intros H Hc. pose proof (negotiate_ok H) as R. destruct (ru_stages R) as [L|T].
  - rewrite (proj2 (Z.leb_le _ 3) (lr_version L)).
    pose proof Hc as E. rewrite (ls_cert (lr_server L)) in E. destruct (authed_suite _) eqn:A; [|discriminate E].
    exact (lc_authed (lr_client L) A Hc).
  - rewrite (proj2 (Z.leb_gt _ 3) (tr_version T)). pose proof Hc as E. rewrite (ts_cert (tr_server T)) in E.
    destruct (fl_psk _) eqn:P; [discriminate E|]. exact (tc_authed (tr_client T) P Hc).
Qed.

Lemma server_key_size_within_client c s o sc : negotiate c s = Ok o ->
  fl_cert (oc_flight o) = Some sc -> sized_key sc ->
  st_min_key (cl_set c) <= ct_bits sc <= st_max_key (cl_set c).
Proof. intros H Hc. exact (check_chain_key_size _ _ _ _ (proj1 (server_cert_checked c s o sc H Hc))). Qed.

(* a TLS 1.3 server applies its key size policy to a client certificate only with fix_tls13_client_key *)
Lemma client_key_size_within_server c s o id : negotiate c s = Ok o ->
  vw_version (oc_server o) <= 3 \/ fix_tls13_client_key = true -> vw_client_chain (oc_server o) = Some id ->
  exists mc, oc_client_cert o = Some mc /\ ct_id mc = id /\
             (sized_key mc -> st_min_key (sv_set s) <= ct_bits mc <= st_max_key (sv_set s)).
Proof.
  intros H V Hc. pose proof (negotiate_ok H) as R. rewrite (ru_version R) in V. rewrite (ru_client_chain R) in Hc.
  destruct (oc_client_cert o) as [mc|]; [|discriminate Hc]. injection Hc as <-.
  exists mc. split; [reflexivity|]. split; [reflexivity|]. exact (check_chain_key_size _ _ _ _ (ru_checked R V eq_refl)).
Qed.
