(* The early-data window of recvRecord read backwards (for Props/C02.v), and the invariant of the KeyUpdate
   ratchet (for Props/C01.v, keyupdate_ratchet_in_step). *)
From Coq Require Import ZArith List Bool Lia.
From TV Require Import Base.Prelude Model.C01_RecordPipe Model.C02_RecordAccept.
Import ListNotations.
Open Scope Z_scope.

Section EarlyP.
Context {CS : Type}.
Variables (c : Cfg) (P : Prim CS).

(* recvRecord over a stream with the early-data window closed: the first record that does not verify ends it *)
Fixpoint recv_stream_strict (s : St CS) (ws : list Wire) : list (Z * list Z) * option rerr * St CS :=
  match ws with
  | [] => ([], None, s)
  | w :: rest => match unprotect c P s w with
                 | RErr e => ([], Some e, s)
                 | ROk (s1, x) => let '(xs, e, s2) := recv_stream_strict s1 rest in (x :: xs, e, s2)
                 end
  end.
End EarlyP.

Section Window.
Context {CS : Type}.
Variables (c : Cfg) (P : Prim CS) (maxe : Z).

Lemma unprotect_e_inv (r r' : ESt CS) w o : unprotect_e c P maxe r w = ROk (r', o) ->
  match o with
  | Some x => exists s1, unprotect c P (es_st r) w = ROk (s1, x) /\ r' = {| es_st := s1; es_ok := false; es_used := 0 |}
  | None => es_ok r = true /\ es_used r + zlen (snd w) < maxe /\
            r' = {| es_st := es_st r; es_ok := true; es_used := es_used r + zlen (snd w) |}
  end.
Proof.
  destruct w as [[hty hver] body]. unfold unprotect_e. cbn [snd].
  assert (Hskip : (if es_ok r && (es_used r + zlen body <? maxe)
      then ROk ({| es_st := es_st r; es_ok := true; es_used := es_used r + zlen body |}, None)
      else RErr EBadMac) = ROk (r', o) ->
      o = None /\ es_ok r = true /\ es_used r + zlen body < maxe /\
      r' = {| es_st := es_st r; es_ok := true; es_used := es_used r + zlen body |}).
  { destruct (es_ok r); [|discriminate]. destruct (Z.ltb_spec (es_used r + zlen body) maxe) as [Hlt|]; [|discriminate].
    intros E. injection E as <- <-. auto. }
  destruct (negb (c_has_enc c) && negb (c_has_mac c) && es_ok r && (hty =? 23)).
  - destruct ((zlen body >? c_recv_limit c + 2048) || (c_tls13 c && (zlen body >? c_recv_limit c + 256))); [discriminate|].
    intros H. apply Hskip in H. destruct H as [-> H]. exact H.
  - destruct (unprotect c P (es_st r) (hty, hver, body)) as [[s1 y]|e].
    + intros H. injection H as <- <-. eauto.
    + destruct e; try discriminate. intros H. apply Hskip in H. destruct H as [-> H]. exact H.
Qed.
End Window.

(* the KeyUpdate ratchet: stored secrets are those of the installed keys; a sender's write generation is
   the peer's read generation plus the KeyUpdates in flight *)
Definition ku_end_ok (e : KUEnd) : Prop := ku_own e = ku_wr e /\ ku_peer e = ku_rd e.
Definition ku_inv (s : KUSys) : Prop :=
  ku_end_ok (ku_a s) /\ ku_end_ok (ku_b s) /\
  ku_wr (ku_a s) = (ku_rd (ku_b s) + length (ku_ab s))%nat /\
  ku_wr (ku_b s) = (ku_rd (ku_a s) + length (ku_ba s))%nat.

Lemma ku_step_inv s o : ku_inv s -> ku_inv (ku_step s o).
Proof.
  intros [[A1 A2] [[B1 B2] [H1 H2]]]. unfold ku_inv, ku_end_ok in *.
  destruct o as [[|] req|[|]]; cbn [ku_step].
  - cbn. rewrite app_length. cbn. repeat split; lia.
  - cbn. rewrite app_length. cbn. repeat split; lia.
  - destruct (ku_ab s) as [|req rest] eqn:E; [cbn; rewrite E; repeat split; cbn in *; lia|].
    cbn [length] in H1. destruct req; cbn; rewrite ?app_length; cbn; repeat split; lia.
  - destruct (ku_ba s) as [|req rest] eqn:E; [cbn; rewrite E; repeat split; cbn in *; lia|].
    cbn [length] in H2. destruct req; cbn; rewrite ?app_length; cbn; repeat split; lia.
Qed.

Lemma ku_run_inv ops : forall s, ku_inv s -> ku_inv (fold_left ku_step ops s).
Proof. induction ops as [|o os IH]; intros s H; [exact H|]. cbn [fold_left]. apply IH, ku_step_inv, H. Qed.

Lemma ku_init_inv : ku_inv ku_init.
Proof. unfold ku_inv, ku_end_ok. cbn. repeat split; reflexivity. Qed.
