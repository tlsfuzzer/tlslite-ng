(* C16: what the operations of Model/C16_PostHs.v do, outcome by outcome.  [on_heartbeat], [srv_pha] and
   [rloop] each get a relation listing the possible outcomes (with the guard under which each occurs,
   where a proof needs it); [rloop] is described one record at a time ([rloop_cons]).  For properties of
   the whole state an operation is a sequence of steps ([upd]), a turn of the read loop being a step like
   any other: what every step keeps, every operation keeps ([act_steps]), hence every history
   ([exec_invariant]).  The invariants in C16_PostHs, C16_Honest and C16_Heartbeat are checked against
   these relations and do not unfold the operations. *)
From Coq Require Import ZArith List Bool Lia.
From TV Require Import Base.Prelude Base.PreludeFacts Model.C16_PostHs Spec.C16_Spec.
Import ListNotations.
Open Scope Z_scope.

Lemma hb_roundtrip ty p pad : hb_parse (hb_write ty p pad) = Some (ty, p, pad).
Proof.
  unfold hb_write, hb_parse. cbn [app].
  replace (zlen p / 256 * 256 + zlen p mod 256) with (zlen p) by (pose proof (Z.div_mod (zlen p) 256); lia).
  rewrite zlen_app. pose proof (zlen_nonneg pad).
  destruct (zlen p <=? zlen p + zlen pad) eqn:El; [|lia].
  unfold zlen. rewrite Nat2Z.id, firstn_app_exact, skipn_app_exact. reflexivity.
Qed.

Inductive hb_out (me : ep) (b : list Z) : ep -> list rec -> Prop :=
| hb_ignored : hb_out me b me []
| hb_answered p pad :
    hb_parse b = Some (1, p, pad) -> 16 <= zlen pad -> hb_recv (cf me) = true ->
    zlen (hb_write 2 p (padding 16)) <= recsize (cf me) ->
    hb_out me b me [emit me (MHB (hb_write 2 p (padding 16)))]
| hb_callback p pad : hb_parse b = Some (2, p, pad) -> hb_out me b (add_hb me p) [].

(* [bad_control] does not read [v13] at a heartbeat record: the parameter is there for [rloop_cons],
   and a caller without one passes either value *)
Lemma on_heartbeat_cases v13 me b :
  match on_heartbeat me b with
  | Some (me1, out) =>
      bad_control v13 me (MHB b) = None /\ hb_sup (cf me) = true /\ hb_out me b me1 out
  | None => bad_control v13 me (MHB b) = Some 10
  end.
Proof.
  unfold on_heartbeat. cbn [bad_control]. destruct (hb_sup (cf me)); cbn [negb]; [|reflexivity].
  destruct b as [|b0 b']; [reflexivity|].
  (* what a branch that returns has to show, [hb_sup] being known *)
  assert (Hok : forall me1 out, hb_out me (b0 :: b') me1 out ->
            @None Z = None /\ true = true /\ hb_out me (b0 :: b') me1 out)
    by (intros; repeat split; assumption).
  destruct (hb_parse (b0 :: b')) as [[[ty p] pad]|] eqn:Eb; [|apply Hok; constructor].
  destruct (ty =? 1) eqn:E1; cbn [andb].
  - apply Z.eqb_eq in E1. subst ty. destruct (hb_recv (cf me)) eqn:Er; cbn [negb]; [|reflexivity].
    destruct (zlen pad <? 16) eqn:Ep; [apply Hok; constructor|].
    destruct (recsize (cf me) <? zlen (hb_write 2 p (padding 16))) eqn:Es; apply Hok; [constructor|].
    apply (hb_answered me _ p pad); [exact Eb|lia|exact Er|lia].
  - destruct (ty =? 2) eqn:E2; cbn [andb]; [|apply Hok; constructor].
    apply Z.eqb_eq in E2. subst ty.
    destruct (hb_cb (cf me)); apply Hok; [apply (hb_callback me _ p pad); exact Eb|constructor].
Qed.

Definition quiet (m : msg) : Prop := valid_ku m = false /\ mdata m = [].

Definition pha_msg (m : msg) : Prop :=
  match m with MCert _ _ | MCV _ | MFin _ | MFinx _ => True | _ => False end.

Lemma pha_reply_msgs me ctx : Forall pha_msg (pha_reply me ctx).
Proof.
  unfold pha_reply. destruct (dev (cf me) =? 6); [|destruct (dev (cf me) =? 7)]; repeat constructor.
Qed.

Lemma pha_msg_quiet m : pha_msg m -> quiet m.
Proof. destruct m; intros []; split; reflexivity. Qed.

Lemma pha_reply_honest me ctx :
  dev (cf me) = 0 -> pha_reply me ctx = [MCert ctx (my_chain (cf me)); MCV true; MFin true].
Proof. intros E. unfold pha_reply. rewrite E. cbn [Z.eqb]. rewrite Z.eqb_refl. reflexivity. Qed.

(* the records that make the server record a chain *)
Definition pha_proof (me : ep) (ch : Z) (l : list rec) : Prop :=
  (ch <> 0 /\ exists t1 t2, l = [mkrec t1 (MCV true); mkrec t2 (MFin true)]) \/
  (ch = 0 /\ cert_required (cf me) = false /\ exists t, l = [mkrec t (MFin true)]).

(* outcomes of [srv_pha]; [cons] are the records consumed after the Certificate *)
Inductive pha_out (me0 me : ep) (whole rest : list rec) (ctx ch : Z) : resT -> Prop :=
| pha_block : pha_out me0 me whole rest ctx ch (me0, whole, [], 1)
| pha_die cons tl d :
    rest = cons ++ tl -> Forall (fun r => quiet (body r)) cons ->
    pha_out me0 me whole rest ctx ch (die me tl d)
| pha_badtag cons f tl :
    rest = cons ++ f :: tl -> Forall (fun r => quiet (body r)) cons -> tag f <> rgen (ks me) ->
    pha_out me0 me whole rest ctx ch (mark_badmac (fatal me 20), tl, [emit me (MAlert true 20)], 120)
| pha_accept cons tl :
    rest = cons ++ tl -> Forall (fun r => quiet (body r)) cons -> pha_proof me ch cons ->
    pha_out me0 me whole rest ctx ch (record_chain me ctx ch, tl, [], 0).
Arguments pha_die {me0 me whole rest ctx ch} cons tl d.
Arguments pha_badtag {me0 me whole rest ctx ch} cons f tl.
Arguments pha_accept {me0 me whole rest ctx ch} cons tl.

Lemma srv_pha_out me0 me whole rest ctx ch :
  pha_out me0 me whole rest ctx ch (srv_pha me0 me whole rest ctx ch).
Proof.
  unfold srv_pha. cbv zeta beta.
  (* the Finished step, after the quiet records [cons] *)
  assert (Hfin : forall cons l, rest = cons ++ l -> Forall (fun r => quiet (body r)) cons ->
     (forall t, pha_proof me ch (cons ++ [mkrec t (MFin true)])) ->
     pha_out me0 me whole rest ctx ch
       (match l with
        | [] => (me0, whole, [], 1)
        | f :: tl =>
            if negb (tag f =? rgen (ks me)) then (mark_badmac (fatal me 20), tl, [emit me (MAlert true 20)], 120) else
            match body f with
            | MFin ok => if ok then (record_chain me ctx ch, tl, [], 0) else die me tl 51
            | _ => die me l 10
            end
        end)).
  { intros cons [|[t m] tl] E Hq Hp; [apply pha_block|]. cbn [tag body].
    destruct (t =? rgen (ks me)) eqn:Et; cbn [negb];
      [|apply Z.eqb_neq in Et; apply (pha_badtag cons (mkrec t m) tl); assumption].
    assert (E' : rest = (cons ++ [mkrec t m]) ++ tl) by (rewrite <- app_assoc; exact E).
    destruct m; try (apply (pha_die cons); assumption). (* all but MFin *)
    assert (Hq' : Forall (fun r => quiet (body r)) (cons ++ [mkrec t (MFin ok)]))
      by (apply Forall_app; split; [exact Hq|repeat constructor]).
    destruct ok; [apply (pha_accept _ tl E' Hq'); apply Hp|apply (pha_die _ tl 51 E' Hq')]. }
  destruct (ch =? 0) eqn:Ech.
  - apply Z.eqb_eq in Ech. destruct (cert_required (cf me)) eqn:Ecr; [apply (pha_die []); constructor|].
    apply (Hfin []); [reflexivity|constructor|]. intros t. right. split; [exact Ech|]. split; [exact Ecr|]. exists t. reflexivity.
  - apply Z.eqb_neq in Ech. destruct rest as [|[t m] [|f tl]]; try apply pha_block. cbn [tag body].
    destruct (t =? rgen (ks me)) eqn:Et; cbn [negb];
      [|apply Z.eqb_neq in Et; apply (pha_badtag [] (mkrec t m) (f :: tl)); [reflexivity|constructor|exact Et]].
    destruct m; try (apply (pha_die []); constructor). (* all but MCV *)
    destruct ok; [|apply (pha_die [mkrec t (MCV false)] (f :: tl) 51); repeat constructor].
    apply (Hfin [mkrec t (MCV true)] (f :: tl)); [reflexivity|repeat constructor|]. intros t2. left. split; [exact Ech|]. exists t, t2. reflexivity.
Qed.

Lemma srv_pha_ok me0 me whole c f tl ctx ch :
  ch <> 0 -> tag c = rgen (ks me) -> body c = MCV true -> tag f = rgen (ks me) -> body f = MFin true ->
  srv_pha me0 me whole (c :: f :: tl) ctx ch = (record_chain me ctx ch, tl, [], 0).
Proof.
  intros Hch Tc Bc Tf Bf. unfold srv_pha. apply Z.eqb_neq in Hch.
  rewrite Hch, Tc, Tf, Z.eqb_refl, Bc, Bf. reflexivity.
Qed.

Definition prepend (k : list rec) (R : resT) : resT := let '(me2, inc2, em, c) := R in (me2, inc2, k ++ em, c).

(* a record of kind [m] is consumed, the endpoint becomes [me1], emits [k], and the loop goes on *)
Inductive go (v13 : bool) (me : ep) : msg -> ep -> list rec -> Prop :=
| go_empty : go v13 me (MData []) me []
| go_ku0 : go v13 me (MKU 0) (bump_r me false) []
| go_ku1 : v13 = true -> go v13 me (MKU 1) (bump_w (bump_r me true) true) [emit (bump_r me true) (MKU 0)]
| go_hb b me1 out : hb_sup (cf me) = true -> hb_out me b me1 out -> go v13 me (MHB b) me1 out.

(* the record [r] ends the call with result [R] *)
Inductive stop (v13 : bool) (me : ep) (r : rec) (inc' : list rec) : resT -> Prop :=
| stop_bad d : bad_control v13 me (body r) = Some d -> stop v13 me r inc' (die me inc' d)
| stop_data x d : body r = MData (x :: d) -> stop v13 me r inc' (set_rbuf me (x :: d), inc', [], 0)
| stop_nst : body r = MNST -> stop v13 me r inc' (add_ticket me, inc', [], 0)
| stop_req ctx wf :
    body r = MCertReq ctx wf ->
    stop v13 me r inc' (note_ctx me ctx, inc', map (emit (note_ctx me ctx)) (pha_reply (note_ctx me ctx) ctx), 0)
| stop_cert ctx ch :
    body r = MCert ctx ch -> ctx_mem ctx (pending (au me)) = true ->
    stop v13 me r inc' (srv_pha me (pop_ctx me ctx) (r :: inc') inc' ctx ch)
| stop_alert f d em c :
    body r = MAlert f d -> incl em [emit me (MAlert false 0)] -> stop v13 me r inc' (set_closed me, inc', em, c).

(* made for arguments over every kind of record, which destruct [go] and [stop]; for one fixed kind of
   record [cbn [rloop]] is the shorter way, [stop] holding its result as an index *)
Lemma rloop_cons v13 me r inc' : tag r = rgen (ks me) ->
  match bad_control v13 me (body r) with
  | Some d => rloop v13 me (r :: inc') = die me inc' d
  | None =>
      (exists me1 k, go v13 me (body r) me1 k /\ rloop v13 me (r :: inc') = prepend k (rloop v13 me1 inc')) \/
      stop v13 me r inc' (rloop v13 me (r :: inc'))
  end.
Proof.
  intros Ht. cbn [rloop]. rewrite Ht, Z.eqb_refl. cbn [negb].
  assert (Hnil : forall R, R = prepend [] R) by (intros [[[me2 inc2] em] c]; reflexivity).
  destruct (body r) eqn:Eb; try reflexivity.
  - (* MData *) destruct d as [|x d]; [left; exists me, []; split; [constructor|apply Hnil]|right; apply (stop_data _ _ _ _ x d Eb)].
  - (* MKU *) cbn [bad_control]. destruct v13; cbn [negb]; [|reflexivity].
    destruct (v <? 0) eqn:E0; [reflexivity|]. destruct (2 <=? v) eqn:E2; [reflexivity|]. left.
    assert (Hv : v = 0 \/ v = 1) by lia. destruct Hv as [-> | ->]; cbn [Z.eqb Pos.eqb].
    + exists (bump_r me false), []. split; [constructor|apply Hnil].
    + eexists _, [_]. split; [exact (go_ku1 true me eq_refl)|reflexivity].
  - pose proof (on_heartbeat_cases v13 me b) as Hb.
    destruct (on_heartbeat me b) as [[me1 out]|]; [|rewrite Hb; reflexivity]. destruct Hb as (-> & Hs & Ho).
    left. exists me1, out. split; [constructor; assumption|reflexivity].
  - cbn [bad_control]. destruct (v13 && is_cl (cf me)); [right; apply stop_nst, Eb|reflexivity].
  - (* MCertReq *) cbn [bad_control]. destruct (v13 && is_cl (cf me) && pha_key (cf me)); [|reflexivity].
    destruct wf; [right; apply (stop_req _ _ _ _ ctx true Eb)|reflexivity].
  - (* MCert *) cbn [bad_control].
    destruct (v13 && negb (is_cl (cf me)) && negb (match pending (au me) with [] => true | _ :: _ => false end));
      [|reflexivity].
    destruct (ctx =? 0); [reflexivity|].
    destruct (ctx_mem ctx (pending (au me))) eqn:Em; [right; apply stop_cert; assumption|reflexivity].
  - right. destruct fatal; [|destruct (desc =? 0)]; apply (stop_alert _ _ _ _ _ _ _ _ Eb);
      (apply incl_nil_l || apply incl_refl).
Qed.

Set Implicit Arguments.
Record go_kept (me me1 : ep) : Prop := {
  go_cf : cf me1 = cf me;
  go_io : io me1 = io me;
  go_au : au me1 = au me;
  go_hb_req : hb_req (ms me1) = hb_req (ms me) }.
Unset Implicit Arguments.

Lemma go_frame v13 me m me1 k : go v13 me m me1 k -> go_kept me me1.
Proof. intros [| | |b me1' out _ []]; split; reflexivity. Qed.
Arguments go_frame {v13 me m me1 k}.

Definition cfg_recsize (c : cfgT) (n : Z) : cfgT :=
  mkcfg (is_cl c) (hb_sup c) (hb_recv c) (hb_send c) (hb_cb c) (pha_key c) (pha_sup c) (cert_required c)
        (my_chain c) n (dev c).
Definition cfg_dev (c : cfgT) (d : Z) : cfgT :=
  mkcfg (is_cl c) (hb_sup c) (hb_recv c) (hb_send c) (hb_cb c) (pha_key c) (pha_sup c) (cert_required c)
        (my_chain c) (recsize c) d.

(* [upd s o me' em inc']: a step of operation [o] by the endpoint in position [ea]: the actor becomes
   [me'], the records [em] go out and its incoming channel becomes [inc'].  Every operation is one step,
   except a read from the channel: there each turn of the loop is a step ([u_tag], [u_go], [u_stop]),
   and when the loop ends with data, so is the read from the buffer that follows ([u_deliver]).  [u_stop]
   takes the result apart by projections, so that a walk can destruct [stop] as it stands.
   The constructors carry the guards the invariants need and no others ([u_write] does not ask that the
   actor is open, [u_hb] not that the request fits a record, [u_deliver] nothing), and likewise [hb_ignored]
   is admitted for every heartbeat record: [upd] is sound for [act] ([act_steps]), not its graph.  What an
   operation does in a given state is read off [act] itself. *)
Inductive upd (s : st) : op -> ep -> list rec -> list rec -> Prop :=
| u_write d :
    upd s (OWrite d) (add_sent (ea s) d)
        (map (fun f => emit (ea s) (MData f)) (fragments (recsize (cf (ea s))) d)) (ba s)
| u_deliver mx : upd s (ORead mx) (fst (deliver (ea s) mx)) [] (ba s)
(* the branch of [ORead] behind [first_wf].  Only [ORequestAuth] appends to [pending], and it appends
   [(c, true)]: no state reached from [init] takes it, under any history. *)
| u_decode mx :
    g13 s && negb (is_cl (cf (ea s))) && negb (first_wf (pending (au (ea s)))) = true ->
    upd s (ORead mx) (fatal (ea s) 50) [emit (ea s) (MAlert true 50)] (ba s)
| u_tag mx r inc' :
    ba s = r :: inc' -> tag r <> rgen (ks (ea s)) ->
    upd s (ORead mx) (mark_badmac (fatal (ea s) 20)) [emit (ea s) (MAlert true 20)] inc'
| u_go mx r inc' me1 k : ba s = r :: inc' -> go (g13 s) (ea s) (body r) me1 k -> upd s (ORead mx) me1 k inc'
| u_stop mx r inc' R :
    rbuf (io (ea s)) = [] -> ba s = r :: inc' -> stop (g13 s) (ea s) r inc' R ->
    upd s (ORead mx) (fst (fst (fst R))) (snd (fst R)) (snd (fst (fst R)))
| u_ku req :
    g13 s = true -> upd s (OKeyUpdate req) (bump_w (ea s) false) [emit (ea s) (MKU (if req then 1 else 0))] (ba s)
| u_auth ce :
    g13 s = true -> is_cl (cf (ea s)) = false -> pha_sup (cf (ea s)) = true ->
    upd s (ORequestAuth ce)
        (set_au (ea s) (mkau (pending (au (ea s)) ++ [(next_ctx (au (ea s)), true)]) (next_ctx (au (ea s)) + 1)
                             (chain (au (ea s))) (accepted (au (ea s))) (first_ctx (au (ea s)))))
        [emit (ea s) (MCertReq (next_ctx (au (ea s))) true)] (ba s)
| u_hb p pl :
    hb_sup (cf (ea s)) = true ->
    upd s (OHeartbeat p pl) (note_hb_req (ea s) p) [emit (ea s) (MHB (hb_write 1 p (padding pl)))] (ba s)
| u_tickets k :
    g13 s = true -> is_cl (cf (ea s)) = false ->
    upd s (OTickets k) (ea s) (repeat (emit (ea s) MNST) (Z.to_nat k)) (ba s)
| u_close : upd s OClose (set_closed (ea s)) [emit (ea s) (MAlert false 0)] (ba s)
| u_recsize n : 1 <= n -> upd s (OSetRecSize n) (set_cf (ea s) (cfg_recsize (cf (ea s)) n)) [] (ba s)
| u_dev d : upd s (OSetDev d) (set_cf (ea s) (cfg_dev (cf (ea s)) d)) [] (ba s)
| u_inject m : injectable m = true -> upd s (OInject m) (ea s) [emit (ea s) m] (ba s)
| u_replay :
    upd s OReplayPha (ea s)
        (map (emit (ea s)) [MCert (first_ctx (au (ea s))) (my_chain (cf (ea s))); MCV true; MFin true]) (ba s).

Lemma rloop_steps (P : st -> Prop) mx v13 peer :
  (forall s me' em inc', P s -> upd s (ORead mx) me' em inc' -> P (mkst me' (eb s) (ab s ++ em) inc' (g13 s))) ->
  forall inc me out, P (mkst me peer out inc v13) -> rbuf (io me) = [] ->
  let '(me', inc', em, _) := rloop v13 me inc in P (mkst me' peer (out ++ em) inc' v13).
Proof.
  intros Hupd. induction inc as [|r inc' IH]; intros me out H Hrb; [cbn [rloop]; rewrite app_nil_r; exact H|].
  set (s := mkst me peer out (r :: inc') v13) in H.
  pose proof (fun me' em inc2 => Hupd s me' em inc2 H) as Hs. cbn [ea eb ab ba g13 s] in Hs.
  destruct (Z.eq_dec (tag r) (rgen (ks me))) as [Ht|Ht].
  2:{ pose proof (Hs _ _ _ (u_tag s mx r inc' eq_refl Ht)) as K. cbn [rloop]. apply Z.eqb_neq in Ht. rewrite Ht. exact K. }
  assert (Hstop : forall R, stop v13 me r inc' R -> let '(me', inc2, em, _) := R in P (mkst me' peer (out ++ em) inc2 v13)).
  { intros R HR. pose proof (Hs _ _ _ (u_stop s mx r inc' R Hrb eq_refl HR)) as K. destruct R as [[[me' inc2] em] c]. exact K. }
  pose proof (rloop_cons v13 me r inc' Ht) as C. destruct (bad_control v13 me (body r)) as [d|] eqn:Ebad.
  - rewrite C. exact (Hstop _ (stop_bad _ _ _ _ _ Ebad)).
  - destruct C as [(me1 & k & Hg & ->)|HR]; [|exact (Hstop _ HR)].
    specialize (IH me1 _ (Hs _ _ _ (u_go s mx r inc' me1 k eq_refl Hg))).
    rewrite (go_io (go_frame Hg)) in IH. specialize (IH Hrb).
    destruct (rloop v13 me1 inc') as [[[me2 inc2] em] c]. cbn [prepend]. rewrite app_assoc. exact IH.
Qed.

(* an operation is refused (nothing changes) or is a step, or several: so what every step keeps, every
   operation keeps *)
Theorem act_steps o (P : st -> Prop) :
  (forall s me' em inc', P s -> upd s o me' em inc' -> P (mkst me' (eb s) (ab s ++ em) inc' (g13 s))) ->
  forall s, P s -> P (fst (act s o)).
Proof.
  intros Hupd s H0. pose proof (fun me' em inc' => Hupd s me' em inc' H0) as H1.
  assert (H1' : forall me', upd s o me' [] (ba s) -> P (mkst me' (eb s) (ab s) (ba s) (g13 s))).
  { intros me' U. apply H1 in U. rewrite app_nil_r in U. exact U. }
  unfold act. destruct o.
  - (* OWrite *) destruct (closed (io (ea s))); [exact H0|]. apply H1. constructor.
  - (* ORead *) destruct (closed (io (ea s))); [apply H1'; constructor|].
    destruct (g13 s && negb (is_cl (cf (ea s))) && negb (first_wf (pending (au (ea s))))) eqn:Ew;
      [apply H1; constructor; exact Ew|].
    destruct (rbuf (io (ea s))) eqn:Erb; [|apply H1'; constructor].
    (* the loop, then, if it ends with data, a read from the buffer *)
    pose proof (rloop_steps P mx (g13 s) (eb s) Hupd (ba s) (ea s) (ab s)) as L. destruct s as [me peer out inc v13].
    specialize (L H0 Erb). cbn [ea eb ab ba g13] in *. destruct (rloop v13 me inc) as [[[me1 inc1] em] c].
    destruct (c =? 0); [|exact L].
    pose proof (Hupd _ _ _ _ L (u_deliver _ mx)) as K. cbn [ea eb ab ba g13] in K. rewrite app_nil_r in K. exact K.
  - (* OKeyUpdate *) destruct (closed (io (ea s))); [exact H0|]. destruct (g13 s) eqn:Ev; [|exact H0].
    apply H1. constructor. exact Ev.
  - (* ORequestAuth *) destruct (closed (io (ea s))); [exact H0|]. destruct (g13 s) eqn:Ev; [|exact H0].
    destruct (is_cl (cf (ea s))) eqn:Ec; [exact H0|]. destruct (pha_sup (cf (ea s))) eqn:Ep; [|exact H0].
    apply H1. constructor; assumption.
  - (* OHeartbeat *) destruct (closed (io (ea s))); [exact H0|]. destruct (hb_sup (cf (ea s))) eqn:Eh; [|exact H0].
    destruct (negb (hb_send (cf (ea s)))); [exact H0|].
    destruct (recsize (cf (ea s)) <? zlen (hb_write 1 payload (padding padlen))); [exact H0|].
    apply H1. constructor. exact Eh.
  - (* OTickets *) destruct (closed (io (ea s))); [exact H0|]. destruct (g13 s) eqn:Ev; [|exact H0].
    destruct (is_cl (cf (ea s))) eqn:Ec; [exact H0|]. apply H1. constructor; assumption.
  - (* OClose *) destruct (closed (io (ea s))); [exact H0|]. apply H1. constructor.
  - destruct (n <? 1) eqn:En; [exact H0|]. apply H1'. apply (u_recsize s n). lia.
  - apply H1'. apply (u_dev s d).
  - (* OInject *) destruct (closed (io (ea s))); [exact H0|]. destruct (injectable m) eqn:Ei; [|exact H0].
    apply H1. constructor. exact Ei.
  - (* OReplayPha *) destruct (closed (io (ea s))); [exact H0|]. destruct (first_ctx (au (ea s)) =? 0); [exact H0|].
    apply H1. constructor.
Qed.

Lemma exec_cons s a o tl : exec s ((a, o) :: tl) = exec (fst (step s a o)) tl.
Proof. unfold exec. cbn [run]. destruct (step s a o) as [s1 r]. cbn [fst]. destruct (run s1 tl). reflexivity. Qed.

(* [I a s]: the invariant of a state whose position [ea] holds endpoint [a] (true = the client of
   [init]).  One that turns with [swap] and survives every operation [ok] for the endpoint that acts
   holds along every history of such operations.  (An invariant or an [ok] that does not tell the
   endpoints apart ignores [a].) *)
Section Invariant.
  Variables (I : bool -> st -> Prop) (ok : bool -> op -> Prop).
  Hypothesis Hswap : forall a s, I a s -> I (negb a) (swap s).
  Hypothesis Hact : forall a s o, I a s -> ok a o -> I a (fst (act s o)).

  Lemma step_invariant s a o : I true s -> ok a o -> I true (fst (step s a o)).
  Proof.
    intros H Ho. unfold step. destruct a; [apply Hact; assumption|].
    pose proof (Hact _ _ o (Hswap _ _ H) Ho) as H1. destruct (act (swap s) o) as [s' r]. exact (Hswap _ _ H1).
  Qed.

  Lemma exec_invariant : forall ops s, I true s -> Forall (fun p => ok (fst p) (snd p)) ops -> I true (exec s ops).
  Proof.
    induction ops as [|[a o] tl IH]; intros s H Hok; [exact H|]. inversion_clear Hok as [|? ? Ho Htl].
    rewrite exec_cons. apply IH; [|exact Htl]. apply step_invariant; assumption.
  Qed.
End Invariant.
