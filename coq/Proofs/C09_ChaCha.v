(* ChaCha20: the generated code (Gen/C09_ChaCha.v) equals RFC 8439 2.1-2.4 (Spec/C09_ChaCha.v). *)
From Coq Require Import ZArith List Bool Lia.
From TV Require Import Base.Prelude Base.PreludeFacts Base.C09_Lib Gen.C09_ChaCha Spec.C09_Poly1305 Spec.C09_ChaCha
  Proofs.C09_Lists Proofs.C09_Bits32.
Import ListNotations.
Open Scope Z_scope.

Definition st_ok (st : list Z) : Prop := length st = 16%nat /\ Forall u32 st.

(* The arithmetic of ChaCha.quarter_round as the generated text spells it, as a function of the four words.
   cha_quarter_round is folded over it (cha_quarter_round_fold) and never zeta-expanded: each of the twelve lets is
   used twice further down, so `cbv zeta` on the generated body doubles the term at every let and every later step
   walks the result. *)
Definition code_quarter (xa xb xc xd : Z) : Z * Z * Z * Z :=
  let xa := Z.land (xa + xb) 4294967295 in
  let xd := Z.lxor xd xa in
  let xd := Z.lor (Z.land (Z.shiftl xd 16) 4294967295) (Z.shiftr xd 16) in
  let xc := Z.land (xc + xd) 4294967295 in
  let xb := Z.lxor xb xc in
  let xb := Z.lor (Z.land (Z.shiftl xb 12) 4294967295) (Z.shiftr xb 20) in
  let xa := Z.land (xa + xb) 4294967295 in
  let xd := Z.lxor xd xa in
  let xd := Z.lor (Z.land (Z.shiftl xd 8) 4294967295) (Z.shiftr xd 24) in
  let xc := Z.land (xc + xd) 4294967295 in
  let xb := Z.lxor xb xc in
  let xb := Z.lor (Z.land (Z.shiftl xb 7) 4294967295) (Z.shiftr xb 25) in
  (xa, xb, xc, xd).

(* a and c only enter sums, which are masked; b and d are rotated, and the mask-and-shift rotates 32-bit words only *)
Lemma code_quarter_eq a b c d : u32 b -> u32 d -> code_quarter a b c d = quarter a b c d.
Proof.
  intros Hb Hd. unfold code_quarter, quarter. cbv zeta. rewrite !add32_land.
  rewrite (rot_mask_shift _ 16 16), (rot_mask_shift _ 12 20), (rot_mask_shift _ 8 24), (rot_mask_shift _ 7 25)
    by (lia || auto 6 with u32).
  reflexivity.
Qed.

(* every word that leaves the quarter round is a sum or a rotation *)
Lemma quarter_u32 a b c d : let '(a', b', c', d') := quarter a b c d in u32 a' /\ u32 b' /\ u32 c' /\ u32 d'.
Proof. unfold quarter. cbv beta iota zeta. split; [|split; [|split]]; auto with u32. Qed.

Lemma cha_quarter_round_fold st a b c d :
  cha_quarter_round st a b c d =
  (xa <- py_index st a ;; xb <- py_index st b ;; xc <- py_index st c ;; xd <- py_index st d ;;
   let '(xa, xb, xc, xd) := code_quarter xa xb xc xd in
   x <- py_store st a xa ;; x <- py_store x b xb ;; x <- py_store x c xc ;; x <- py_store x d xd ;; Ok x).
Proof. reflexivity. Qed.

Lemma cha_quarter_round_ok st a b c d : st_ok st ->
  0 <= a < 16 -> 0 <= b < 16 -> 0 <= c < 16 -> 0 <= d < 16 ->
  cha_quarter_round st a b c d = Ok (quarterround st (Z.to_nat a) (Z.to_nat b) (Z.to_nat c) (Z.to_nat d))
  /\ st_ok (quarterround st (Z.to_nat a) (Z.to_nat b) (Z.to_nat c) (Z.to_nat d)).
Proof.
  intros [Hlen Hu] Ha Hb Hc Hd.
  assert (Hz : zlen st = 16) by (unfold zlen; lia).
  rewrite cha_quarter_round_fold, !py_index_ok by lia. cbn [bind].
  rewrite code_quarter_eq by (apply Forall_nth_Z; (exact Hu || exact u32_0)).
  unfold quarterround. fold (nthZ st a) (nthZ st b) (nthZ st c) (nthZ st d).
  pose proof (quarter_u32 (nthZ st a) (nthZ st b) (nthZ st c) (nthZ st d)) as U.
  destruct (quarter (nthZ st a) (nthZ st b) (nthZ st c) (nthZ st d)) as [[[xa xb] xc] xd]. destruct U as (U1 & U2 & U3 & U4).
  do 4 (rewrite py_store_ok by (unfold zlen; rewrite ?set_nth_length; lia); cbn [bind]).
  split; [reflexivity|].
  split; [rewrite !set_nth_length; exact Hlen|].
  repeat apply set_nth_Forall; assumption.
Qed.

Lemma quarterround_length st x y z w : length (quarterround st x y z w) = length st.
Proof.
  unfold quarterround. destruct (quarter (nth x st 0) (nth y st 0) (nth z st 0) (nth w st 0)) as [[[a b] c] d].
  rewrite !set_nth_length. reflexivity.
Qed.

Definition box : list (Z*Z*Z*Z) := [(0, 4, 8, 12); (1, 5, 9, 13); (2, 6, 10, 14); (3, 7, 11, 15);
     (0, 5, 10, 15); (1, 6, 11, 12); (2, 7, 8, 13); (3, 4, 9, 14)].

(* double_round repeats the text of quarter_round inside its loop *)
Lemma cha_double_round_unfold x :
  cha_double_round x = (x <- foldM (fun x '(a, b, c, d) => cha_quarter_round x a b c d) box x ;; Ok x).
Proof. reflexivity. Qed.

Lemma box_range : Forall (fun '(a, b, c, d) => 0 <= a < 16 /\ 0 <= b < 16 /\ 0 <= c < 16 /\ 0 <= d < 16) box.
Proof. repeat constructor; lia. Qed.

Lemma box_fold st :
  fold_left (fun x '(a, b, c, d) => quarterround x (Z.to_nat a) (Z.to_nat b) (Z.to_nat c) (Z.to_nat d)) box st
  = inner_block st.
Proof.
  unfold box, inner_block.
  cbv beta iota zeta delta [fold_left Z.to_nat Pos.to_nat Pos.iter_op Nat.add].
  reflexivity.
Qed.

Lemma cha_double_round_ok st : st_ok st ->
  cha_double_round st = Ok (inner_block st) /\ st_ok (inner_block st).
Proof.
  intros H. rewrite cha_double_round_unfold, <- box_fold.
  destruct (foldM_inv st_ok
    (fun x '(a, b, c, d) => cha_quarter_round x a b c d)
    (fun x '(a, b, c, d) => quarterround x (Z.to_nat a) (Z.to_nat b) (Z.to_nat c) (Z.to_nat d)) box) with (a := st) as [E P].
  - intros s [[[a b] c] d] Hin Hs. apply (proj1 (Forall_forall _ _) box_range) in Hin.
    apply cha_quarter_round_ok; tauto.
  - exact H.
  - rewrite E. split; [reflexivity|exact P].
Qed.

Lemma inner_block_length st : length (inner_block st) = length st.
Proof. unfold inner_block. cbv zeta. rewrite !quarterround_length. reflexivity. Qed.

Lemma cha_chacha_block_ok kw counter nw :
  st_ok ([1634760805; 857760878; 2036477234; 1797285236] ++ kw ++ [counter] ++ nw) ->
  cha_chacha_block kw counter nw 20 =
  Ok (chacha20_block_of_state ([1634760805; 857760878; 2036477234; 1797285236] ++ kw ++ [counter] ++ nw)).
Proof.
  unfold cha_chacha_block, chacha20_block_of_state. rewrite <- !app_assoc.
  set (st := [1634760805; 857760878; 2036477234; 1797285236] ++ kw ++ [counter] ++ nw). intros Hst.
  change (20 / 2) with 10.
  destruct (foldM_inv st_ok (fun ws (_ : Z) => ws' <- cha_double_round ws ;; Ok ws')
             (fun ws _ => inner_block ws) (zrange 0 10)) with (a := st) as [E _].
  - intros s i _ Hs. destruct (cha_double_round_ok s Hs) as [E P]. rewrite E. split; [reflexivity|exact P].
  - exact Hst.
  - rewrite E. cbn [bind]. rewrite fold_left_const_iter. rewrite zrange_length.
    change (Z.to_nat (10 - 0)) with 10%nat.
    f_equal. apply map_ext. intros [x y]. apply add32_land.
Qed.

Lemma iter_inner_block_length n st : length (Nat.iter n inner_block st) = length st.
Proof. induction n as [|n IH]; [reflexivity|]. cbn [Nat.iter nat_rect]. rewrite inner_block_length. exact IH. Qed.

Lemma chacha20_block_of_state_ok st : length st = 16%nat -> st_ok (chacha20_block_of_state st).
Proof.
  intros L. unfold chacha20_block_of_state. split.
  - rewrite map_length, combine_length, iter_inner_block_length, Nat.min_id. exact L.
  - apply Forall_map, Forall_forall. intros p _. apply add32_u32.
Qed.

(* From here on the rounds are a black box.  Asked to convert flat_map (le_bytes 4) (chacha20_block_of_state st) with
   chacha20_block key counter nonce, Coq reduces the flat_map before it unfolds chacha20_block; that asks for the first word
   of the block, the rounds run on a symbolic state, and the step (or its Qed) does not return.  The same holds of `simpl`
   and of `cbn` without a list of names on any goal that holds chacha20_block of a symbolic state under a fixpoint (length,
   map, combine), in every file: so the setting is Global and holds wherever this file is required (without the word it
   would end with the file).  (`Arguments .. : simpl never` stops cbn there, not simpl.) *)
Global Opaque chacha20_block_of_state.

Lemma cha_bytearray_to_words_ok data : (zlen data) mod 4 = 0 ->
  cha_bytearray_to_words data = Ok (words_le data).
Proof.
  intros Hm. unfold cha_bytearray_to_words.
  pose proof (zlen_nonneg data) as Hl.
  pose proof (Z.div_mod (zlen data) 4 ltac:(lia)) as Hdm.
  rewrite (foldM_ok_ext _ (fun ret i => ret ++ [le_num (py_slice data (Some (i * 4)) (Some ((i + 1) * 4)))])).
  - cbn [bind]. rewrite fold_left_snoc_map. cbn [app]. unfold words_le.
    rewrite <- (chunks_slices 4 data (fun i => i * 4) (fun i => (i + 1) * 4) (zlen data / 4)) by lia.
    rewrite map_map. reflexivity.
  - intros a i Hi. apply in_zrange in Hi. unfold unpack_le32.
    assert (zlen (py_slice data (Some (i * 4)) (Some ((i + 1) * 4))) = 4) as ->; [|reflexivity].
    rewrite py_slice_nonneg by lia. unfold zlen in *. rewrite firstn_length, skipn_length. lia.
Qed.

Lemma words_le_length data n : zlen data = 4 * Z.of_nat n -> length (words_le data) = n.
Proof.
  intros Hl. unfold words_le. rewrite map_length. pose proof (chunks_length 4 data ltac:(lia)) as H.
  unfold zlen in H at 1. change (Z.of_nat 4) with 4 in H.
  replace ((zlen data + 4 - 1) / 4) with (Z.of_nat n) in H; [lia|].
  apply Z.div_unique with (r := 3); lia.
Qed.

Lemma words_le_u32 data : all_bytes data = true -> Forall u32 (words_le data).
Proof.
  intros Hb. unfold words_le.
  apply Forall_forall. intros w Hw. apply in_map_iff in Hw. destruct Hw as [c [<- Hc]].
  pose proof (le_num_bound c (chunks_all_bytes 4 data c ltac:(lia) Hb Hc)) as B.
  apply in_chunks in Hc; [|lia]. destruct Hc as [i ->].
  assert (zlen (firstn 4 (skipn (Z.to_nat (i * Z.of_nat 4)) data)) <= 4) as L.
  { unfold zlen. rewrite firstn_length. lia. }
  unfold u32. split; [lia|].
  eapply Z.lt_le_trans; [apply B|]. change 4294967296 with (256 ^ 4).
  apply Z.pow_le_mono_r; [lia|exact L].
Qed.

Lemma cha_init_ok key nonce counter rounds : zlen key = 32 -> zlen nonce = 12 ->
  cha_init key nonce counter rounds = Ok (mkChaCha (words_le key) (words_le nonce) counter rounds).
Proof.
  intros Hk Hn. unfold cha_init. rewrite Hk, Hn. cbn [Z.eqb Pos.eqb negb].
  rewrite !cha_bytearray_to_words_ok by (rewrite ?Hk, ?Hn; reflexivity).
  reflexivity.
Qed.

Lemma words_bytes_length ws : length (flat_map (le_bytes 4) ws) = (4 * length ws)%nat.
Proof.
  rewrite flat_map_concat_map.
  pose proof (zlen_concat_map (le_bytes 4) 4 ws (fun _ => eq_refl)) as H. unfold zlen in H. lia.
Qed.

Lemma words_all_bytes ws : all_bytes (flat_map (le_bytes 4) ws) = true.
Proof. rewrite flat_map_concat_map. apply all_bytes_concat_map, le_bytes_all_bytes. Qed.

Lemma forallb_is_u32 ws : Forall u32 ws -> forallb is_u32 ws = true.
Proof.
  intros H. apply forallb_forall. intros x Hx. rewrite Forall_forall in H. specialize (H x Hx).
  unfold is_u32, u32 in *. lia.
Qed.

Lemma cha_word_to_bytearray_ok ws : st_ok ws -> cha_word_to_bytearray ws = Ok (flat_map (le_bytes 4) ws).
Proof.
  intros [Hl Hu]. unfold cha_word_to_bytearray, pack_le32s.
  replace (zlen ws =? 16) with true by (symmetry; apply Z.eqb_eq; unfold zlen; lia).
  rewrite forallb_is_u32 by exact Hu. reflexivity.
Qed.

Section Block.
  Variables (key : list Z) (counter : Z) (nonce : list Z).
  Hypotheses (Hk : zlen key = 32) (Hn : zlen nonce = 12).

  Lemma chacha_init_state_length : length (chacha_init_state key counter nonce) = 16%nat.
  Proof.
    unfold chacha_init_state. rewrite !app_length, (words_le_length key 8), (words_le_length nonce 3) by lia. reflexivity.
  Qed.

  Lemma chacha_init_state_ok : all_bytes key = true -> all_bytes nonce = true -> u32 counter ->
    st_ok (chacha_init_state key counter nonce).
  Proof.
    intros Bk Bn Uc. split; [exact chacha_init_state_length|]. unfold chacha_init_state.
    repeat (constructor; [unfold u32; lia|]).
    apply Forall_app. split; [apply words_le_u32, Bk|]. constructor; [exact Uc|apply words_le_u32, Bn].
  Qed.

  (* whatever the state holds, the final addition makes 32-bit words of it *)
  Lemma chacha20_block_words_ok : st_ok (chacha20_block_words key counter nonce).
  Proof. apply chacha20_block_of_state_ok, chacha_init_state_length. Qed.

  Lemma chacha20_block_length : length (chacha20_block key counter nonce) = 64%nat.
  Proof.
    unfold chacha20_block. rewrite words_bytes_length. destruct chacha20_block_words_ok as [L _]. rewrite L. reflexivity.
  Qed.

  Lemma cha_block_bytes_ok : all_bytes key = true -> all_bytes nonce = true -> u32 counter ->
    (ws <- cha_chacha_block (words_le key) counter (words_le nonce) 20 ;; cha_word_to_bytearray ws)
    = Ok (chacha20_block key counter nonce).
  Proof.
    (* chacha_init_state key counter nonce is, by definition, the list that cha_chacha_block_ok is stated for, and
       chacha20_block_words key counter nonce the block of that list *)
    intros Bk Bn Uc. rewrite (cha_chacha_block_ok _ _ _ (chacha_init_state_ok Bk Bn Uc)), bind_of_Ok.
    apply cha_word_to_bytearray_ok, chacha20_block_words_ok.
  Qed.
End Block.

Lemma keystream_bytes key counter nonce q : all_bytes (chacha20_keystream key counter nonce q) = true.
Proof.
  unfold chacha20_keystream. rewrite flat_map_concat_map. apply all_bytes_concat_map. intros j. apply words_all_bytes.
Qed.

(* decrypt calls encrypt on a copy of the object *)
Lemma cha_decrypt_is_encrypt c m : cha_decrypt c m = cha_encrypt c m.
Proof. destruct c as [k n i r]. unfold cha_decrypt. cbn [cha_key cha_nonce cha_counter cha_rounds]. destruct (cha_encrypt _ m); reflexivity. Qed.

Section Stream.
  Variables (key : list Z) (counter : Z) (nonce pt : list Z).
  Hypotheses (Hk : zlen key = 32) (Hn : zlen nonce = 12).

  Lemma cha_encrypt_ok : all_bytes key = true -> all_bytes nonce = true ->
    0 <= counter -> counter + (zlen pt + 63) / 64 <= 4294967296 -> all_bytes pt = true ->
    cha_encrypt (mkChaCha (words_le key) (words_le nonce) counter 20) pt = Ok (chacha20_encrypt key counter nonce pt).
  Proof.
    intros Bk Bn Hc Hcq Bp. unfold cha_encrypt, chacha20_encrypt, chacha20_keystream.
    cbn [cha_key cha_nonce cha_counter cha_rounds].
    pose proof (zlen_nonneg pt) as Hl.
    assert (Hq : zlen (chunks 64 pt) = (zlen pt + 63) / 64).
    { rewrite chunks_length by lia. change (Z.of_nat 64) with 64. f_equal. lia. }
    rewrite py_range_step_up, Z.sub_0_r by lia. replace (zlen pt + 64 - 1) with (zlen pt + 63) by lia.
    remember ((zlen pt + 63) / 64) as q eqn:Eq.
    rewrite map_map.
    rewrite (chunks_slices 64 pt (fun x => 0 + 64 * x) (fun x => 0 + 64 * x + 64) q);
      [|lia|Z.div_mod_to_equations; lia|intros i _; lia].
    unfold py_enumerate. rewrite Hq.
    pose (h := fun x : Z * list Z => let '(i, block) := x in xor_bytes block (chacha20_block key (counter + i) nonce)).
    rewrite (foldM_ok_ext _ (fun acc x => acc ++ h x)).
    - rewrite bind_of_Ok. f_equal. rewrite (fold_left_app_concat h).
      rewrite app_nil_l. rewrite <- Hq.
      apply (enc_chunks 64 (fun j => chacha20_block key (counter + j) nonce) pt ltac:(lia)).
      intros j. apply chacha20_block_length; assumption.
    - intros acc [i block] Hin.
      assert (Hi : 0 <= i < q) by (apply in_combine_l in Hin; apply in_zrange in Hin; lia).
      assert (Hb : all_bytes block = true) by (apply in_combine_r in Hin; apply (chunks_all_bytes 64 pt); (lia || assumption)).
      pose proof (cha_block_bytes_ok key (counter + i) nonce Hk Hn Bk Bn ltac:(unfold u32; lia)) as E.
      destruct (cha_chacha_block (words_le key) (counter + i) (words_le nonce) 20) as [ws|e]; [|discriminate].
      rewrite bind_of_Ok in E |- *. rewrite E. rewrite bind_of_Ok, xor_code.
      rewrite mk_bytes_ok by (apply xor_bytes_all_bytes; [apply words_all_bytes|exact Hb]).
      rewrite xor_bytes_comm. reflexivity.
  Qed.

  Lemma keystream_covers :
    (length pt <= length (chacha20_keystream key counter nonce ((zlen pt + 63) / 64)))%nat.
  Proof.
    unfold chacha20_keystream. rewrite flat_map_concat_map.
    pose proof (zlen_concat_map (fun j => chacha20_block key (counter + j) nonce) 64 (zrange 0 ((zlen pt + 63) / 64))
                  (fun j => f_equal Z.of_nat (chacha20_block_length key (counter + j) nonce Hk Hn))) as H.
    unfold zlen in H |- *. rewrite zrange_length in H. Z.div_mod_to_equations. lia.
  Qed.

  Lemma chacha20_encrypt_length : length (chacha20_encrypt key counter nonce pt) = length pt.
  Proof. apply xor_bytes_length, keystream_covers. Qed.

  Lemma chacha20_decrypt_encrypt :
    chacha20_encrypt key counter nonce (chacha20_encrypt key counter nonce pt) = pt.
  Proof.
    unfold chacha20_encrypt at 1. unfold zlen at 1. rewrite chacha20_encrypt_length.
    apply xor_bytes_involutive, keystream_covers.
  Qed.
End Stream.

(* no proof of the development uses the three facts below *)
Lemma le_bytes_4_length v : length (le_bytes 4 v) = 4%nat.
Proof. reflexivity. Qed.

Lemma xor_bytes_nil_l b : xor_bytes [] b = [].
Proof. reflexivity. Qed.

Lemma combine_firstn_r {A B} (a : list A) (b c : list B) : (length a <= length b)%nat ->
  combine a (b ++ c) = combine a b.
Proof.
  revert b. induction a as [|x a IH]; intros b H; [reflexivity|].
  destruct b as [|y b]; [cbn [length] in H; lia|]. cbn [app combine]. rewrite IH by (cbn [length] in H; lia). reflexivity.
Qed.
