(* C10: Python slices and indices of concatenations at the seams; xor and bit masks of byte strings;
   runs of zero bytes. *)
From Coq Require Import ZArith List Bool Lia.
From TV Require Import Base.Prelude Base.PreludeFacts Base.Bytes Model.C10_RsaSig.
Import ListNotations.
Open Scope Z_scope.

(* The bounds are variables with their values as premises, so that the lemmas apply whatever form the
   bounds have in the goal. *)

Lemma py_slice_app_first {A} (a b : list A) n : n = zlen a -> py_slice (a ++ b) (Some 0) (Some n) = a.
Proof. exact (py_slice_app_mid [] a b 0 n eq_refl). Qed.

Lemma py_slice_app_head {A} (a b : list A) n : n = zlen a -> py_slice (a ++ b) None (Some n) = a.
Proof. intros ->. rewrite py_slice_to by apply zlen_nonneg. apply firstn_zlen_app. Qed.

Lemma py_slice_app_tail {A} (a b : list A) n : n = zlen a -> py_slice (a ++ b) (Some n) None = b.
Proof. intros ->. rewrite py_slice_from by apply zlen_nonneg. apply skipn_zlen_app. Qed.

Lemma py_index_head (x : Z) l : py_index (x :: l) 0 = Ok x.
Proof. apply (py_index_mid [] x l). reflexivity. Qed.

Lemma byte_land_255 x : 0 <= x < 256 -> Z.land x 255 = x.
Proof. intros H. rewrite land_255. apply Z.mod_small. exact H. Qed.

Lemma mask_xor_mask a m k : Z.land (Z.lxor (Z.land (Z.lxor a m) k) m) k = Z.land a k.
Proof.
  apply Z.bits_inj'. intros i Hi.
  rewrite !Z.land_spec, !Z.lxor_spec, !Z.land_spec, !Z.lxor_spec.
  destruct (Z.testbit a i), (Z.testbit m i), (Z.testbit k i); reflexivity.
Qed.

Lemma land_mask_topmask x k : Z.land (Z.land x k) (Z.land (Z.lnot k) 255) = 0.
Proof.
  apply Z.bits_inj'. intros i Hi.
  rewrite !Z.land_spec, Z.lnot_spec by lia. rewrite Z.bits_0.
  destruct (Z.testbit x i), (Z.testbit k i), (Z.testbit 255 i); reflexivity.
Qed.

Lemma zeros_zlen k : 0 <= k -> zlen (zeros k) = k.
Proof. intros H. unfold zeros. rewrite zlen_repeat. lia. Qed.
Lemma zeros_bytes k : all_bytes (zeros k) = true.
Proof. apply all_bytes_repeat. reflexivity. Qed.
Lemma zeros_all_zero k x : In x (zeros k) -> x = 0.
Proof. unfold zeros. intros H. apply repeat_spec in H. exact H. Qed.

Lemma b2n_zeros_app j l : bytesToNumber (zeros j ++ l) = bytesToNumber l.
Proof. exact (num_zeros _ l). Qed.
