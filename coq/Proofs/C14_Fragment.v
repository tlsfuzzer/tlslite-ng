(* The fragmentation loop of _sendMsg, for EVERY record size and message: the fragments concatenate to
   the message; for k >= 1 each has between 1 and k bytes (a single empty record only for an empty
   message).  Proofs/C01_Fragment.v and Proofs/C16_PostHs.v read their own models of the loop off these. *)
From Coq Require Import ZArith List Lia.
From TV Require Import Base.Prelude Base.PreludeFacts Model.C14_Fragment.
Import ListNotations.
Open Scope Z_scope.

(* whatever the record size, and even if the fuel runs out: what is left goes into the last record *)
Lemma fragment_fuel_concat k : forall fuel buf, concat (fragment_fuel fuel k buf) = buf.
Proof.
  induction fuel as [|fuel IH]; intros buf; cbn [fragment_fuel]; [apply app_nil_r|].
  destruct (k <? zlen buf); [cbn [concat]; rewrite IH; apply firstn_skipn|apply app_nil_r].
Qed.

Lemma fragment_fuel_sizes k (Hk : 1 <= k) : forall fuel buf,
  Forall (fun r => ((length buf <= fuel)%nat -> zlen r <= k) /\ (buf <> [] -> 1 <= zlen r))
         (fragment_fuel fuel k buf).
Proof.
  (* the last record: what is left when the loop ends, by the test or by the fuel *)
  assert (Hlast : forall (fuel : nat) (buf : list Z), ((length buf <= fuel)%nat -> zlen buf <= k) ->
            Forall (fun r => ((length buf <= fuel)%nat -> zlen r <= k) /\ (buf <> [] -> 1 <= zlen r)) [buf]).
  { intros fuel buf Hfit. repeat constructor; [exact Hfit|]. destruct buf; [contradiction|].
    rewrite zlen_cons. pose proof (zlen_nonneg buf). lia. }
  induction fuel as [|fuel IH]; intros buf; cbn [fragment_fuel]; [apply Hlast; unfold zlen; lia|].
  destruct (k <? zlen buf) eqn:E; [|apply Hlast; lia].
  pose proof (firstn_zlen buf k ltac:(lia)) as Hf. pose proof (skipn_zlen buf k ltac:(lia)) as Hs.
  constructor; [lia|].
  eapply Forall_impl; [|apply IH]. intros r [Hle Hpos]. split.
  - intros Hfuel. apply Hle. unfold zlen in Hs. lia.
  - intros _. apply Hpos. intros H. rewrite H, zlen_nil in Hs. lia.
Qed.
