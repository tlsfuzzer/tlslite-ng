(* C19 -- heap algebra, the steps of validate() that write as allocations of a new cell, and the frame condition *)
From Coq Require Import ZArith List Bool String Lia.
From TV Require Import Base.Prelude Base.ListUpd Model.C19_Settings Spec.C19_Domain.
Import ListNotations.
Open Scope Z_scope.

Lemma guard_ok b : guard b = Ok tt <-> b = false.
Proof. unfold guard. destruct b; split; intros H; congruence. Qed.

Lemma guard_err b e : guard b = Err e -> e = ValueError /\ b = true.
Proof. unfold guard. destruct b; intros H; [injection H as <-; auto|discriminate]. Qed.

(* lupd is the list update upd of Base/ListUpd.v (the same Fixpoint), whose lemmas apply to it as they stand;
   restated here is what is rewritten with from left to right and leaves the function's name in the goal *)
Lemma lupd_is_upd {A} : @lupd A = upd.
Proof. reflexivity. Qed.

Lemma map_lupd {A B} (g : A -> B) (l : list A) k x : map g (lupd l k x) = lupd (map g l) k (g x).
Proof. exact (map_upd g l k x). Qed.

Lemma lupd_same {A} (l : list A) k d : lupd l k (nth k l d) = l.
Proof. exact (upd_self l k d). Qed.

Lemma filter_filter {A} (p q : A -> bool) l : filter q (filter p l) = filter (fun x => p x && q x) l.
Proof.
  induction l as [|x t IH]; cbn [filter]; auto.
  destruct (p x); cbn [andb filter]; [destruct (q x); rewrite IH; reflexivity|exact IH].
Qed.

Lemma filter_true {A} (l : list A) : filter (fun _ => true) l = l.
Proof. induction l as [|x t IH]; cbn [filter]; congruence. Qed.

Lemma forallb_filter_id {A} (p : A -> bool) l : forallb p l = true -> filter p l = l.
Proof.
  induction l as [|x t IH]; cbn [forallb filter]; auto. intros H. apply andb_true_iff in H.
  destruct H as [H1 H2]. rewrite H1. f_equal. apply IH. exact H2.
Qed.

Lemma hget_app_old (h x : heap) l : (l < List.length h)%nat -> hget (h ++ x) l = hget h l.
Proof. intros H. unfold hget. apply app_nth1. exact H. Qed.

Lemma hget_app_new (h : heap) v : hget (h ++ [v]) (List.length h) = v.
Proof. unfold hget. rewrite app_nth2 by lia. rewrite Nat.sub_diag. reflexivity. Qed.

Lemma hset_length h l v : List.length (hset h l v) = List.length h.
Proof. apply upd_length. Qed.

Lemma hget_hset_eq h l v : (l < List.length h)%nat -> hget (hset h l v) l = v.
Proof. apply nth_upd_same. Qed.

Lemma hget_hset_neq h l l' v : l' <> l -> hget (hset h l v) l' = hget h l'.
Proof. intros H. apply nth_upd_other. exact H. Qed.

Lemma hget_out h l : (List.length h <= l)%nat -> hget h l = [].
Proof. intros H. unfold hget. apply nth_overflow. exact H. Qed.

Lemma L_set_loc_neq o f f' p : f' <> f -> L (set_loc o f p) f' = L o f'.
Proof. intros H. unfold L, set_loc. cbn [locs]. apply nth_upd_other. exact H. Qed.

Lemma sc_set_loc o f p : sc (set_loc o f p) = sc o.
Proof. reflexivity. Qed.

Definition frame_except (p : loc) (h h' : heap) : Prop :=
  (List.length h <= List.length h')%nat /\
  forall l, (l < List.length h)%nat -> l <> p -> hget h' l = hget h l.
Definition frame_all (h h' : heap) : Prop :=
  (List.length h <= List.length h')%nat /\ forall l, (l < List.length h)%nat -> hget h' l = hget h l.

Lemma frame_all_refl h : frame_all h h.
Proof. split; auto. Qed.

Lemma frame_all_except p h h' : frame_all h h' -> frame_except p h h'.
Proof. intros [A B]. split; auto. Qed.

Lemma frame_except_trans p h1 h2 h3 : frame_except p h1 h2 -> frame_except p h2 h3 -> frame_except p h1 h3.
Proof.
  intros [A1 B1] [A2 B2]. split; [lia|]. intros l Hl Hp. rewrite B2 by (auto; lia). apply B1; auto.
Qed.

Lemma frame_all_trans h1 h2 h3 : frame_all h1 h2 -> frame_all h2 h3 -> frame_all h1 h3.
Proof.
  intros [A1 B1] [A2 B2]. split; [lia|]. intros l Hl. rewrite B2 by lia. apply B1; auto.
Qed.

Lemma frame_alloc h v : frame_all h (h ++ [v]).
Proof. split; [rewrite app_length; lia|]. intros l Hl. apply hget_app_old. exact Hl. Qed.

Lemma frame_remove p h needle : frame_except p h (remove_all_matches h p needle).
Proof.
  unfold remove_all_matches. split; [rewrite hset_length; lia|]. intros l Hl Hp. apply hget_hset_neq. exact Hp.
Qed.

Lemma frame_remove_new h h' needle : frame_all h h' -> frame_all h (remove_all_matches h' (List.length h) needle).
Proof.
  intros [A B]. unfold remove_all_matches. split; [rewrite hset_length; exact A|].
  intros l Hl. rewrite hget_hset_neq by lia. apply B. exact Hl.
Qed.

(* Every write of validate() is an allocation: attribute f of o is bound to a new cell holding y.  The steps
   that copy a list and then filter the copy in place (`x = x[:]`, then _remove_all_matches) are, as functions
   of the heap, allocations of the filtered list: no step of validate() changes a cell. *)
Definition alloc (h : heap) (o : settings) (f : nat) (y : list val) : heap * settings :=
  ((h ++ [y])%list, set_loc o f (List.length h)).

(* `if b: _remove_all_matches(x, needle)` on the cell just allocated.  The predicate keeps v unless b holds
   and v is the needle: written with b inside, so that one conditional removal after another is the filter by
   the conjunction (filter_filter), with no case split on the flags. *)
Lemma remove_new (b : bool) h x needle :
  (if b then remove_all_matches (h ++ [x]) (List.length h) needle else (h ++ [x])%list)
  = (h ++ [filter (fun v => negb (py_eq v (VStr needle) && b)) x])%list.
Proof.
  destruct b.
  - unfold remove_all_matches, hset. rewrite hget_app_new, (upd_app h x []). do 2 f_equal.
    apply filter_ext. intros a. rewrite andb_true_r. reflexivity.
  - do 2 f_equal. symmetry. erewrite filter_ext; [apply filter_true|]. intros a. rewrite andb_false_r. reflexivity.
Qed.

Lemma step_versions_eq h o :
  step_versions h o =
  match filter_range (clip_lo (minVersion (sc o))) (maxVersion (sc o)) (G h o F_versions) with
  | Ok y => Ok (alloc h o F_versions y)
  | Err e => Err e
  end.
Proof. reflexivity. Qed.

Lemma step_macnames_eq self h o :
  step_macnames self h o =
  if ver_lt (maxVersion (sc o)) (3, 3) then alloc h o F_macNames (filter keep_old_mac (G h self F_macNames)) else (h, o).
Proof. reflexivity. Qed.

(* _sanity_check_implementations: the conjunction of the two predicates of remove_new, "openssl" first, is the
   body of impl_available I *)
Lemma step_impl_eq I h o :
  step_impl I h o = alloc h o F_cipherImplementations (filter (impl_available I) (G h o F_cipherImplementations)).
Proof.
  unfold step_impl, halloc, alloc.
  rewrite (remove_new (negb (i_m2crypto I))), (remove_new (negb (i_pycrypto I))), filter_filter. reflexivity.
Qed.

Lemma step_ciphers_eq I h o :
  step_ciphers I h o =
  if i_tdes I then (h, o) else alloc h o F_cipherNames (filter (fun v => negb (py_eq v (VStr "3des"))) (G h o F_cipherNames)).
Proof.
  unfold step_ciphers, halloc, alloc. destruct (i_tdes I); [reflexivity|]. cbn [negb].
  rewrite (remove_new true). do 3 f_equal. apply filter_ext. intros a. rewrite andb_true_r. reflexivity.
Qed.

Lemma step_macnames_frame self h o : frame_all h (fst (step_macnames self h o)).
Proof. rewrite step_macnames_eq. destruct (ver_lt _ _); [apply frame_alloc|apply frame_all_refl]. Qed.

Lemma step_impl_frame I h o : frame_all h (fst (step_impl I h o)).
Proof. rewrite step_impl_eq. apply frame_alloc. Qed.

Lemma step_ciphers_frame I h o : frame_all h (fst (step_ciphers I h o)).
Proof. rewrite step_ciphers_eq. destruct (i_tdes I); [apply frame_all_refl|apply frame_alloc]. Qed.

(* each exit of validate() returns the heap of the last step taken, and every step only allocates *)
Lemma validate_frame T I h s : frame_all h (fst (validate T I h s)).
Proof.
  unfold validate.
  destruct (checks_A T h s); [|apply frame_all_refl].
  rewrite step_versions_eq.
  destruct (filter_range _ _ (G h s F_versions)) as [y|]; [|apply frame_all_refl].
  pose proof (frame_alloc h y) as F1. unfold alloc at 1.
  destruct (sanityCheckExtensions T _ _); [|exact F1].
  pose proof (step_macnames_frame s (h ++ [y]) (set_loc s F_versions (List.length h))) as F2.
  destruct (step_macnames s _ _) as [h2 o2]. cbn [fst] in F2.
  assert (F2' : frame_all h h2) by (eapply frame_all_trans; eassumption).
  destruct (checks_C T h2 o2); [|exact F2'].
  pose proof (step_impl_frame I h2 o2) as F4.
  destruct (step_impl I h2 o2) as [h4 o4]. cbn [fst] in F4.
  assert (F4' : frame_all h h4) by (eapply frame_all_trans; eassumption).
  destruct (isnil (G h4 o4 F_cipherImplementations)); [exact F4'|].
  pose proof (step_ciphers_frame I h4 o4) as F5.
  destruct (step_ciphers I h4 o4) as [h5 o5].
  cbn [fst] in F5.
  destruct (isnil (G h5 o5 F_cipherNames)); eapply frame_all_trans; eassumption.
Qed.
