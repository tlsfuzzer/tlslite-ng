(* Poly1305: the generated code (Gen/C09_Poly1305.v) equals RFC 8439 2.5 (Spec/C09_Poly1305.v) for messages of any
   length.  poly_num_to_16_le_bytes_ok, poly_create_tag_ok and poly_init_ok unfold the generated text and recognise each
   of its loops in one of two spellings (idiom A: poly1305.py as it stands; idiom B: the same loops written with
   `reversed`, `range(0, len, 16)`, `(num >> 8*i) & 0xff`, the rewrite kept in harmless/C09-h1), so a rewrite of
   poly1305.py from one into the other leaves every proof standing; a third spelling does not. *)
From Coq Require Import ZArith List Lia.
From TV Require Import Base.Prelude Base.PreludeFacts Base.C09_Lib Gen.C09_Poly1305 Spec.C09_Poly1305 Proofs.C09_Lists.
Import ListNotations.
Open Scope Z_scope.

(* le_bytes_to_num, idiom B: for byte in reversed(data): ret = (ret << 8) + byte *)
Lemma le_loop_rev data :
  fold_left (fun ret byte => Z.add (Z.shiftl ret 8) byte) (rev data) 0 = le_num data.
Proof.
  rewrite fold_left_rev. induction data as [|x d IH]; [reflexivity|].
  cbn [fold_right le_num]. rewrite IH. rewrite Z.shiftl_mul_pow2 by lia. change (2 ^ 8) with 256. lia.
Qed.

(* idiom A: for i in range(len(data)-1, -1, -1): ret <<= 8; ret += data[i] *)
Lemma le_loop_index data :
  foldM (fun ret i => t2_ <- py_index data i ;; Ok (Z.add (Z.shiftl ret 8) t2_))
        (py_range (Z.sub (zlen data) 1) (-1) (-1)) 0 = Ok (le_num data).
Proof.
  rewrite py_range_down by apply zlen_nonneg.
  rewrite (foldM_ok_ext _ (fun ret i => Z.shiftl ret 8 + nthZ data i)).
  - f_equal. rewrite <- (fold_left_map (fun ret byte => Z.shiftl ret 8 + byte) (nthZ data)), map_rev, map_nthZ_zrange.
    apply le_loop_rev.
  - intros a i Hi. apply in_rev in Hi. apply in_zrange in Hi.
    rewrite py_index_ok by lia. reflexivity.
Qed.

Lemma shiftr_8 v : Z.shiftr v 8 = v / 256.
Proof. apply Z.shiftr_div_pow2. lia. Qed.

(* marks is the list enumerated (only its length matters), buf the list written to; in the induction pre is the part of
   buf already written *)
Lemma num_to_le_loop (marks buf : list Z) num : length buf = length marks ->
  foldM (fun '(ret, num) '(i, _) =>
           ret <- py_store ret i (Z.land num 255) ;;
           let num := Z.shiftr num 8 in Ok (ret, num))
        (combine (zrange 0 (zlen marks)) marks) (buf, num)
  = Ok (le_bytes (length marks) num, num / 256 ^ zlen marks).
Proof.
  enough (G : forall pre (suf' : list Z) num, length suf' = length marks ->
    foldM (fun '(ret, num) '(i, _) =>
             ret <- py_store ret i (Z.land num 255) ;;
             let num := Z.shiftr num 8 in Ok (ret, num))
          (combine (zrange (zlen pre) (zlen pre + zlen marks)) marks) (pre ++ suf', num)
    = Ok (pre ++ le_bytes (length marks) num, num / 256 ^ zlen marks))
    by exact (G [] buf num).
  clear buf num. induction marks as [|y suf IH]; intros pre suf' num Hl.
  - destruct suf'; [|discriminate]. rewrite zrange_focus_nil. cbn [combine foldM le_bytes length].
    change (256 ^ zlen []) with 1. rewrite Z.div_1_r. reflexivity.
  - destruct suf' as [|x suf']; [discriminate|]. injection Hl as Hl.
    rewrite (zrange_focus pre (Z.land num 255)). cbn [combine foldM].
    rewrite py_store_app. cbn [bind]. rewrite (snoc_app pre _ suf'), IH by exact Hl. rewrite <- snoc_app.
    cbn [length le_bytes]. rewrite land_255, shiftr_8, zlen_cons.
    rewrite Z.pow_add_r, Z.div_div by (try apply Z.pow_pos_nonneg; pose proof (zlen_nonneg suf); lia).
    reflexivity.
Qed.

(* idiom B writes byte i as (num >> (8 * i)) & 0xff *)
Lemma le_bytes_shift_map n : forall v,
  le_bytes n v = map (fun i => Z.land (Z.shiftr v (Z.mul 8 i)) 255) (zrange 0 (Z.of_nat n)).
Proof.
  induction n as [|n IH]; intros v; [reflexivity|].
  rewrite Nat2Z.inj_succ. rewrite zrange_cons by lia. cbn [le_bytes map]. f_equal.
  - rewrite Z.mul_0_r, Z.shiftr_0_r. symmetry. apply land_255.
  - rewrite IH, zrange_shift, Z.sub_1_r, Z.pred_succ, map_map. apply map_ext_in. intros i Hi. apply in_zrange in Hi. f_equal.
    rewrite <- shiftr_8, Z.shiftr_shiftr by lia. f_equal. lia.
Qed.

(* for i in range(len(buf)): buf[i] = f(i); in the induction pre is the part of buf already written *)
Lemma store_b_loop (f : Z -> Z) (buf : list Z) : (forall i, is_byte (f i) = true) ->
  foldM (fun ret i => ret <- py_store_b ret i (f i) ;; Ok ret) (zrange 0 (zlen buf)) buf
  = Ok (map f (zrange 0 (zlen buf))).
Proof.
  intros Hf.
  enough (G : forall (suf pre : list Z),
    foldM (fun ret i => ret <- py_store_b ret i (f i) ;; Ok ret)
          (zrange (zlen pre) (zlen pre + zlen suf)) (pre ++ suf)
    = Ok (pre ++ map f (zrange (zlen pre) (zlen pre + zlen suf))))
    by exact (G buf []).
  induction suf as [|y suf IH]; intros pre.
  - rewrite zrange_focus_nil. reflexivity.
  - rewrite (zrange_focus pre (f (zlen pre))). cbn [foldM map].
    rewrite py_store_b_app, !bind_of_Ok, (snoc_app pre _ suf), IH, <- snoc_app by apply Hf. reflexivity.
Qed.

(* idiom A: ret = [0]*16; for i, _ in enumerate(ret): ret[i] = num & 0xff; num >>= 8; bytearray(ret)
   idiom B: ret = bytearray(16); for i in range(16): ret[i] = (num >> (8 * i)) & 0xff *)
Lemma poly_num_to_16_le_bytes_ok num : poly_num_to_16_le_bytes num = Ok (le_bytes 16 num).
Proof.
  unfold poly_num_to_16_le_bytes. cbv zeta.
  first
  [ unfold py_enumerate; rewrite num_to_le_loop by reflexivity;
    cbn [bind]; rewrite mk_bytes_ok by apply le_bytes_all_bytes; reflexivity
  | rewrite py_zeros_ok by lia; cbn [bind]; change (Z.to_nat 16) with 16%nat;
    change (zrange 0 16) with (zrange 0 (zlen (repeat 0 16)));
    rewrite (store_b_loop (fun i => Z.land (Z.shiftr num (Z.mul 8 i)) 255))
      by (intros i; cbv beta; rewrite land_255; apply is_byte_mod);
    cbn [bind]; rewrite (le_bytes_shift_map 16); reflexivity ].
Qed.

(* the loop over block i = data[a i : b i], however the two bounds are written *)
Lemma block_loop data (a b : Z -> Z) r a0 :
  (forall i, 0 <= i -> a i = i * 16 /\ b i = a i + 16) ->
  fold_left (fun acc i => (r * (acc + block_num (py_slice data (Some (a i)) (Some (b i))))) mod P1305)
            (zrange 0 ((zlen data + 15) / 16)) a0 =
  fold_left (fun acc c => (r * (acc + c)) mod P1305) (map block_num (chunks 16 data)) a0.
Proof.
  intros Hab. pose proof (zlen_nonneg data).
  rewrite <- (chunks_slices 16 data a b ((zlen data + 15) / 16)).
  - rewrite map_map, fold_left_map. reflexivity.
  - lia.
  - Z.div_mod_to_equations; lia.
  - intros i Hi. apply Hab. lia.
Qed.

(* entered with a reduced accumulator the loop leaves a reduced one: the sum below needs no second reduction *)
Lemma horner r cs : forall a, a = a mod P1305 ->
  fold_left (fun acc c => (r * (acc + c)) mod P1305) cs a = (a * r ^ zlen cs + poly_sum r cs) mod P1305.
Proof.
  assert (HP : P1305 <> 0) by (unfold P1305; lia).
  induction cs as [|c cs IH]; intros a Ha; cbn [fold_left poly_sum].
  - rewrite Ha at 1. f_equal. rewrite zlen_nil. change (r ^ 0) with 1. lia.
  - rewrite IH by (rewrite Z.mod_mod by exact HP; reflexivity).
    rewrite <- Z.add_mod_idemp_l, Z.mul_mod_idemp_l, Z.add_mod_idemp_l by exact HP. f_equal.
    rewrite zlen_cons, Nat2Z.inj_succ. fold (zlen cs).
    rewrite <- Z.add_1_l, !Z.pow_add_r by (pose proof (zlen_nonneg cs); lia). ring.
Qed.

Lemma poly_create_tag_ok st data :
  poly_create_tag st data =
  let acc := fold_left (fun acc c => (poly_r st * (acc + c)) mod P1305)
                       (map block_num (chunks 16 data)) (poly_acc st) + poly_s st in
  Ok (mkPoly1305 acc (poly_r st) (poly_s st), le_bytes 16 acc).
Proof.
  pose proof (zlen_nonneg data) as Hd.
  unfold poly_create_tag, poly_le_bytes_to_num. cbv zeta.
  first
  [ (* idiom A: block index up to divceil(len, 16); accumulator updated in two statements *)
    unfold divceil; rewrite py_divmod_ok by lia; cbn [bind]; rewrite divceil_pos_val by lia;
    replace (zlen data + 16 - 1) with (zlen data + 15) by lia;
    rewrite (foldM_ok_ext _ (fun acc i =>
       (poly_r st * (acc + block_num (py_slice data (Some (i * 16)) (Some ((i + 1) * 16))))) mod P1305))
      by (intros a i Hi; rewrite le_loop_index; reflexivity);
    cbn [bind]; rewrite (block_loop data (fun i => i * 16) (fun i => (i + 1) * 16)) by (intros; lia)
  | (* idiom B: start offsets range(0, len, 16); accumulator updated in one expression *)
    rewrite py_range_step_up by lia; rewrite Z.sub_0_r; replace (zlen data + 16 - 1) with (zlen data + 15) by lia;
    rewrite fold_left_map;
    rewrite (fold_left_ext_in _ (fun acc i =>
       (poly_r st * (acc + block_num (py_slice data (Some (0 + 16 * i)) (Some (0 + 16 * i + 16))))) mod P1305))
      by (intros; rewrite le_loop_rev; reflexivity);
    rewrite (block_loop data (fun i => 0 + 16 * i) (fun i => 0 + 16 * i + 16)) by (intros; lia) ].
  rewrite poly_num_to_16_le_bytes_ok. reflexivity.
Qed.

Lemma poly_init_ok key : zlen key = 32 ->
  poly_init key = Ok (mkPoly1305 0 (clamp_r (le_num (firstn 16 key))) (le_num (skipn 16 key))).
Proof.
  intros H. unfold poly_init, poly_le_bytes_to_num. rewrite H. cbn [Z.eqb Pos.eqb negb]. cbv zeta.
  first [ rewrite !le_loop_index; cbn [bind] | rewrite !le_loop_rev ].
  rewrite !py_slice_nonneg by lia. change (Z.to_nat (16 - 0)) with 16%nat. change (Z.to_nat (32 - 16)) with 16%nat.
  change (skipn (Z.to_nat 0) key) with key. change (Z.to_nat 16) with 16%nat.
  rewrite (firstn_all2 (n := 16) (skipn 16 key)) by (rewrite skipn_length; unfold zlen in H; lia).
  reflexivity.
Qed.

Lemma poly_init_bad key : zlen key <> 32 -> poly_init key = Err ValueError.
Proof.
  intros H. unfold poly_init. destruct (zlen key =? 32) eqn:E; [apply Z.eqb_eq in E; contradiction|].
  reflexivity.
Qed.

(* K is what the caller does with the tag *)
Lemma poly_tag_ok {B} key msg (K : list Z -> res B) : zlen key = 32 ->
  (p <- poly_init key ;; r <- poly_create_tag p msg ;; K (snd r)) = K (poly1305 key msg).
Proof.
  intros H. rewrite poly_init_ok, bind_of_Ok, poly_create_tag_ok by exact H. cbn [poly_acc poly_r poly_s bind snd]. f_equal.
  unfold poly1305, poly1305_acc. change (2 ^ 128) with (256 ^ Z.of_nat 16). rewrite le_bytes_mod, horner by reflexivity.
  reflexivity.
Qed.
