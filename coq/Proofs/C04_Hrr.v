(* C04 -- the second-ClientHello comparison: what the edited copy of the first hello keeps, including
   the branch that overwrites its last extension with the new pre_shared_key extension. *)
From Coq Require Import ZArith List Bool Lia.
From TV Require Import Model.C04_Tamper Proofs.C04_Eqb.
Import ListNotations.
Open Scope Z_scope.

(* Every edit of hrr_expected before the pre_shared_key replacement inserts, removes or overwrites one
   extension of type key_share, cookie or padding.  None of them touches an extension outside the permitted types
   (np) or a pre_shared_key: the sublist of these (stays) is that of the first hello, in the same order. *)
Definition np (e : ext) : bool := negb (hrr_permitted (fst e)).
Definition stays (e : ext) : bool := np e || (fst e =? X_PSK).

Section Filter.
  Variable q : ext -> bool.

  Lemma F_replace t p l : (forall p', q (t, p') = false) -> filter q (replace_ext t p l) = filter q l.
  Proof.
    intros Ht. induction l as [|[u p'] r IH]; cbn [replace_ext]; [reflexivity|].
    destruct (u =? t) eqn:E; cbn [filter]; [|rewrite IH; reflexivity].
    apply Z.eqb_eq in E. subst u. rewrite !Ht. reflexivity.
  Qed.

  Lemma F_remove t l : (forall p, q (t, p) = false) -> filter q (remove_ext t l) = filter q l.
  Proof.
    intros Ht. induction l as [|[u p] r IH]; cbn [remove_ext]; [reflexivity|].
    destruct (u =? t) eqn:E; cbn [filter]; [|rewrite IH; reflexivity].
    apply Z.eqb_eq in E. subst u. rewrite Ht. exact IH.
  Qed.

  Lemma F_insert i x l : q x = false -> filter q (insert_at i x l) = filter q l.
  Proof.
    intros Hx. unfold insert_at. rewrite filter_app. cbn [filter]. rewrite Hx, <- filter_app, firstn_skipn. reflexivity.
  Qed.

  Lemma F_replace_last x l d : q x = false -> q (last l d) = false -> filter q (replace_last x l) = filter q l.
  Proof.
    intros Hx Hl. unfold replace_last. destruct l as [|a r]; [reflexivity|].
    rewrite (@app_removelast_last _ (a :: r) d) at 2 by discriminate.
    rewrite !filter_app. cbn [filter]. rewrite Hx, Hl. reflexivity.
  Qed.

  Lemma last_filter l d : q (last l d) = true -> last (filter q l) d = last l d.
  Proof.
    intros H. destruct l as [|a r]; [reflexivity|]. remember (last (a :: r) d) as x eqn:X.
    rewrite (@app_removelast_last _ (a :: r) d), <- X, filter_app by discriminate.
    cbn [filter]. rewrite H. apply last_last.
  Qed.
End Filter.

Lemma F_early l : filter np (match find_ext X_EARLY l with Some _ => remove_ext X_EARLY l | None => l end) = filter np l.
Proof. destruct (find_ext X_EARLY l); [apply F_remove|]; reflexivity. Qed.

Lemma np_of_stays l l' : filter stays l' = filter stays l -> filter np l' = filter np l.
Proof.
  assert (N : forall m, filter np m = filter np (filter stays m)).
  { induction m as [|e r IH]; [reflexivity|]. unfold stays at 1. cbn [filter].
    destruct (np e) eqn:E; cbn [orb filter]; [rewrite E, IH; reflexivity|].
    destruct (_ =? _); cbn [filter]; [rewrite E|]; exact IH. }
  intros H. rewrite (N l), (N l'), H. reflexivity.
Qed.

Lemma find_ext_In t l p : find_ext t l = Some p -> In (t, p) l.
Proof.
  induction l as [|[u q] r IH]; cbn [find_ext]; [discriminate|]. destruct (u =? t) eqn:E.
  - intros [= ->]. left. apply Z.eqb_eq in E. subst u. reflexivity.
  - intros H. right. exact (IH H).
Qed.

Lemma psk_is_last_last c p d : psk_is_last c = true -> In (X_PSK, p) (ch_exts c) -> fst (last (ch_exts c) d) = X_PSK.
Proof.
  unfold psk_is_last. change (length (ch_exts c)) with (0 + length (ch_exts c))%nat. generalize 0%nat.
  induction (ch_exts c) as [|[u q] r IH]; intros n H Hin; [destruct Hin|].
  cbn [index_of_ext] in H. destruct (u =? X_PSK) eqn:E.
  - apply Nat.eqb_eq in H. cbn [length] in H. destruct r; [apply Z.eqb_eq in E; exact E|cbn [length] in H; lia].
  - destruct Hin as [[= -> _]|Hin]; [rewrite Z.eqb_refl in E; discriminate|]. destruct r as [|y r']; [destruct Hin|].
    apply (IH (S n)); [|exact Hin]. cbn [length] in H. rewrite Nat.add_succ_r in H. exact H.
Qed.

(* The one edit that is not of that kind overwrites the LAST extension with the new pre_shared_key, and is made
   only if the copy l' carries pre_shared_key: then so does the first hello l, at its end; it stays, so it is the
   last that stays of l', and the last of l' is that one or one that does not stay: of a permitted type either way. *)
Lemma overwritten_is_permitted l l' p d :
  filter stays l' = filter stays l -> In (X_PSK, p) l' -> (In (X_PSK, p) l -> fst (last l d) = X_PSK) -> np (last l' d) = false.
Proof.
  intros J Hin Hl. destruct (np (last l' d)) eqn:N; [|reflexivity].
  assert (S' : stays (last l' d) = true) by (unfold stays; rewrite N; reflexivity). apply last_filter in S'.
  assert (Hin' : In (X_PSK, p) l) by (apply (filter_In stays); rewrite <- J; apply filter_In; split; [exact Hin|reflexivity]).
  specialize (Hl Hin').
  assert (S : stays (last l d) = true) by (unfold stays; rewrite Hl; apply orb_true_r). apply last_filter in S.
  rewrite J, S in S'. unfold np in N. rewrite <- S', Hl in N. discriminate N.
Qed.

Lemma opt_then {A B} (m : option A) (k : A -> option B) y :
  match m with Some x => k x | None => None end = Some y -> exists x, m = Some x /\ k x = Some y.
Proof. destruct m as [x|]; [exists x; split; [reflexivity|assumption]|discriminate]. Qed.

(* The last extension of the copy is overwritten only when both hellos carry pre_shared_key: hence the hypothesis. *)
Lemma hrr_expected_keeps cookie c1 c2 c :
  psk_is_last c1 = true \/ find_ext X_PSK (ch_exts c2) = None ->
  hrr_expected cookie c1 c2 = Some c -> ch_fixed_part c = ch_fixed_part c1.
Proof.
  intros Hp Ee. unfold hrr_expected in Ee. cbv zeta in Ee.
  destruct (find_ext X_KEYSHARE (ch_exts c2)) as [ks2|]; [|discriminate Ee].
  destruct (find_ext X_KEYSHARE (ch_exts c1)) as [ks1|]; [|discriminate Ee].
  apply opt_then in Ee as (e2 & E2 & Ee).
  assert (I2 : filter stays e2 = filter stays (ch_exts c1)).
  { rewrite <- (F_replace stays X_KEYSHARE ks2 (ch_exts c1) (fun _ => eq_refl)).
    destruct cookie as [ck|]; [|injection E2 as <-; reflexivity].
    destruct (index_of_ext X_COOKIE (ch_exts c2) 0) as [i|]; [|discriminate E2].
    destruct (find_ext X_COOKIE (ch_exts c2)) as [ck2|]; [|discriminate E2].
    destruct (zl_eqb ck ck2); [|discriminate E2]. injection E2 as <-. apply F_insert. reflexivity. }
  clear E2.
  set (e3 := match find_ext X_PADDING e2 with Some _ => _ | None => _ end) in Ee.
  assert (I3 : filter stays e3 = filter stays (ch_exts c1)).
  { rewrite <- I2. unfold e3. destruct (find_ext X_PADDING e2); destruct (find_ext X_PADDING (ch_exts c2)) as [p2|];
      [apply F_replace|apply F_remove|destruct (index_of_ext X_PADDING (ch_exts c2) 0); [apply F_insert|]|]; reflexivity. }
  clearbody e3. clear I2.
  (* the other fields of the copy are those of c1 by computation; early_data goes last, from whatever e4 the copy then has *)
  assert (K : forall e4 b4, filter np e4 = filter np (ch_exts c1) ->
            Some (mkCH (ch_ver c1) (ch_rand c1) (ch_sid c1) (ch_suites c1) (ch_comp c1)
                       (match find_ext X_EARLY e4 with Some _ => remove_ext X_EARLY e4 | None => e4 end) b4) = Some c ->
            ch_fixed_part c = ch_fixed_part c1).
  { intros e4 b4 I4 [= <-]. refine (f_equal (pair _) _). cbn [ch_exts]. rewrite F_early. exact I4. }
  destruct (find_ext X_PSK (ch_exts c2)) as [p2|] eqn:Pn; destruct (find_ext X_PSK e3) as [po|] eqn:Po; cbv beta iota in Ee.
  - (* both hellos carry pre_shared_key *)
    destruct (negb _); [discriminate Ee|]. refine (K _ _ _ Ee).
    destruct Hp as [Hp|Hp]; [|congruence]. rewrite <- (np_of_stays _ _ I3). apply find_ext_In in Po.
    exact (F_replace_last np (X_PSK, p2) e3 (0, []) eq_refl (overwritten_is_permitted _ _ _ _ I3 Po (psk_is_last_last _ _ _ Hp))).
  - (* only the second *) exact (K _ _ (np_of_stays _ _ I3) Ee).
  - (* only the first *) exact (K _ _ (np_of_stays _ _ I3) Ee).
  - (* neither *) exact (K _ _ (np_of_stays _ _ I3) Ee).
Qed.

Lemma hrr_second_ok_fixed cookie group c1 c2 :
  psk_is_last c1 = true \/ find_ext X_PSK (ch_exts c2) = None ->
  hrr_second_ok cookie group c1 c2 = true ->
  ch_fixed_part c1 = ch_fixed_part c2 /\
  exists share, find_ext X_KEYSHARE (ch_exts c2) = Some [group; share].
Proof.
  unfold hrr_second_ok. intros Hp.
  destruct (find_ext X_KEYSHARE (ch_exts c2)) as [[|g' [|sh [|? ?]]]|] eqn:Eks; try discriminate.
  intros H. apply andb_true_iff in H as [Hg H]. apply Z.eqb_eq in Hg. subst g'.
  destruct (hrr_expected cookie c1 c2) as [c|] eqn:Ee; [|discriminate].
  apply ch_eqb_sound in H. subst c. exact (conj (eq_sym (hrr_expected_keeps _ _ _ _ Hp Ee)) (ex_intro _ sh eq_refl)).
Qed.
