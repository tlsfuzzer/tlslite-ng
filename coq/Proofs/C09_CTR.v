(* AES-CTR: the generated Python_AES_CTR.encrypt (Gen/C09_AesModes.v).  Its while loop is followed where it stands in the
   function, in two ways.
   - For any object: the key stream (what the previous call left, then fresh blocks) depends on the data only through its
     length, and the loop stops only when it covers the data, whatever the oracle returns: two encryptions from the same
     state give the data back (ctr_involution).
   - For objects whose counter fills the whole 16-byte block (ctr_init with a 16-byte IV; the objects inside AES-GCM /
     AES-CCM), along the explicit states of the loop: ctr_encrypt_run, of which one call = SP 800-38A 6.5 CTR is the
     instance with no left-over key stream (Props.C09.ctr_eq_spec); the object is a STREAM: the unused key stream is kept
     (/repo commit de57de0), so enc (a ++ b) = enc a ++ enc' b for ANY split (ctr_stream_split_code). *)
From Coq Require Import ZArith List Lia.
From TV Require Import Base.Prelude Base.PreludeFacts Base.C09_Lib Base.C09_Oracle Gen.C09_AesModes
  Spec.C09_ChaCha Spec.C09_Modes Proofs.C09_Lists.
Import ListNotations.
Open Scope list_scope.
Open Scope Z_scope.

Section CTR.
  Variable O : BlockOracle.

  Lemma ctr_decrypt_is_encrypt st m : ctr_decrypt O st m = ctr_encrypt O st m.
  Proof.
    unfold ctr_decrypt. destruct st as [a b c d k]. cbn [ctr_rijndael ctr_IV ctr__counter_bytes ctr__counter ctr__keystream].
    destruct (ctr_encrypt O (mkAESCTR a b c d k) m) as [[st' out]|e].
    - destruct st'. reflexivity.
    - reflexivity.
  Qed.

  Lemma ctr_involution st m st1 c : all_bytes m = true ->
    ctr_encrypt O st m = Ok (st1, c) ->
    ctr_encrypt O st c = Ok (st1, m) /\ zlen c = zlen m /\ all_bytes c = true.
  Proof.
    intros Bm H. unfold ctr_encrypt in H.
    (* the while loop of Gen.C09_AesModes.ctr_encrypt, as it stands in the first call: it stops only when the key stream
       covers the data (C: of while_fuel_inv only the exit condition is used), and it is the loop of the second call, since
       that differs in the length of the data only (Lc) *)
    match type of H with context [while_fuel ?f ?cnd ?body ?s] =>
      destruct (while_fuel f cnd body s) as [[[[[[mask a] b] cc] d] k]|e] eqn:EL end; cbn [bind] in H; [|discriminate].
    pose proof (while_fuel_inv (fun _ => True) _ _ ltac:(trivial) _ _ _ I EL) as [_ C]. apply Z.ltb_ge in C.
    rewrite xor_code in H. unfold mk_bytes in H.
    destruct (all_bytes (xor_bytes m mask)) eqn:Bc; cbn [bind] in H; [|discriminate].
    injection H as <- <-.
    assert (Lc : zlen (xor_bytes m mask) = zlen m) by (unfold zlen in *; rewrite xor_bytes_length; lia).
    split; [|split; [exact Lc|exact Bc]].
    unfold ctr_encrypt. rewrite Lc, EL. cbn [bind].
    rewrite xor_code, xor_bytes_involutive by (unfold zlen in *; lia). rewrite mk_bytes_ok by exact Bm. reflexivity.
  Qed.
End CTR.

Lemma ctr_inc_len t : List.length (ctr_inc t) = List.length t.
Proof. unfold ctr_inc, be_bytes. rewrite rev_length, le_bytes_length. reflexivity. Qed.

Lemma iter_inc_len i t : List.length (Nat.iter i ctr_inc t) = List.length t.
Proof. induction i as [|i IH]; [reflexivity|]. simpl. rewrite ctr_inc_len. exact IH. Qed.

(* the number of fresh blocks a call on n bytes needs: the least q with |ks| + 16 q >= n *)
Definition ctr_fresh (ks : list Z) (n : Z) : nat := Z.to_nat ((n - zlen ks + 15) / 16).

Lemma ctr_fresh_ok ks n :
  (ctr_fresh ks n = 0%nat \/ zlen ks + 16 * (Z.of_nat (ctr_fresh ks n) - 1) < n) /\ n <= zlen ks + 16 * Z.of_nat (ctr_fresh ks n).
Proof. unfold ctr_fresh. split; Z.div_mod_to_equations; lia. Qed.

Section CTRspec.
  Variable O : BlockOracle.
  Variable key : list Z.
  Let E := bo_enc O key.
  Hypothesis Elen : forall b, List.length b = 16%nat -> List.length (E b) = 16%nat.
  Hypothesis Ebytes : forall k b, all_bytes (bo_enc O k b) = true.

  Lemma ctr_blocks_add t i j : ctr_blocks E t (i + j) = ctr_blocks E t i ++ ctr_blocks E (Nat.iter i ctr_inc t) j.
  Proof.
    revert t. induction i as [|i IH]; intros t; [reflexivity|].
    cbn [Nat.add ctr_blocks]. rewrite IH, <- app_assoc, iter_shift. reflexivity.
  Qed.

  Lemma ctr_blocks_snoc t i : ctr_blocks E t (S i) = ctr_blocks E t i ++ E (Nat.iter i ctr_inc t).
  Proof. rewrite <- Nat.add_1_r, ctr_blocks_add. cbn [ctr_blocks]. rewrite app_nil_r. reflexivity. Qed.

  Lemma ctr_blocks_len t i : List.length t = 16%nat -> zlen (ctr_blocks E t i) = 16 * Z.of_nat i.
  Proof.
    revert t. induction i as [|i IH]; intros t Lt; [reflexivity|].
    cbn [ctr_blocks]. rewrite zlen_app, IH by (rewrite ctr_inc_len; exact Lt). unfold zlen. rewrite Elen by exact Lt. lia.
  Qed.

  Lemma ctr_blocks_bytes t i : all_bytes (ctr_blocks E t i) = true.
  Proof. revert t. induction i as [|i IH]; intros t; [reflexivity|]. cbn [ctr_blocks]. rewrite all_bytes_app, IH. unfold E. rewrite Ebytes. reflexivity. Qed.

  Lemma ctr_counter_update_ok iv c ks : List.length c = 16%nat ->
    ctr_counter_update O (mkAESCTR key iv 0 c ks) = Ok (mkAESCTR key iv 0 (ctr_inc c) ks).
  Proof.
    intros Lc. unfold ctr_counter_update. cbn [ctr_rijndael ctr_IV ctr__counter_bytes ctr__counter ctr__keystream]. cbv zeta.
    change (0 >? 0) with false. cbn [andb]. f_equal. f_equal.
    unfold numberToByteArray, bytesToNumber, ctr_inc, be_bytes. rewrite Lc. change (Z.to_nat 16) with 16%nat.
    f_equal. replace (zlen c) with (Z.of_nat 16) by (unfold zlen; lia). rewrite le_bytes_mod. reflexivity.
  Qed.

  (* The loop runs along the states St 0, St 1, ... and stops at St q. *)
  Lemma ctr_encrypt_run iv t0 ks m : List.length t0 = 16%nat -> all_bytes ks = true -> all_bytes m = true ->
    let q := ctr_fresh ks (zlen m) in
    ctr_encrypt O (mkAESCTR key iv 0 t0 ks) m =
    Ok (mkAESCTR key iv 0 (Nat.iter q ctr_inc t0) (skipn (List.length m) (ks ++ ctr_blocks E t0 q)),
        xorb m (ks ++ ctr_blocks E t0 q)).
  Proof.
    intros Lt Bk Bm q. rewrite xorb_eq. destruct (ctr_fresh_ok ks (zlen m)) as [H1 H2]. fold q in H1, H2.
    pose proof (zlen_nonneg ks) as Hk. pose proof (zlen_nonneg m) as Hm.
    pose (St := fun i : nat => (ks ++ ctr_blocks E t0 i, key, iv, 0, Nat.iter i ctr_inc t0, ks)).
    unfold ctr_encrypt. cbn [ctr_rijndael ctr_IV ctr__counter_bytes ctr__counter ctr__keystream].
    match goal with |- context [while_fuel ?f ?c ?b ?s] =>
      replace s with (St 0%nat) by (unfold St; cbn [ctr_blocks Nat.iter]; rewrite app_nil_r; reflexivity);
      rewrite (while_fuel_steps c b St q) end.
    - (* after the loop *)
      unfold St. cbn [bind]. rewrite xor_code.
      rewrite mk_bytes_ok, bind_of_Ok by (apply xor_bytes_all_bytes; [exact Bm|rewrite all_bytes_app, Bk, ctr_blocks_bytes; reflexivity]).
      rewrite py_slice_from by exact Hm. unfold zlen at 1. rewrite Nat2Z.id. reflexivity.
    - (* one more block while the key stream is short *)
      intros i Hi. unfold St. rewrite zlen_app, ctr_blocks_len by exact Lt. split; [destruct H1; lia|].
      rewrite ctr_counter_update_ok by (rewrite iter_inc_len; exact Lt). rewrite bind_of_Ok.
      cbn [ctr_rijndael ctr_IV ctr__counter_bytes ctr__counter ctr__keystream].
      rewrite ctr_blocks_snoc, app_assoc. reflexivity.
    - (* at St q the key stream covers the data *)
      unfold St. rewrite zlen_app, ctr_blocks_len by exact Lt. lia.
    - (* q rounds are within the fuel |m| + 1 *)
      destruct H1 as [->|H1]; lia.
  Qed.

  Lemma ctr_stream_split_code iv t0 ks a b : List.length t0 = 16%nat -> all_bytes ks = true ->
    all_bytes a = true -> all_bytes b = true ->
    ('(st1, c1) <- ctr_encrypt O (mkAESCTR key iv 0 t0 ks) a ;; '(st2, c2) <- ctr_encrypt O st1 b ;; Ok (st2, c1 ++ c2))
    = ctr_encrypt O (mkAESCTR key iv 0 t0 ks) (a ++ b).
  Proof.
    intros Lt Bk Ba Bb.
    pose proof (zlen_nonneg a) as Ha. pose proof (zlen_nonneg b) as Hb. pose proof (zlen_nonneg ks) as Hk.
    rewrite (ctr_encrypt_run iv t0 ks a Lt Bk Ba), bind_of_Ok.
    destruct (ctr_fresh_ok ks (zlen a)) as [_ A2]. set (q1 := ctr_fresh ks (zlen a)) in *.
    set (M1 := ks ++ ctr_blocks E t0 q1).
    assert (LM1 : zlen M1 = zlen ks + 16 * Z.of_nat q1) by (unfold M1; rewrite zlen_app, ctr_blocks_len by exact Lt; reflexivity).
    assert (BM1 : all_bytes M1 = true) by (unfold M1; rewrite all_bytes_app, Bk, ctr_blocks_bytes; reflexivity).
    set (ks1 := skipn (List.length a) M1).
    assert (Lk1 : zlen ks1 = zlen ks + 16 * Z.of_nat q1 - zlen a) by (unfold ks1, zlen in *; rewrite skipn_length; lia).
    assert (Bk1 : all_bytes ks1 = true) by (apply all_bytes_skipn; exact BM1).
    set (t1 := Nat.iter q1 ctr_inc t0). assert (Lt1 : List.length t1 = 16%nat) by (unfold t1; rewrite iter_inc_len; exact Lt).
    rewrite (ctr_encrypt_run iv t1 ks1 b Lt1 Bk1 Bb), bind_of_Ok. set (q2 := ctr_fresh ks1 (zlen b)).
    assert (Bab : all_bytes (a ++ b) = true) by (rewrite all_bytes_app, Ba, Bb; reflexivity).
    rewrite (ctr_encrypt_run iv t0 ks (a ++ b) Lt Bk Bab).
    (* the fresh blocks of the two calls are those of the one call: the two quotients add up *)
    replace (ctr_fresh ks (zlen (a ++ b))) with (q1 + q2)%nat
      by (unfold q2, ctr_fresh; rewrite zlen_app, Lk1; unfold q1, ctr_fresh; Z.div_mod_to_equations; lia).
    rewrite ctr_blocks_add. fold t1. rewrite app_assoc. fold M1.
    assert (ES : skipn (List.length a) (M1 ++ ctr_blocks E t1 q2) = ks1 ++ ctr_blocks E t1 q2).
    { rewrite skipn_app. replace (List.length a - List.length M1)%nat with 0%nat by (unfold zlen in *; lia). reflexivity. }
    rewrite xorb_eq, (xor_bytes_split a b), (xor_bytes_app_l a M1), app_length, <- skipn_add, ES, iter_add
      by (rewrite ?app_length; unfold zlen in *; lia).
    reflexivity.
  Qed.
End CTRspec.
