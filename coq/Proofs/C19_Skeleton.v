(* C19 -- the structure of validate() that the hand model was written against, as facts read from the
   FLATTENED and NORMALISED closure of validate() (translator/c19_astnorm.py: helper methods inlined, aliases and
   single-use locals removed, negations pushed inwards, literal loops unrolled, messages dropped), so that
   behaviour-preserving rewrites (extracting or merging helpers, renaming locals, De Morgan, reworded texts) leave
   them unchanged.  Gen/SettingsTables.v carries the same lists re-read from /repo on every run; the theorem
   model_skeleton_matches_source (Props/C19.v) fails as soon as a field is added/dropped/copied instead of aliased
   in the copy phase, a new in-place list mutation appears or disappears, or a re-binding of an attribute of `other`
   to a new object appears/disappears (e.g. the copy made by _sanity_check_implementations since /repo 851aa29). *)
From Coq Require Import List String.
From TV Require Import Gen.SettingsTables.
Import ListNotations.
Open Scope string_scope.

Definition expected_copies : list (string * string) := [
  ("alias", "cipherNames");
  ("alias", "macNames");
  ("alias", "keyExchangeNames");
  ("alias", "cipherImplementations");
  ("alias", "minVersion");
  ("alias", "maxVersion");
  ("alias", "versions");
  ("alias", "useExtendedMasterSecret");
  ("alias", "requireExtendedMasterSecret");
  ("alias", "useExperimentalTackExtension");
  ("alias", "sendFallbackSCSV");
  ("alias", "useEncryptThenMAC");
  ("alias", "usePaddingExtension");
  ("alias", "ec_point_formats");
  ("alias", "padding_cb");
  ("alias", "ticketKeys");
  ("alias", "ticketCipher");
  ("alias", "ticketLifetime");
  ("alias", "max_early_data");
  ("alias", "ticket_count");
  ("alias", "record_size_limit");
  ("alias", "certificate_compression_send");
  ("alias", "certificate_compression_receive");
  ("alias", "dc_sig_algs");
  ("alias", "dc_valid_time");
  ("alias", "minKeySize");
  ("alias", "maxKeySize");
  ("alias", "certificateTypes");
  ("alias", "rsaSigHashes");
  ("alias", "rsaSchemes");
  ("alias", "dsaSigHashes");
  ("alias", "ecdsaSigHashes");
  ("alias", "more_sig_schemes");
  ("alias", "virtual_hosts");
  ("alias", "eccCurves");
  ("alias", "dhParams");
  ("alias", "dhGroups");
  ("alias", "defaultCurve");
  ("alias", "keyShares");
  ("alias", "use_heartbeat_extension");
  ("alias", "heartbeat_response_callback");
  ("alias", "pskConfigs");
  ("alias", "psk_modes")].
Definition expected_mutation_sites : list string := [
  "setitem:other.cipherImplementations[:]";
  "setitem:other.cipherImplementations[:]";
  "setitem:other.cipherNames[:]"].
Definition expected_rebinds : list string := [
  "versions:ListComp";
  "macNames:ListComp";
  "cipherImplementations:Subscript";
  "cipherNames:Subscript"].
Definition expected_init_attrs : list string := ["minKeySize"; "maxKeySize"; "rsaSigHashes"; "rsaSchemes"; "dsaSigHashes"; "virtual_hosts"; "eccCurves"; "dhParams"; "dhGroups"; "defaultCurve"; "keyShares"; "padding_cb"; "use_heartbeat_extension"; "heartbeat_response_callback"; "certificateTypes"; "useExperimentalTackExtension"; "sendFallbackSCSV"; "useEncryptThenMAC"; "ecdsaSigHashes"; "more_sig_schemes"; "usePaddingExtension"; "useExtendedMasterSecret"; "requireExtendedMasterSecret"; "pskConfigs"; "psk_modes"; "ticketKeys"; "ticketCipher"; "ticketLifetime"; "max_early_data"; "ticket_count"; "record_size_limit"; "ec_point_formats"; "certificate_compression_send"; "certificate_compression_receive"; "dc_sig_algs"; "dc_valid_time"; "minVersion"; "maxVersion"; "versions"; "cipherNames"; "macNames"; "keyExchangeNames"; "cipherImplementations"].
