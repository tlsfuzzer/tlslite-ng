(* The sequential SessionCache model (repaired code: entriesSlot/_drop) refines the abstract
   log specification for EVERY history with a monotone clock, repeated IDs included.
   Every method pushes an entry behind a window (queue) of slots and/or pops the oldest ones.
   Circular list + dict + slot map represent the window (`Win`, `Rep`): the dict holds, for every ID
   in the window, the session of its NEWEST slot; older slots of the same ID are stale and are
   skipped when recycled.  The window is the newest part of the specification's log (`Rel`), and one
   step of a history keeps the two related (`Sim`, `apply_sim`).
   (On the code before the fix "SessionCache must not drop a live entry when a session ID is stored
   twice" this holds for pairwise distinct stored IDs only; see Proofs/C18_CacheWit.v.) *)
From Coq Require Import ZArith List Bool Lia.
From TV Require Import Base.Prelude Base.PreludeFacts Base.C18_Lib Model.C18_Cache Spec.C18_CacheSpec.
Import ListNotations.
Open Scope Z_scope.

Definition went := (Z * Z * Z)%type.          (* (id, session, time stored) *)
Definition wid (e : went) : Z := fst (fst e).
Definition wsess (e : went) : Z := snd (fst e).
Definition wts (e : went) : Z := snd e.

(* position and entry of the LAST (newest) slot of id in the window *)
Fixpoint wlast (id : Z) (w : list went) : option (nat * went) :=
  match w with
  | [] => None
  | e :: w' => match wlast id w' with
               | Some (j, x) => Some (S j, x)
               | None => if id =? wid e then Some (O, e) else None
               end
  end.

Lemma wlast_app id w e : wlast id (w ++ [e]) = if id =? wid e then Some (length w, e) else wlast id w.
Proof.
  induction w as [|x w IH]; cbn [app wlast length].
  - destruct (id =? wid e); reflexivity.
  - rewrite IH. destruct (id =? wid e); reflexivity.
Qed.

Lemma wlast_nth id w j e : wlast id w = Some (j, e) -> nth_error w j = Some e /\ wid e = id.
Proof.
  revert j. induction w as [|x w IH]; cbn [wlast]; intros j; [discriminate|].
  destruct (wlast id w) as [[k y]|].
  - intros H. inversion H; subst. exact (IH k eq_refl).
  - destruct (id =? wid x) eqn:E; intros H; inversion H; subst. apply Z.eqb_eq in E. auto.
Qed.

Lemma NoDup_app_l {A} (a b : list A) : NoDup (a ++ b) -> NoDup a.
Proof.
  induction a as [|x a IH]; cbn [app]; intros H; [constructor|].
  inversion H as [|y l Hy Hn]; subst. constructor; [|apply IH; exact Hn].
  intro Hin. apply Hy. apply in_or_app. left. exact Hin.
Qed.

Lemma nth_error_zlen {A} (l : list A) j x : nth_error l j = Some x -> 0 <= Z.of_nat j < zlen l.
Proof. intros H. assert (j < length l)%nat by (apply nth_error_Some; congruence). unfold zlen. lia. Qed.

Lemma mod_wrap x n : 0 <= x < 2 * n -> x mod n = if x <? n then x else x - n.
Proof.
  intros H. destruct (x <? n) eqn:E.
  - apply Z.mod_small. lia.
  - replace x with ((x - n) + 1 * n) at 1 by lia. rewrite Z.mod_add by lia. apply Z.mod_small. lia.
Qed.

Lemma slot_distinct n f j k : 1 <= n -> 0 <= f < n -> 0 <= j < n -> 0 <= k < n -> j <> k ->
  (f + j) mod n <> (f + k) mod n.
Proof.
  intros Hn Hf Hj Hk Hne. rewrite (mod_wrap (f + j) n) by lia. rewrite (mod_wrap (f + k) n) by lia.
  destruct (f + j <? n) eqn:E1; destruct (f + k <? n) eqn:E2; lia.
Qed.

Lemma slot_range n x : 1 <= n -> 0 <= x mod n < n.
Proof. intros. apply Z.mod_pos_bound. lia. Qed.

Lemma slot_succ n f j : 1 <= n -> ((f + 1) mod n + j) mod n = (f + (j + 1)) mod n.
Proof. intros. rewrite Zplus_mod_idemp_l. f_equal. lia. Qed.

Lemma slot_0 n f : 0 <= f < n -> (f + 0) mod n = f.
Proof. intros. rewrite Z.add_0_r. apply Z.mod_small. lia. Qed.

Lemma slot_full n f : 0 <= f < n -> (f + n) mod n = f.
Proof. intros. rewrite <- (Z.mul_1_l n) at 1. rewrite Z.mod_add by lia. apply Z.mod_small. lia. Qed.

Lemma slot_eqb_first n f k : 0 <= f < n -> 0 < k <= n -> ((f + k) mod n =? f) = negb (k <? n).
Proof.
  intros Hf Hk. destruct (k <? n) eqn:E; cbn [negb].
  - apply Z.eqb_neq. rewrite <- (slot_0 n f Hf) at 2. apply slot_distinct; lia.
  - replace k with n by lia. rewrite slot_full by exact Hf. apply Z.eqb_refl.
Qed.

Definition tracks (f : nat -> went -> Z) (d : dict) (w : list went) : Prop :=
  forall id, dict_get id d = option_map (fun p => f (fst p) (snd p)) (wlast id w).

(* the oldest slot leaves the window: its key goes iff no newer slot carries the same id *)
Definition without_head (e : went) (w : list went) (d : dict) : dict :=
  match wlast (wid e) w with Some _ => d | None => dict_remove (wid e) d end.

Lemma tracks_tail f g d e w : (forall j x, g j x = f (S j) x) -> tracks f d (e :: w) ->
  tracks g (without_head e w d) w.
Proof.
  intros Hg H id. specialize (H id). cbn [wlast] in H. unfold without_head.
  destruct (wlast (wid e) w) eqn:Hn.
  - rewrite H. destruct (wlast id w) as [[j x]|] eqn:E; cbn [option_map fst snd]; [rewrite Hg; reflexivity|].
    destruct (id =? wid e) eqn:E2; [|reflexivity]. apply Z.eqb_eq in E2. congruence.
  - rewrite dict_get_remove, H. destruct (id =? wid e) eqn:E2.
    + apply Z.eqb_eq in E2. subst id. rewrite Hn. reflexivity.
    + destruct (wlast id w) as [[j x]|]; cbn [option_map fst snd]; [rewrite Hg|]; reflexivity.
Qed.

Lemma tracks_push f d w e : tracks f d w -> tracks f (dict_set (wid e) (f (length w) e) d) (w ++ [e]).
Proof. intros H id. rewrite dict_get_set, wlast_app, H. destruct (id =? wid e); reflexivity. Qed.

(* l: entriesList of length n, i: index of the oldest live slot, last: index of the free slot behind
   the newest one, w: slots oldest first, d: entriesDict, sl: entriesSlot *)
Set Implicit Arguments.
Record Win (n : Z) (l : list (option (Z * Z))) (i last : Z) (w : list went) (d sl : dict) : Prop := {
  win_size : zlen l = n;
  win_first : 0 <= i < n;
  win_last : last = (i + zlen w) mod n;
  win_slots : forall j e, nth_error w j = Some e ->
              nth_error l (Z.to_nat ((i + Z.of_nat j) mod n)) = Some (Some (wid e, wts e));
  win_keys : NoDup (dict_keys d);
  win_dict : tracks (fun _ e => wsess e) d w;
  win_slot : tracks (fun j _ => (i + Z.of_nat j) mod n) sl w }.
Unset Implicit Arguments.

Lemma win_head_slot n l i last e w d sl :
  Win n l i last (e :: w) d sl -> py_index l i = Ok (Some (wid e, wts e)).
Proof.
  intros Hw. pose proof (win_first Hw) as Hi. apply py_index_nth; [lia|].
  pose proof (win_slots Hw O eq_refl) as Hs. cbn [Z.of_nat] in Hs. rewrite slot_0 in Hs by exact Hi. exact Hs.
Qed.

Lemma win_meet n l i last w d sl : Win n l i last w d sl -> 0 < zlen w <= n -> (last =? i) = negb (zlen w <? n).
Proof. intros Hw Hk. rewrite (win_last Hw). apply slot_eqb_first; [exact (win_first Hw)|exact Hk]. Qed.

Lemma win_drop_head n l i last e w d sl : zlen (e :: w) <= n ->
  Win n l i last (e :: w) d sl ->
  drop l d sl i = (without_head e w d, without_head e w sl, None) /\
  Win n l ((i + 1) mod n) last w (without_head e w d) (without_head e w sl).
Proof.
  intros Hlen Hw. pose proof (win_head_slot n l i last e w d sl Hw) as Hidx.
  pose proof (win_first Hw) as Hi. pose proof (win_last Hw) as Hlast. rewrite zlen_cons in Hlen, Hlast.
  pose proof (zlen_nonneg w) as Hw0. split.
  - unfold drop, dict_del, dict_mem, without_head. rewrite Hidx, (win_dict Hw (wid e)), !(win_slot Hw (wid e)).
    cbn [wlast]. rewrite Z.eqb_refl.
    destruct (wlast (wid e) w) as [[j x]|] eqn:Hp; cbn [option_map fst snd Z.of_nat].
    + (* stale: a newer slot of the same ID exists *)
      pose proof (nth_error_zlen _ _ _ (proj1 (wlast_nth _ _ _ _ Hp))).
      rewrite slot_eqb_first, (proj2 (Z.ltb_lt _ _)) by lia. reflexivity.
    + rewrite slot_0, Z.eqb_refl by exact Hi. reflexivity.
  - constructor.
    + exact (win_size Hw).
    + (* win_first *) apply slot_range. lia.
    + (* win_last *) rewrite slot_succ, Hlast by lia. f_equal. lia.
    + (* win_slots *) intros j x Hj. rewrite slot_succ by lia.
      pose proof (win_slots Hw (S j) Hj) as Hs. rewrite Nat2Z.inj_succ in Hs. exact Hs.
    + (* win_keys *) unfold without_head.
      destruct (wlast (wid e) w); [|apply dict_keys_remove_nodup]; exact (win_keys Hw).
    + exact (tracks_tail _ _ d e w (fun _ _ => eq_refl) (win_dict Hw)).
    + eapply tracks_tail; [|exact (win_slot Hw)]. cbv beta.
      intros j _. rewrite slot_succ, Nat2Z.inj_succ by lia. reflexivity.
Qed.

Lemma win_push n l i last w d sl e : zlen w <= n - 1 ->
  Win n l i last w d sl ->
  Win n (upd_nth (Z.to_nat last) l (Some (wid e, wts e))) i ((last + 1) mod n) (w ++ [e])
      (dict_set (wid e) (wsess e) d) (dict_set (wid e) last sl).
Proof.
  intros Hlen Hw. pose proof (win_size Hw) as Hl. pose proof (win_first Hw) as Hi. rewrite (win_last Hw).
  pose proof (zlen_nonneg w) as Hw0.
  constructor.
  - (* win_size *) rewrite zlen_upd. exact Hl.
  - (* win_first *) exact Hi.
  - (* win_last *) rewrite zlen_app, Zplus_mod_idemp_l, Z.add_assoc. reflexivity.
  - (* win_slots *) intros j x Hj. pose proof (nth_error_zlen _ _ _ Hj) as Hjl.
    rewrite zlen_app in Hjl. change (zlen [e]) with 1 in Hjl.
    destruct (Nat.eq_dec j (length w)) as [->|Hne].
    + rewrite nth_error_app2, Nat.sub_diag in Hj by lia. inversion Hj; subst x.
      apply upd_nth_same. pose proof (slot_range n (i + zlen w)). unfold zlen in *. lia.
    + rewrite nth_error_app1 in Hj by (unfold zlen in *; lia).
      rewrite upd_nth_other; [exact (win_slots Hw j Hj)|].
      intros Heq. apply Z2Nat.inj in Heq; try (apply slot_range; lia).
      revert Heq. apply slot_distinct; unfold zlen in *; lia.
  - apply dict_keys_set_nodup. exact (win_keys Hw).
  - exact (tracks_push _ d w e (win_dict Hw)).
  - exact (tracks_push _ sl w e (win_slot Hw)).
Qed.

Definition expired (maxAge now : Z) (e : went) : bool := now - wts e >? maxAge.

Fixpoint drop_expired (maxAge now : Z) (w : list went) : list went :=
  match w with
  | [] => []
  | e :: w' => if expired maxAge now e then drop_expired maxAge now w' else w
  end.

Lemma zlen_drop_le maxAge now w : zlen (drop_expired maxAge now w) <= zlen w.
Proof.
  induction w as [|e w IH]; cbn [drop_expired]; [lia|].
  destruct (expired maxAge now e); rewrite ?zlen_cons; lia.
Qed.

Set Implicit Arguments.
Record Rep (n maxAge : Z) (c : cache) (w : list went) : Prop := {
  rep_age : c_maxAge c = maxAge;
  rep_len : zlen w <= n - 1;
  rep_win : Win n (c_list c) (c_first c) (c_last c) w (c_dict c) (c_slot c) }.
Unset Implicit Arguments.

Lemma purge_loop_ok n l last maxAge now :
  forall w fuel d sl i, (length w < fuel)%nat -> zlen w <= n - 1 -> Win n l i last w d sl ->
  exists d' sl' i', purge_loop fuel l last maxAge now d sl i = (d', sl', Ok i') /\
    Win n l i' last (drop_expired maxAge now w) d' sl'.
Proof.
  induction w as [|e w IH]; intros fuel d sl i Hf Hlen Hw;
    (destruct fuel as [|fuel]; [cbn [length] in Hf; lia|]); cbn [purge_loop drop_expired].
  - assert (last = i) as -> by (rewrite (win_last Hw), zlen_nil; exact (slot_0 n i (win_first Hw))).
    rewrite Z.eqb_refl. eauto.
  - pose proof (zlen_nonneg w) as Hw0. rewrite zlen_cons in Hlen.
    rewrite (Z.eqb_sym i), (win_meet _ _ _ _ _ _ _ Hw), (proj2 (Z.ltb_lt _ _)) by (rewrite zlen_cons; lia). cbn [negb].
    rewrite (win_head_slot _ _ _ _ _ _ _ _ Hw). fold (expired maxAge now e).
    destruct (expired maxAge now e); [|exists d, sl, i; auto].
    destruct (win_drop_head n l i last e w d sl ltac:(rewrite zlen_cons; lia) Hw) as [Ed Hw1].
    rewrite Ed, (win_size Hw), py_mod_ok by lia. cbv beta iota.
    apply IH; [cbn [length] in Hf; lia|lia|exact Hw1].
Qed.

Lemma purge_ok n maxAge c w now : Rep n maxAge c w ->
  exists c', purge c now = (c', ORet None) /\ Rep n maxAge c' (drop_expired maxAge now w).
Proof.
  intros [Ha Hlen Hw]. unfold purge.
  destruct (purge_loop_ok n (c_list c) (c_last c) (c_maxAge c) now w (S (length (c_list c)))
              (c_dict c) (c_slot c) (c_first c))
    as [d' [sl' [i' [E Hw']]]]; try assumption.
  { pose proof (win_size Hw). unfold zlen in *. lia. }
  rewrite E. eexists. split; [reflexivity|]. rewrite Ha in *.
  constructor; try assumption.
  pose proof (zlen_drop_le maxAge now w). lia.
Qed.

(* the window after a store: the new entry behind it, the oldest one recycled if the list is full *)
Definition push_evict (n : Z) (w : list went) (e : went) : list went :=
  if zlen (w ++ [e]) <? n then w ++ [e] else tl (w ++ [e]).

Lemma setitem_ok n maxAge c w e : 1 <= n -> Rep n maxAge c w ->
  exists c', setitem c (wid e) (wsess e) (wts e) = (c', ORet None) /\ Rep n maxAge c' (push_evict n w e).
Proof.
  intros Hn [Ha Hlen Hw]. pose proof (zlen_nonneg w) as Hw0.
  assert (0 <= c_last c < n) as Hla by (rewrite (win_last Hw); apply slot_range; exact Hn).
  pose proof (win_push _ _ _ _ _ _ _ e Hlen Hw) as P.
  assert (zlen (w ++ [e]) = zlen w + 1) as Hz by (rewrite zlen_app; reflexivity).
  unfold setitem, push_evict. rewrite py_setitem_ok by (rewrite (win_size Hw); exact Hla).
  rewrite (win_size P), py_mod_ok, (win_meet _ _ _ _ _ _ _ P) by lia.
  revert P Hz. generalize (w ++ [e]). intros [|e0 w0] P Hz; [rewrite zlen_nil in Hz; lia|].
  destruct (zlen (e0 :: w0) <? n) eqn:Efull; cbn [negb tl].
  - eexists. split; [reflexivity|]. constructor; [exact Ha|lia|exact P].
  - (* full *)
    destruct (win_drop_head n _ (c_first c) _ e0 w0 _ _ ltac:(lia) P) as [Ed Hw4].
    rewrite Ed, py_mod_ok by lia. eexists. split; [reflexivity|].
    rewrite zlen_cons in Hz. constructor; [exact Ha|lia|exact Hw4].
Qed.

Lemma init_rep n maxAge : 1 <= n -> Rep n maxAge (init n maxAge) [].
Proof.
  intros Hn. constructor; [reflexivity|rewrite zlen_nil; lia|].
  constructor; cbn [init c_list c_first c_last c_dict c_slot]; rewrite ?zlen_nil, ?zlen_repeat; try lia.
  - symmetry. apply slot_0. lia.
  - intros [|j] e Hj; discriminate.
  - constructor.
  - intros id; reflexivity.
  - intros id; reflexivity.
Qed.

(* the dict has at most one entry per slot of the window *)
Lemma rep_dict_size n maxAge c w : Rep n maxAge c w -> zlen (c_dict c) <= n - 1.
Proof.
  intros Hrep. pose proof (rep_len Hrep) as Hlen.
  pose proof (win_keys (rep_win Hrep)) as Hk. pose proof (win_dict (rep_win Hrep)) as Hd. unfold zlen in *.
  assert (length (dict_keys (c_dict c)) <= length w)%nat as H.
  { rewrite <- (map_length wid w). apply NoDup_incl_length; [exact Hk|]. intros k Hin.
    apply dict_keys_get in Hin. rewrite Hd in Hin.
    destruct (wlast k w) as [[j e]|] eqn:E; [|elim Hin; reflexivity].
    destruct (wlast_nth _ _ _ _ E) as [Hj <-]. apply in_map. eapply nth_error_In. exact Hj. }
  unfold dict_keys in H. rewrite map_length in H. lia.
Qed.

Fixpoint asc (w : list went) : Prop :=
  match w with
  | [] => True
  | e :: r => (forall e', In e' r -> wts e <= wts e') /\ asc r
  end.

Lemma expired_true maxAge now e : expired maxAge now e = true <-> now - wts e > maxAge.
Proof. unfold expired. rewrite Z.gtb_ltb, Z.ltb_lt. lia. Qed.

Lemma expired_false maxAge now e : expired maxAge now e = false <-> now - wts e <= maxAge.
Proof. unfold expired. rewrite Z.gtb_ltb, Z.ltb_ge. lia. Qed.

(* what the early exit of _purge relies on *)
Lemma drop_not_expired maxAge now w : asc w ->
  forall e, In e (drop_expired maxAge now w) -> expired maxAge now e = false.
Proof.
  induction w as [|x w IH]; cbn [drop_expired asc]; [intros _ e []|].
  intros [H1 H2] e. destruct (expired maxAge now x) eqn:Ex; [apply IH; exact H2|].
  intros [<-|Hin]; [exact Ex|].
  apply expired_false. apply expired_false in Ex. specialize (H1 e Hin). lia.
Qed.

Lemma asc_app_one w e : asc w -> (forall x, In x w -> wts x <= wts e) -> asc (w ++ [e]).
Proof.
  induction w as [|x w IH]; cbn [app asc]; intros Ha Hle.
  - split; [intros e' []|exact I].
  - destruct Ha as [H1 H2]. split.
    + intros e' Hin. apply in_app_or in Hin. destruct Hin as [Hin|[<-|[]]]; [apply H1; exact Hin|apply Hle; left; reflexivity].
    + apply IH; [exact H2|]. intros y Hy. apply Hle. right. exact Hy.
Qed.

(* w: the window, t: the clock.  The window is the newest part of the log; an entry of the rest `old`
   that the capacity would still admit is expired. *)
Inductive Rel (n maxAge : Z) (w : list went) (log : slog) (t : Z) : Prop :=
  rel old (LOG : log = rev w ++ old) (ASC : asc w) (NOW : forall e, In e w -> wts e <= t)
      (OLD : forall k e, nth_error old k = Some e -> zlen w + Z.of_nat k < n - 1 -> t - wts e > maxAge).

Lemma rel_asc n maxAge w log t : Rel n maxAge w log t -> asc w.
Proof. intros [old LOG ASC NOW OLD]. exact ASC. Qed.

Lemma rel_mono n maxAge w log t now : Rel n maxAge w log t -> t <= now -> Rel n maxAge w log now.
Proof.
  intros [old LOG ASC NOW OLD] Ht. apply (rel _ _ _ _ _ old LOG ASC).
  - intros e Hin. specialize (NOW e Hin). lia.
  - intros k e Hk Hc. specialize (OLD k e Hk Hc). lia.
Qed.

Lemma rel_tail n maxAge e w log t : Rel n maxAge (e :: w) log t ->
  expired maxAge t e = true \/ n - 1 <= zlen w -> Rel n maxAge w log t.
Proof.
  intros [old -> [_ ASC] NOW OLD] Hgo. apply (rel _ _ _ _ _ (e :: old)).
  - cbn [rev]. rewrite <- app_assoc. reflexivity.
  - exact ASC.
  - intros x Hx. apply NOW. right. exact Hx.
  - intros [|k] x Hk Hcap; cbn [nth_error] in Hk.
    + inversion Hk; subst x. destruct Hgo as [Hx|Hfull]; [apply expired_true; exact Hx|lia].
    + apply (OLD k x Hk). rewrite zlen_cons. lia.
Qed.

Lemma rel_purge n maxAge now log : forall w, Rel n maxAge w log now ->
  Rel n maxAge (drop_expired maxAge now w) log now.
Proof.
  induction w as [|e w IH]; intros Hr; cbn [drop_expired]; [exact Hr|].
  destruct (expired maxAge now e) eqn:E; [|exact Hr].
  exact (IH (rel_tail _ _ _ _ _ _ Hr (or_introl E))).
Qed.

Lemma rel_put n maxAge w log e : Rel n maxAge w log (wts e) ->
  Rel n maxAge (push_evict n w e) (e :: log) (wts e).
Proof.
  intros [old -> ASC NOW OLD].
  assert (Rel n maxAge (w ++ [e]) (e :: rev w ++ old) (wts e)) as Hp.
  { apply (rel _ _ _ _ _ old).
    - rewrite rev_unit. reflexivity.
    - apply asc_app_one; [exact ASC|exact NOW].
    - intros x Hin. apply in_app_or in Hin. destruct Hin as [Hin|[<-|[]]]; [exact (NOW x Hin)|lia].
    - intros k x Hk Hcap. apply (OLD k x Hk). rewrite zlen_app in Hcap. pose proof (zlen_nonneg [e]). lia. }
  unfold push_evict. revert Hp. generalize (w ++ [e]). intros [|e0 w0] Hp; [destruct (zlen (@nil went) <? n); exact Hp|].
  destruct (zlen (e0 :: w0) <? n) eqn:E; [exact Hp|]. cbn [tl].
  apply (rel_tail _ _ _ _ _ _ Hp). right. rewrite zlen_cons in E. lia.
Qed.

Lemma find_newest_some id log k0 k s ts : find_newest id log k0 = Some (k, s, ts) ->
  exists j, k = k0 + Z.of_nat j /\ nth_error log j = Some (id, s, ts).
Proof.
  revert k0. induction log as [|[[a b] c] log IH]; intros k0; cbn [find_newest]; [discriminate|].
  destruct (id =? a) eqn:E.
  - apply Z.eqb_eq in E. intros H. inversion H; subst. exists O. split; [cbn; lia|reflexivity].
  - intros H. destruct (IH _ H) as [j [Hk Hj]]. exists (S j). split; [lia|exact Hj].
Qed.

Lemma find_newest_app id a b k0 :
  find_newest id (a ++ b) k0 =
  match find_newest id a k0 with Some r => Some r | None => find_newest id b (k0 + zlen a) end.
Proof.
  revert k0. induction a as [|[[x y] z] a IH]; intros k0; cbn [app find_newest].
  - rewrite zlen_nil, Z.add_0_r. reflexivity.
  - destruct (id =? x); [reflexivity|]. rewrite IH. rewrite zlen_cons.
    destruct (find_newest id a (k0 + 1)); [reflexivity|]. f_equal. lia.
Qed.

Lemma find_newest_rev id (w : list went) k0 :
  find_newest id (rev w) k0 =
  option_map (fun p => (k0 + zlen w - 1 - Z.of_nat (fst p), wsess (snd p), wts (snd p))) (wlast id w).
Proof.
  induction w as [|e w IH]; [reflexivity|].
  cbn [rev wlast]. rewrite find_newest_app, IH, zlen_cons.
  destruct (wlast id w) as [[j x]|]; cbn [option_map fst snd].
  - do 3 f_equal. lia.
  - destruct e as [[a b] c]. cbn [find_newest wid fst]. destruct (id =? a); [|reflexivity].
    cbn [option_map fst snd Z.of_nat]. do 3 f_equal. unfold zlen. rewrite rev_length. lia.
Qed.

Lemma spec_get_agrees n maxAge w log now inv id :
  Rel n maxAge w log now -> zlen w <= n - 1 ->
  (forall e, In e w -> expired maxAge now e = false) ->
  spec_get n maxAge log inv id now =
  match wlast id w with
  | None => OExc KeyError
  | Some (_, e) => if valid_in inv (wsess e) then ORet (Some (wsess e)) else OExc KeyError
  end.
Proof.
  intros [old -> ASC NOW OLD] Hlen Hfresh. unfold spec_get, capacity.
  rewrite find_newest_app, find_newest_rev.
  destruct (wlast id w) as [[j e]|] eqn:Hl; cbn [option_map fst snd].
  - pose proof (Hfresh e (nth_error_In _ _ (proj1 (wlast_nth _ _ _ _ Hl)))) as Hx. apply expired_false in Hx.
    rewrite (proj2 (Z.leb_le _ _)), (proj2 (Z.ltb_lt _ _)) by lia. reflexivity.
  - unfold zlen at 1. rewrite rev_length. fold (zlen w).
    destruct (find_newest id old (0 + zlen w)) as [[[k s] ts]|] eqn:Hf; [|reflexivity].
    destruct (find_newest_some _ _ _ _ _ _ Hf) as [j [Hk Hj]].
    destruct (k <? n - 1) eqn:E2; [|rewrite andb_false_r; reflexivity].
    assert (now - wts (id, s, ts) > maxAge) as Hx by (eapply OLD; [exact Hj|lia]).
    cbn [wts snd] in Hx. rewrite (proj2 (Z.leb_gt _ _)) by lia. reflexivity.
Qed.

(* a lookup meets the window as _purge leaves it: nothing in it is expired *)
Lemma getitem_ok n maxAge c w log inv id now : Rep n maxAge c w -> Rel n maxAge w log now ->
  exists c', getitem c (valid_in inv) id now = (c', spec_get n maxAge log inv id now) /\
             Rep n maxAge c' (drop_expired maxAge now w).
Proof.
  intros Hrep Hrel. destruct (purge_ok n maxAge c w now Hrep) as [c' [E Hrep']].
  exists c'. split; [|exact Hrep'].
  unfold getitem. rewrite E. cbv beta iota. rewrite (win_dict (rep_win Hrep')).
  rewrite (spec_get_agrees n maxAge _ log now inv id (rel_purge n maxAge now log w Hrel) (rep_len Hrep')
             (drop_not_expired maxAge now w (rel_asc _ _ _ _ _ Hrel))).
  destruct (wlast id (drop_expired maxAge now w)) as [[j e]|]; cbn [option_map fst snd]; [|reflexivity].
  destruct (valid_in inv (wsess e)); reflexivity.
Qed.

Lemma exec_cons w now o h :
  exec w ((now, o) :: h) =
  (fst (exec (fst (apply w now o)) h), snd (apply w now o) :: snd (exec (fst (apply w now o)) h)).
Proof.
  cbn [exec]. destruct (apply w now o) as [w1 r]. cbn [fst snd].
  destruct (exec w1 h) as [w2 rs]. reflexivity.
Qed.

Lemma spec_exec_cons n maxAge st now o h :
  spec_exec n maxAge st ((now, o) :: h) =
  snd (spec_apply n maxAge st now o) :: spec_exec n maxAge (fst (spec_apply n maxAge st now o)) h.
Proof. cbn [spec_exec]. destruct (spec_apply n maxAge st now o) as [st1 r]. reflexivity. Qed.

(* The invariant the age test of _purge relies on ("elements in list are ordered in time, we can
   break once we reach the first non-expired element"): after every history with a monotone clock the
   live slots of the circular list, read from firstIndex to lastIndex, carry non-decreasing
   timestamps.  It holds because every store stamps its slot with the clock value of its own position
   in the history, i.e. because the clock is read at the linearization point. *)
Definition live_slots_sorted (c : cache) : Prop :=
  exists w : list went,
    zlen w <= zlen (c_list c) - 1 /\
    c_last c = (c_first c + zlen w) mod zlen (c_list c) /\
    (forall j e, nth_error w j = Some e ->
       nth_error (c_list c) (Z.to_nat ((c_first c + Z.of_nat j) mod zlen (c_list c))) = Some (Some (wid e, wts e))) /\
    asc w.

Section Histories.
  Variables n maxAge : Z.
  Hypothesis Hn : 1 <= n.

  Inductive Sim (wd : world) (st : sstate) (t : Z) : Prop :=
    sim w : s_invalid st = w_invalid wd -> Rep n maxAge (w_cache wd) w -> Rel n maxAge w (s_log st) t -> Sim wd st t.

  Lemma apply_sim wd st t now o : Sim wd st t -> t <= now ->
    snd (apply wd now o) = snd (spec_apply n maxAge st now o) /\
    Sim (fst (apply wd now o)) (fst (spec_apply n maxAge st now o)) now.
  Proof.
    intros [w Hi Hrep Hrel] Ht. apply (fun H => rel_mono _ _ _ _ _ now H Ht) in Hrel.
    destruct o as [id|id s| |s b]; cbn [apply spec_apply].
    - destruct (getitem_ok n maxAge _ w _ (w_invalid wd) id now Hrep Hrel) as [c' [E Hrep']].
      rewrite E, Hi. split; [reflexivity|]. econstructor; [exact Hi|exact Hrep'|exact (rel_purge _ _ _ _ _ Hrel)].
    - destruct (setitem_ok n maxAge _ w (id, s, now) Hn Hrep) as [c' [E Hrep']]. cbn [wid wsess wts fst snd] in E.
      rewrite E. split; [reflexivity|]. econstructor; [exact Hi|exact Hrep'|exact (rel_put n maxAge w _ (id, s, now) Hrel)].
    - destruct (purge_ok n maxAge _ w now Hrep) as [c' [E Hrep']].
      rewrite E. split; [reflexivity|]. econstructor; [exact Hi|exact Hrep'|exact (rel_purge _ _ _ _ _ Hrel)].
    - split; [reflexivity|]. econstructor; [cbn [fst s_invalid w_invalid]; rewrite Hi; reflexivity|exact Hrep|exact Hrel].
  Qed.

  Lemma exec_sim : forall h wd st t, Sim wd st t -> monotone_from t h ->
    snd (exec wd h) = spec_exec n maxAge st h /\ exists st' t', Sim (fst (exec wd h)) st' t'.
  Proof.
    induction h as [|[now o] h IH]; intros wd st t Hs Hm; [split; eauto|].
    destruct Hm as [Ht Hm]. destruct (apply_sim wd st t now o Hs Ht) as [Ho Hs'].
    destruct (IH _ _ _ Hs' Hm) as [IH1 IH2].
    rewrite exec_cons, spec_exec_cons, Ho, IH1. split; [reflexivity|exact IH2].
  Qed.

  Lemma sim_size wd st t : Sim wd st t -> zlen (c_dict (w_cache wd)) <= n - 1.
  Proof. intros [w _ Hrep _]. exact (rep_dict_size _ _ _ _ Hrep). Qed.

  Lemma sim_sorted wd st t : Sim wd st t -> live_slots_sorted (w_cache wd).
  Proof.
    intros [w _ Hrep Hrel]. exists w. pose proof (rep_win Hrep) as Hw. rewrite (win_size Hw).
    exact (conj (rep_len Hrep) (conj (win_last Hw) (conj (win_slots Hw) (rel_asc _ _ _ _ _ Hrel)))).
  Qed.

  Lemma init_sim t : Sim (init_world n maxAge) {| s_log := []; s_invalid := [] |} t.
  Proof.
    apply (sim _ _ _ []); [reflexivity|exact (init_rep n maxAge Hn)|].
    apply (rel _ _ _ _ _ []); [reflexivity|exact I|intros e []|intros [|k] e Hk; discriminate].
  Qed.

  Lemma exec_init h : monotone h ->
    outcomes n maxAge h = spec_outcomes n maxAge h /\
    exists st t, Sim (fst (exec (init_world n maxAge) h)) st t.
  Proof.
    intros Hm. assert (exists t, monotone_from t h) as [t Ht].
    { destruct h as [|[t o] h]; [exists 0; exact I|]. exists t. split; [lia|exact Hm]. }
    exact (exec_sim h _ _ t (init_sim t) Ht).
  Qed.
End Histories.

Lemma spec_documented n maxAge : forall h st, all_documented h (spec_exec n maxAge st h) = true.
Proof.
  induction h as [|[now o] h IH]; intros st; [reflexivity|].
  rewrite spec_exec_cons. cbn [all_documented]. rewrite IH, andb_true_r.
  destruct o as [id|id s| |s b]; cbn [spec_apply snd documented]; try reflexivity.
  unfold spec_get. destruct (find_newest id (s_log st) 0) as [[[k s] ts]|]; [|reflexivity].
  destruct ((now - ts <=? maxAge) && (k <? capacity n) && valid_in (s_invalid st) s); reflexivity.
Qed.
