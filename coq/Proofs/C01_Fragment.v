(* Fragmentation (TLSRecordLayer._sendMsg): the fragments concatenate to the data and respect the limit.
   [split_fuel] is the loop of Model/C14_Fragment.v written with the test the other way round; the facts
   about the loop are those of Proofs/C14_Fragment.v. *)
From Coq Require Import ZArith List Lia.
From TV Require Import Base.Prelude Base.PreludeFacts Model.C14_Fragment Proofs.C14_Fragment
  Model.C01_RecordPipe Proofs.C01_Lists.
Import ListNotations.
Open Scope Z_scope.

Lemma split_fuel_fragment_fuel fuel lim : forall buf, split_fuel fuel lim buf = fragment_fuel fuel lim buf.
Proof.
  induction fuel as [|f IH]; intros buf; cbn [split_fuel fragment_fuel]; [reflexivity|].
  rewrite Z.gtb_ltb, IH. reflexivity.
Qed.

Lemma split_concat lim buf : concat (split lim buf) = buf.
Proof. unfold split. rewrite split_fuel_fragment_fuel. apply fragment_fuel_concat. Qed.

Lemma split_sizes lim buf : 1 <= lim ->
  Forall (fun f => zlen f <= lim /\ (buf <> [] -> f <> [])) (split lim buf).
Proof.
  intros Hl. unfold split. rewrite split_fuel_fragment_fuel.
  eapply Forall_impl; [|apply fragment_fuel_sizes, Hl]. intros r [Hle Hpos]. split; [apply Hle; lia|].
  intros Hne ->. specialize (Hpos Hne). rewrite zlen_nil in Hpos. lia.
Qed.

Lemma concat_fragment beast lim data : concat (fragment beast lim data) = data.
Proof.
  unfold fragment. destruct beast; [|apply split_concat].
  cbn [concat]. destruct (zlen (zdrop 1 data) =? 0) eqn:E.
  - apply Z.eqb_eq in E. apply zlen_0_nil in E. cbn [concat]. rewrite app_nil_r.
    rewrite <- (ztake_zdrop 1 data) at 2. rewrite E, app_nil_r. reflexivity.
  - rewrite split_concat. apply ztake_zdrop.
Qed.

Lemma fragment_sizes beast lim data : 1 <= lim ->
  Forall (fun f => zlen f <= lim /\ (data <> [] -> f <> [])) (fragment beast lim data).
Proof.
  intros H. unfold fragment. destruct beast; [|apply split_sizes, H]. constructor.
  - split; [rewrite zlen_ztake_eq; lia|]. destruct data; [congruence|discriminate].
  - destruct (zlen (zdrop 1 data) =? 0) eqn:E; [constructor|].
    eapply Forall_impl; [|apply split_sizes, H]. intros f [Hle Hne]. split; [exact Hle|].
    intros _. apply Hne. intros H0. rewrite H0 in E. discriminate.
Qed.

(* the 1/n-1 split *)
Lemma fragment_beast_head lim data : data <> [] ->
  exists b rest, data = b :: rest /\ hd [] (fragment true lim data) = [b].
Proof. intros H. destruct data as [|b rest]; [congruence|]. exists b, rest. split; reflexivity. Qed.

Lemma record_size_le user sl : record_size user sl <= sl /\ record_size user sl <= user.
Proof. unfold record_size. lia. Qed.
