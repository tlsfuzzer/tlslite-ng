(* C19 -- idempotence of validate(): the result of a successful call lies again inside the documented
   domains, and the four filters have nothing left to remove *)
From Coq Require Import ZArith List Bool Lia.
From TV Require Import Base.Prelude Model.C19_Settings Spec.C19_Domain Proofs.C19_Frame Proofs.C19_Pure
                       Proofs.C19_Facts Proofs.C19_Normal Proofs.C19_Domain.
Import ListNotations.
Open Scope Z_scope.

Lemma res_unit_ok (m : res unit) y : m = Ok y -> m = Ok tt.
Proof. destruct y. auto. Qed.

Lemma val_in_clipped lo hi l a b :
  val_in (VPair a b) (filter (pair_in_range lo hi) l) = val_in (VPair a b) l && in_range lo hi a b.
Proof.
  unfold val_in. induction l as [|x xs IH]; [reflexivity|]. cbn [filter existsb].
  destruct x as [| | | |a0 b0| | |]; cbn [pair_in_range py_eq orb]; try exact IH.
  destruct ((a =? a0) && (b =? b0)) eqn:Eq.
  - apply andb_true_iff in Eq. destruct Eq as [E1 E2]. apply Z.eqb_eq in E1. apply Z.eqb_eq in E2. subst a0 b0.
    cbn [orb andb]. destruct (in_range lo hi a b); [cbn [existsb py_eq]; rewrite !Z.eqb_refl; reflexivity|].
    rewrite IH. apply andb_false_r.
  - cbn [orb]. destruct (in_range lo hi a0 b0); [cbn [existsb py_eq]; rewrite Eq|]; exact IH.
Qed.

Lemma in_range_34_33 lo hi : in_range lo hi 3 4 = true -> ver_le lo (3, 3) = true -> in_range lo hi 3 3 = true.
Proof.
  unfold in_range, ver_le, ver_lt. destruct lo as [l1 l2], hi as [h1 h2]. cbn [fst snd].
  intros H L. apply andb_true_iff in H. destruct H as [_ H]. rewrite L. cbn [andb].
  apply negb_true_iff in H. apply negb_true_iff. apply orb_false_iff in H. destruct H as [H1 H2].
  rewrite H1. cbn [orb]. destruct (h1 =? 3) eqn:E; [|reflexivity]. cbn [andb] in *.
  apply Z.ltb_ge in H2. apply Z.ltb_ge. lia.
Qed.

Lemma clip_lo_le c : ver_le (clip_lo c) (3, 3) = true.
Proof.
  unfold clip_lo. destruct (ver_lt (3, 3) c) eqn:E; [reflexivity|]. unfold ver_le. rewrite E. reflexivity.
Qed.

(* validate() evaluates the rule of _sanityCheckECDHSettings (TLS 1.3 enabled without TLS 1.2 => only RFC 8446
   groups; P is that conclusion) on `versions` BEFORE clipping it.  The rule still holds of the clipped list: the
   lower clip bound never exceeds (3,3), so clipping cannot remove (3,3) and keep (3,4).  Under /repo f81c02a
   alone (bound = minVersion) it could. *)
Lemma clip_stable_ok c l (P : bool) :
  (if negb (val_in (VPair 3 3) l) && val_in (VPair 3 4) l then P else true) = true ->
  (if negb (val_in (VPair 3 3) (filter (clip c) l)) && val_in (VPair 3 4) (filter (clip c) l) then P else true) = true.
Proof.
  intros R. unfold clip. rewrite !val_in_clipped.
  destruct (val_in (VPair 3 4) l); [|rewrite andb_false_r; reflexivity].
  destruct (in_range _ _ 3 4) eqn:R34; [|rewrite !andb_false_r; reflexivity].
  rewrite (in_range_34_33 _ _ R34 (clip_lo_le _)), !andb_true_r in *. exact R.
Qed.

Lemma in_domain_output T I v c :
  List.length v = NF -> in_domain T (v, c) = true -> something_supported I (v, c) = true ->
  in_domain T (output I c v, c) = true.
Proof.
  intros Len D S. rewrite in_domain_iff in *. intros d. specialize (D d).
  unfold something_supported, VG in S. cbn [fst] in S. apply andb_prop in S. destruct S as [S3 S0].
  destruct d; unfold dom, VG, VS in *; cbn [fst snd] in *;
    rewrite ?nth_output by exact Len; simpl Nat.eqb; cbv iota; try exact D.
  - (* D_cipherNames *) rewrite S0. apply andb_prop in D. apply forallb_filter, D.
  - (* D_macNames *) apply forallb_filter, D.
  - (* D_cipherImplementations *) rewrite S3. apply andb_prop in D. apply forallb_filter, D.
  - (* D_eccCurves, which reads `versions` *) apply andb_prop in D. destruct D as [D1 D2]. rewrite D1. apply (clip_stable_ok c _ _ D2).
Qed.

Lemma something_supported_output I v c :
  List.length v = NF -> something_supported I (v, c) = true -> something_supported I (output I c v, c) = true.
Proof.
  intros Len S. unfold something_supported, VG in *. cbn [fst] in *.
  rewrite !nth_output by exact Len. simpl Nat.eqb. cbv iota. rewrite !filter_idem. exact S.
Qed.

Lemma output_fix I c v : List.length v = NF -> output I c (output I c v) = output I c v.
Proof.
  intros Len. unfold output at 1. set (w := output I c v).
  assert (K : forall k x, nth k w [] = x -> lupd w k x = w) by (intros k x <-; apply lupd_same).
  rewrite !K; [reflexivity|..]; unfold w; rewrite nth_output by exact Len; symmetry; apply filter_idem.
Qed.

Theorem cvalidate_idem T I v c v' :
  List.length v = NF -> cvalidate T I v c = Ok v' -> cvalidate T I v' c = Ok v'.
Proof.
  intros Len H. apply (cvalidate_Ok T I v c v' Len) in H. destruct H as [B ->]. split_andb.
  apply cvalidate_Ok; [rewrite output_length; exact Len|]. split; [|symmetry; apply output_fix; exact Len].
  rewrite in_domain_output, something_supported_output, nth_output by assumption.
  rewrite !andb_true_r. apply forallb_filter. assumption.
Qed.
