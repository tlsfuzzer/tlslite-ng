(* C07 -- Spec/C07_NegotiateRFC.v: what the two searches (first_common, highest_such) return, and
   spec_negotiate against `common`: it succeeds only where something usable is common (sound) and
   wherever it is (complete). *)
From Coq Require Import ZArith List Bool Lia.
From TV Require Import Spec.C07_NegotiateRFC.
Import ListNotations.
Open Scope Z_scope.

Lemma mem_In x l : mem x l = true <-> In x l.
Proof.
  unfold mem. rewrite existsb_exists. split.
  - intros [y [Hy E]]. apply Z.eqb_eq in E. subst. exact Hy.
  - intros H. exists x. split; [exact H|apply Z.eqb_refl].
Qed.

Lemma first_common_some pref other ok x :
  first_common pref other ok = Some x -> In x pref /\ In x other /\ ok x = true.
Proof.
  induction pref as [|y t IH]; cbn [first_common]; [discriminate|].
  destruct (mem y other && ok y) eqn:E.
  - intros H. injection H as <-. apply andb_true_iff in E. destruct E as [A B].
    split; [left; reflexivity|]. split; [apply mem_In; exact A|exact B].
  - intros H. destruct (IH H) as [A B]. split; [right; exact A|exact B].
Qed.

Lemma first_common_exists pref other ok x :
  In x pref -> In x other -> ok x = true -> exists y, first_common pref other ok = Some y.
Proof.
  induction pref as [|y t IH]; cbn [first_common In]; intros Hx Ho Hk; [destruct Hx|].
  destruct (mem y other && ok y) eqn:E; [eexists; reflexivity|].
  destruct Hx as [->|Hx]; [|exact (IH Hx Ho Hk)].
  apply mem_In in Ho. rewrite Ho, Hk in E. discriminate E.
Qed.

(* the left side is the form in which `feasible` and `version_ok` test the search *)
Lemma first_common_found pref other ok :
  match first_common pref other ok with Some _ => true | None => false end = true <->
  exists x, In x other /\ In x pref /\ ok x = true.
Proof.
  split.
  - destruct (first_common pref other ok) as [x|] eqn:E; [intros _|discriminate].
    apply first_common_some in E as (A & B & C). exists x. auto.
  - intros (x & A & B & C). destruct (first_common_exists _ _ _ x B A C) as [y ->]. reflexivity.
Qed.

(* highest_such seen from its last step: no accumulator to generalise *)
Lemma highest_such_snoc p a v :
  highest_such p (a ++ [v]) =
  if p v then Some (match highest_such p a with Some m => Z.max m v | None => v end) else highest_such p a.
Proof.
  unfold highest_such. rewrite fold_left_app. cbn [fold_left]. destruct (p v), (fold_left _ a None); reflexivity.
Qed.

Lemma highest_such_spec p a :
  match highest_such p a with
  | Some m => In m a /\ p m = true /\ (forall w, In w a -> p w = true -> w <= m)
  | None => forall w, In w a -> p w = true -> False end.
Proof.
  induction a as [|v a IH] using rev_ind; [intros w []|]. rewrite highest_such_snoc.
  assert (S : forall w, In w (a ++ [v]) <-> In w a \/ w = v)
    by (intros w; rewrite in_app_iff; cbn [In]; intuition).
  destruct (p v) eqn:M, (highest_such p a) as [m|].
  - destruct IH as (A & B & C). split; [|split].
    + apply S. destruct (Z.max_spec m v) as [[_ ->]|[_ ->]]; auto.
    + destruct (Z.max_spec m v) as [[_ ->]|[_ ->]]; assumption.
    + intros w Hw Hp. apply S in Hw. destruct Hw as [Hw| ->]; [specialize (C w Hw Hp)|]; lia.
  - split; [apply S; auto|]. split; [exact M|].
    intros w Hw Hp. apply S in Hw. destruct Hw as [Hw| ->]; [destruct (IH w Hw Hp)|lia].
  - destruct IH as (A & B & C). split; [apply S; auto|]. split; [exact B|].
    intros w Hw Hp. apply S in Hw. destruct Hw as [Hw| ->]; [exact (C w Hw Hp)|congruence].
  - intros w Hw Hp. apply S in Hw. destruct Hw as [Hw| ->]; [exact (IH w Hw Hp)|congruence].
Qed.

Lemma first_common_any pref other :
  match first_common pref other (fun _ => true) with Some _ => true | None => false end = true <->
  exists x, In x other /\ In x pref.
Proof. rewrite first_common_found. split; [intros (x & A & B & _)|intros (x & A & B)]; eauto. Qed.

Lemma or_false_imp (b : bool) (Q : Prop) : b = false \/ Q <-> (b = true -> Q).
Proof. destruct b; intuition discriminate. Qed.

Lemma feasible_spec env c s v suite : feasible env c s v suite = true <->
  usable env v suite = true /\
  (needs_group env suite = true -> exists g, In g (cf_groups c) /\ In g (cf_groups s)) /\
  (needs_sig env v suite = true -> exists sg, In sg (cf_sigs c) /\ In sg (cf_sigs s) /\ sig_fits env v sg = true).
Proof.
  unfold feasible.
  rewrite !andb_true_iff, !orb_true_iff, !negb_true_iff, first_common_any, first_common_found, !or_false_imp, and_assoc.
  reflexivity.
Qed.

Lemma version_ok_in_server env c s v : version_ok env c s v = true ->
  In v (cf_versions s).
Proof. unfold version_ok. rewrite andb_true_iff, mem_In. intros [A _]. exact A. Qed.

(* a choice of spec_negotiate read off its definition *)
Set Implicit Arguments.
Record chosen (env : Env) (c s : Cfg) (ch : Choice) : Prop := {
  cs_version : In (co_version ch) (cf_versions c);
  cs_version_ok : version_ok env c s (co_version ch) = true;
  cs_highest : forall w, In w (cf_versions c) -> version_ok env c s w = true -> w <= co_version ch;
  cs_suite_c : In (co_suite ch) (cf_suites c);
  cs_suite_s : In (co_suite ch) (cf_suites s);
  cs_feasible : feasible env c s (co_version ch) (co_suite ch) = true;
  cs_group : co_group ch = if needs_group env (co_suite ch)
                           then first_common (cf_groups s) (cf_groups c) (fun _ => true) else None;
  cs_sig : co_sig ch = if needs_sig env (co_version ch) (co_suite ch)
                       then first_common (cf_sigs s) (cf_sigs c) (sig_fits env (co_version ch)) else None;
  cs_alpn : forall p, co_alpn ch = Some p ->
            exists a b, cf_alpn c = Some a /\ cf_alpn s = Some b /\ In p a /\ In p b;
  cs_alpn_found : forall a b, cf_alpn c = Some a -> cf_alpn s = Some b -> co_alpn ch <> None }.
Unset Implicit Arguments.
(* &: the record's parameters are read off the goal before the fields of `{| cs_version := .. |}` are checked *)
Arguments Build_chosen {env c s ch} &.

Lemma spec_negotiate_some {env c s ch} : spec_negotiate env c s = Some ch -> chosen env c s ch.
Proof.
  unfold spec_negotiate. pose proof (highest_such_spec (version_ok env c s) (cf_versions c)) as HV.
  destruct (highest_such _ _) as [v|]; [|discriminate]. destruct HV as [V1 [V2 V3]].
  destruct (first_common (cf_suites s) _ _) as [suite|] eqn:ES; [|discriminate].
  apply first_common_some in ES. destruct ES as [S1 [S2 F]].
  destruct (cf_alpn c) as [a|] eqn:EA, (cf_alpn s) as [b|] eqn:EB;
    [destruct (first_common b a _) as [q|] eqn:EP; [|discriminate]| | |];
    intros H; injection H as <-;
    refine {| cs_version := V1; cs_version_ok := V2; cs_highest := V3; cs_suite_c := S2; cs_suite_s := S1;
              cs_feasible := F; cs_group := eq_refl; cs_sig := eq_refl; cs_alpn := _; cs_alpn_found := _ |};
    cbn [co_alpn].
  1: { intros p E. injection E as <-. apply first_common_some in EP as [Ib [Ia _]].
       exists a, b. split; [exact EA|]. split; [exact EB|]. split; [exact Ia|exact Ib]. }
  (* left: the choice has a protocol where both sides list some, and none where one side lists none *)
  all: congruence.
Qed.

Lemma spec_negotiate_sound {env c s ch} : spec_negotiate env c s = Some ch -> common env c s.
Proof.
  intros H. pose proof (spec_negotiate_some H) as R. split.
  - exists (co_version ch), (co_suite ch). destruct (proj1 (feasible_spec _ _ _ _ _) (cs_feasible R)) as [U [G Sg]].
    destruct R. repeat split; assumption.
  - intros a b A B. destruct (co_alpn ch) as [p|] eqn:E; [|destruct (cs_alpn_found R A B E)].
    destruct (cs_alpn R E) as [a' [b' [A' [B' P]]]]. exists p. congruence.
Qed.

Lemma spec_negotiate_complete {env c s} : common env c s -> exists ch, spec_negotiate env c s = Some ch.
Proof.
  intros [[v [suite [W1 [W2 [W3 [S1 [S2 [U [G Sg]]]]]]]]] AL]. unfold spec_negotiate.
  pose proof (highest_such_spec (version_ok env c s) (cf_versions c)) as HV.
  destruct (highest_such _ _) as [v'|]; [|destruct (HV v W1 W2)]. destruct HV as [V1 [V2 V3]].
  (* each of v, v' bounds the other *)
  assert (v' = v) by (specialize (V3 v W1 W2); specialize (W3 v' V1 V2); lia). subst v'.
  assert (F : feasible env c s v suite = true) by (apply feasible_spec; repeat split; assumption).
  destruct (first_common_exists _ _ _ suite S2 S1 F) as [x ->].
  destruct (cf_alpn c) as [a|], (cf_alpn s) as [b|]; try (eexists; reflexivity).
  destruct (AL a b eq_refl eq_refl) as [p [P1 P2]].
  destruct (first_common_exists b a (fun _ => true) p P2 P1 eq_refl) as [y ->]. eexists. reflexivity.
Qed.
