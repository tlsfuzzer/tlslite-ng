(* C19 -- validate() decides the documented domains: the conjunction of everything its checks test is
   in_domain, literally; acceptance, rejection and the exception class follow *)
From Coq Require Import ZArith List Bool.
From TV Require Import Base.Prelude Model.C19_Settings Spec.C19_Domain Proofs.C19_Pure Proofs.C19_Facts
                       Proofs.C19_Normal.
Import ListNotations.
Open Scope Z_scope.

Lemma not_allowed_len_true_or l ns b : not_allowed_len l ns = Ok b -> b = false -> forallb (fun x => has_len_in x ns) l = true.
Proof.
  intros H ->. pose proof (is_ok_len l ns (Ok tt)) as E. rewrite H, andb_true_r in E. symmetry. exact E.
Qed.

(* the few places where a check and its documented domain are written differently *)
Lemma isnil_filter_neither {A} (a b : A -> bool) l :
  isnil (filter (fun x => negb (a x) && negb (b x)) l) = forallb (fun x => a x || b x) l.
Proof. rewrite <- isnil_filter_negb. f_equal. apply filter_ext. intros x. symmetry. apply negb_orb. Qed.

Lemma dhParams_ok p :
  negb (dhParams_bad p) = match p with None | Some [] => true | Some [a; b] => is_int a && is_int b | Some _ => false end.
Proof. destruct p as [[|a [|b [|]]]|]; try reflexivity. cbn [dhParams_bad]. rewrite negb_orb, !negb_involutive. reflexivity. Qed.

(* a key that fits the selected cipher has one of the two lengths tested first *)
Lemma ticket_len_16_32 cipher l :
  forallb (fun x => has_len_in x [16; 32]) l && forallb (fun x => has_len_in x [ticket_key_len cipher]) l
  = forallb (fun x => has_len_in x [ticket_key_len cipher]) l.
Proof.
  destruct (forallb (fun x => has_len_in x [ticket_key_len cipher]) l) eqn:H; [|apply andb_false_r].
  rewrite andb_true_r, forallb_forall in *. intros x Hx. specialize (H x Hx). unfold has_len_in, ticket_key_len in *.
  destruct (py_len x) as [n|]; [|exact H]. cbn [existsb] in *.
  destruct (in_tab cipher aes128_ticket_ciphers); rewrite orb_false_r in H; rewrite H; [reflexivity|apply orb_true_r].
Qed.

Lemma record_size_ok (r : option Z) :
  negb match r with Some r => negb ((64 <=? r) && (r <=? 2 ^ 14 + 1)) | None => false end =
  match r with None => true | Some r => (64 <=? r) && (r <=? 2 ^ 14 + 1) end.
Proof. destruct r; [apply negb_involutive|reflexivity]. Qed.

Lemma table_decides {A} (p : A -> bool) (tbl : list (bool * list A)) :
  Forall (fun r => fst r = forallb p (snd r)) tbl -> forallb fst tbl = forallb p (flat_map snd tbl).
Proof. induction 1 as [|r t E _ IH]; [reflexivity|]. cbn [forallb flat_map]. rewrite forallb_app, E, IH. reflexivity. Qed.

(* which dimensions each block of checks of validate() enforces.  The tests for an empty certificateTypes (first
   statement of validate), cipherImplementations and cipherNames (its last two) stand with the name tables;
   the right-hand sides together are all_dims, in its order. *)
Definition enforced (T : tables) (v : list (list val)) (c : scalars) : list (bool * list dim) :=
  [(is_ok (sanityCheckKeySizes v c), [D_keySizes; D_virtual_hosts]);
   (is_ok (sanityCheckPrimitivesNames T v c) && negb (isnil (nth F_certificateTypes v []))
    && negb (isnil (nth F_cipherNames v [])) && negb (isnil (nth F_cipherImplementations v [])),
    [D_cipherNames; D_macNames; D_keyExchangeNames; D_cipherImplementations; D_certificateTypes; D_eccCurves;
     D_defaultCurve; D_dhGroups; D_keyShares; D_sigHashes; D_sigAlgsPresent; D_dhParams]);
   (is_ok (sanityCheckProtocolVersions_raises T c), [D_versionRange]);
   (is_ok (sanityCheckExtensions T v c),
    [D_flags; D_heartbeat; D_EMS; D_record_size_limit; D_ec_point_formats; D_dc_sig_algs; D_dc_valid_time;
     D_compression]);
   (is_ok (sanityCheckPsks T v), [D_pskConfigs; D_psk_modes]);
   (is_ok (sanityCheckTicketSettings T v c),
    [D_ticketCipher; D_ticketKeys; D_ticketLifetime; D_max_early_data; D_ticket_count])].

Lemma enforced_ok T v c : Forall (fun r => fst r = forallb (fun d => dom T d (v, c)) (snd r)) (enforced T v c).
Proof.
  repeat constructor; cbn [fst snd forallb dom]; unfold VG, VS, ver_le; cbn [fst snd].
  - unfold sanityCheckKeySizes. autorewrite with c19_ok. rewrite !Z.gtb_ltb, <- !Z.leb_antisym. same_atoms.
  - unfold sanityCheckPrimitivesNames, sanityCheckCipherSettings, sanityCheckDHSettings, sanityCheckECDHSettings.
    autorewrite with c19_ok. cbn [is_ok]. rewrite !negb_involutive, dhParams_ok, !isnil_filter_neither.
    rewrite (forallb_ext (fun x => in_tab x (t_all_dh T) || in_tab x (t_all_curves T))
                         (fun x => in_tab x (t_all_curves T) || in_tab x (t_all_dh T))) by (intros; apply orb_comm).
    same_atoms.
  - unfold sanityCheckProtocolVersions_raises. autorewrite with c19_ok. rewrite !negb_involutive. same_atoms.
  - unfold sanityCheckExtensions, sanityCheckEMSExtension, dc_sig_algs_forbidden. autorewrite with c19_ok.
    rewrite record_size_ok, !negb_involutive, Z.gtb_ltb, <- Z.leb_antisym, isnil_filter_negb. same_atoms.
  - unfold sanityCheckPsks. autorewrite with c19_ok. rewrite (negb_existsb bad_psk_hash), forallb_andb. same_atoms.
  - unfold sanityCheckTicketSettings. autorewrite with c19_ok.
    rewrite !negb_involutive, (andb_assoc (forallb _ _)), ticket_len_16_32. change (7 * 24 * 60 * 60) with 604800. same_atoms.
Qed.

Theorem checks_decide T v c :
  is_ok (cchecks_A T v c) && is_ok (sanityCheckExtensions T v c) && is_ok (cchecks_C T v c)
  && negb (isnil (nth F_cipherNames v [])) && negb (isnil (nth F_cipherImplementations v [])) = in_domain T (v, c).
Proof.
  unfold in_domain. change all_dims with (flat_map snd (enforced T v c)). rewrite <- (table_decides _ _ (enforced_ok T v c)).
  unfold cchecks_A, cchecks_C, enforced. rewrite !is_ok_then, is_ok_guard. cbn [forallb fst]. same_atoms.
Qed.

Lemma all_dims_complete d : In d all_dims.
Proof. destruct d; unfold all_dims; repeat first [left; reflexivity | right]. Qed.

Lemma in_domain_iff T v : in_domain T v = true <-> forall d, dom T d v = true.
Proof.
  unfold in_domain. rewrite forallb_forall. split; intros H d; [apply H, all_dims_complete|intros _; apply H].
Qed.

Theorem cvalidate_is_ok T I v c :
  List.length v = NF ->
  is_ok (cvalidate T I v c) =
  forallb is_pair (nth F_versions v []) && in_domain T (v, c) && something_supported I (v, c).
Proof.
  intros Len. rewrite (cvalidate_normal T I v c Len), <- checks_decide. autorewrite with c19_ok.
  rewrite is_ok_filter_range, (nonempty_filter (impl_available I)), (nonempty_filter (cipher_available I)).
  unfold something_supported, VG. cbn [fst is_ok]. same_atoms.
Qed.

Theorem cvalidate_Ok T I v c v' :
  List.length v = NF ->
  cvalidate T I v c = Ok v' <->
  forallb is_pair (nth F_versions v []) && in_domain T (v, c) && something_supported I (v, c) = true /\ v' = output I c v.
Proof.
  intros Len. rewrite <- (cvalidate_is_ok T I v c Len).
  pose proof (cvalidate_normal T I v c Len) as N. destruct (cvalidate T I v c) as [w|e]; cbn [is_ok].
  - (* a chain of checks that returns, returns what its last member does *)
    symmetry in N. do 6 apply then_Ok in N. injection N as <-.
    split; [intros [= ->]; auto|intros [_ ->]; reflexivity].
  - split; [discriminate|intros [H _]; discriminate H].
Qed.

Ltac only_chain :=
  repeat first [ apply only_bind; [|intros ?] | apply only_guard | apply only_known | apply only_ok
               | apply only_compression | apply only_if ].

Theorem cvalidate_only_VE T I v c : List.length v = NF -> typed (v, c) = true -> only_VE (cvalidate T I v c).
Proof.
  intros Len Ty. unfold typed, VG, VS in Ty. cbn [fst snd] in Ty. split_andb.
  rewrite (cvalidate_normal T I v c Len).
  unfold cchecks_A, sanityCheckKeySizes, sanityCheckPrimitivesNames, sanityCheckCipherSettings, sanityCheckDHSettings,
    sanityCheckECDHSettings, sanityCheckProtocolVersions_raises, sanityCheckExtensions, sanityCheckEMSExtension,
    cchecks_C, sanityCheckPsks, sanityCheckTicketSettings.
  only_chain.
  - apply only_vhosts. assumption.
  - apply only_filter_range. assumption.
  - apply (only_len is_tuple); [intros []; (discriminate || reflexivity)|assumption].
  - apply (only_len is_bytes); [intros []; (discriminate || reflexivity)|assumption].
  - apply (only_len is_bytes); [intros []; (discriminate || reflexivity)|assumption].
Qed.

Theorem cvalidate_typed T I v c :
  List.length v = NF -> typed (v, c) = true ->
  cvalidate T I v c = if in_domain T (v, c) && something_supported I (v, c) then Ok (output I c v) else Err ValueError.
Proof.
  intros Len Ty. pose proof (cvalidate_only_VE T I v c Len Ty) as VE.
  assert (forallb is_pair (nth F_versions v []) = true) as P by (unfold typed, VG in Ty; cbn [fst] in Ty; split_andb; assumption).
  pose proof (fun v' => cvalidate_Ok T I v c v' Len) as Acc. rewrite P, <- andb_assoc in Acc. cbn [andb] in Acc.
  destruct (in_domain T (v, c) && something_supported I (v, c)).
  - apply Acc. auto.
  - destruct (cvalidate T I v c) as [v'|e]; [destruct (proj1 (Acc v') eq_refl) as [B _]; discriminate B|].
    rewrite (VE e eq_refl). reflexivity.
Qed.
