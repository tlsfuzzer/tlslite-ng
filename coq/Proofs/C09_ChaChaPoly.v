(* ChaCha20-Poly1305 AEAD: generated code (Gen/C09_ChaChaPoly.v) = RFC 8439 2.8, and
   open accepts exactly the outputs of seal. *)
From Coq Require Import ZArith List Bool Lia.
From TV Require Import Base.Prelude Base.PreludeFacts Base.C09_Lib Gen.C09_Poly1305 Gen.C09_ChaCha Gen.C09_ChaChaPoly
  Spec.C09_Poly1305 Spec.C09_ChaCha Spec.C09_ChaChaPoly
  Proofs.C09_Lists Proofs.C09_Poly1305 Proofs.C09_ChaCha.
Import ListNotations.
Open Scope Z_scope.

Definition key_ok (key nonce : list Z) : Prop :=
  zlen key = 32 /\ all_bytes key = true /\ zlen nonce = 12 /\ all_bytes nonce = true.

(* message length within the 32-bit block counter (RFC 8439: at most 2^32-1 blocks after block 0) *)
Definition len_ok (pt : list Z) : Prop := 1 + (zlen pt + 63) / 64 <= 4294967296.

Lemma len_ok_mono a b : zlen a <= zlen b -> len_ok b -> len_ok a.
Proof.
  unfold len_ok. intros H Hb. assert ((zlen a + 63) / 64 <= (zlen b + 63) / 64) by (apply Z.div_le_mono; lia). lia.
Qed.

(* 18446744073709551616 is 2 ^ 64, written as pack_le64 has it *)
Lemma len_ok_lt pt : len_ok pt -> zlen pt < 18446744073709551616.
Proof.
  unfold len_ok. intros H. Z.div_mod_to_equations. lia.
Qed.

Lemma cp_poly1305_key_gen_ok key nonce : key_ok key nonce ->
  cp_poly1305_key_gen key nonce = Ok (poly1305_key_gen key nonce).
Proof.
  intros (Hk & Bk & Hn & Bn). unfold cp_poly1305_key_gen.
  rewrite cha_init_ok by assumption. rewrite bind_of_Ok.
  rewrite py_zeros_ok, bind_of_Ok by lia.
  change (Z.to_nat 32) with 32%nat.
  assert (Hz : zlen (repeat 0 32) = 32) by reflexivity.
  rewrite (cha_encrypt_ok key 0 nonce (repeat 0 32) Hk Hn Bk Bn).
  - rewrite bind_of_Ok. unfold chacha20_encrypt. rewrite Hz. change ((32 + 63) / 64) with 1.
    unfold chacha20_keystream. change (zrange 0 1) with [0]. cbn [flat_map]. rewrite app_nil_r.
    rewrite xor_zeros. rewrite Z.add_0_r. unfold poly1305_key_gen. reflexivity.
  - lia.
  - rewrite Hz. change ((32 + 63) / 64) with 1. lia.
  - apply all_bytes_repeat. reflexivity.
Qed.

Lemma cp_pad16_ok data : cp_pad16 data = Ok (pad16 data).
Proof.
  unfold cp_pad16, pad16. pose proof (Z.mod_pos_bound (zlen data) 16 eq_refl) as B.
  destruct (zlen data mod 16 =? 0) eqn:E.
  - apply Z.eqb_eq in E. rewrite E. reflexivity.
  - apply Z.eqb_neq in E. rewrite py_zeros_ok, bind_of_Ok by lia.
    rewrite (Z.mod_small (16 - zlen data mod 16)) by lia. reflexivity.
Qed.

Lemma pack_le64_ok n : 0 <= n < 18446744073709551616 -> pack_le64 n = Ok (le_bytes 8 n).
Proof.
  intros H. unfold pack_le64.
  destruct ((0 <=? n) && (n <? 18446744073709551616)) eqn:E; [reflexivity|lia].
Qed.

Lemma poly1305_key_gen_length key nonce : key_ok key nonce -> zlen (poly1305_key_gen key nonce) = 32.
Proof.
  intros (Hk & Bk & Hn & Bn). unfold poly1305_key_gen, zlen. rewrite firstn_length.
  rewrite chacha20_block_length by assumption. reflexivity.
Qed.

(* the MAC stage shared by seal and open; K is what each does with the tag *)
Lemma cp_mac_ok {B} key nonce aad ct (K : list Z -> res B) :
  key_ok key nonce -> zlen aad < 18446744073709551616 -> zlen ct < 18446744073709551616 ->
  (pa <- cp_pad16 aad ;; pc <- cp_pad16 ct ;; la <- pack_le64 (zlen aad) ;; lc <- pack_le64 (zlen ct) ;;
   p <- poly_init (poly1305_key_gen key nonce) ;; r <- poly_create_tag p ((((aad ++ pa) ++ ct ++ pc) ++ la) ++ lc) ;;
   K (snd r)) = K (aead_tag key nonce aad ct).
Proof.
  intros HK Ha Hc. pose proof (zlen_nonneg aad). pose proof (zlen_nonneg ct).
  rewrite !cp_pad16_ok, !bind_of_Ok, !pack_le64_ok, !bind_of_Ok by lia.
  replace ((((aad ++ pad16 aad) ++ ct ++ pad16 ct) ++ le_bytes 8 (zlen aad)) ++ le_bytes 8 (zlen ct))
    with (aead_mac_data aad ct) by (unfold aead_mac_data; rewrite <- !app_assoc; reflexivity).
  apply poly_tag_ok, poly1305_key_gen_length, HK.
Qed.

Lemma cp_seal_ok key nonce pt aad :
  key_ok key nonce -> all_bytes pt = true -> len_ok pt -> zlen aad < 18446744073709551616 ->
  cp_seal (mkChaChaPoly key) nonce pt aad = Ok (aead_seal key nonce pt aad).
Proof.
  intros HK Bp Lp La. pose proof HK as (Hk & Bk & Hn & Bn). pose proof (len_ok_lt pt Lp) as Hlt. unfold len_ok in Lp.
  unfold cp_seal. cbn [cp_key]. rewrite Hn. change (negb (12 =? 12)) with false. cbv iota.
  rewrite cp_poly1305_key_gen_ok by exact HK. rewrite bind_of_Ok.
  rewrite cha_init_ok by assumption. rewrite bind_of_Ok.
  rewrite cha_encrypt_ok by (try assumption; lia). rewrite bind_of_Ok.
  assert (Lc : zlen (chacha20_encrypt key 1 nonce pt) = zlen pt).
  { unfold zlen. rewrite chacha20_encrypt_length by assumption. reflexivity. }
  cbv zeta.
  rewrite (cp_mac_ok key nonce aad (chacha20_encrypt key 1 nonce pt)
             (fun tag => Ok (chacha20_encrypt key 1 nonce pt ++ tag))) by (assumption || lia).
  reflexivity.
Qed.

Lemma cp_open_ok key nonce c aad :
  key_ok key nonce -> all_bytes c = true -> len_ok c -> zlen aad < 18446744073709551616 ->
  cp_open (mkChaChaPoly key) nonce c aad = Ok (aead_open key nonce c aad).
Proof.
  intros HK Bc Lc La. pose proof HK as (Hk & Bk & Hn & Bn). pose proof (len_ok_lt c Lc) as Hlt.
  pose proof (zlen_nonneg c) as Hc.
  unfold cp_open, aead_open. cbn [cp_key]. rewrite Hn. change (negb (12 =? 12)) with false. cbv iota.
  destruct (zlen c <? 16) eqn:E16; [reflexivity|].
  cbv zeta. destruct (tag_slices c (proj1 (Z.ltb_ge _ _) E16)) as [-> ->].
  set (ct := firstn (length c - 16) c). set (tg := skipn (length c - 16) c).
  assert (Lct : zlen ct = zlen c - 16) by (unfold ct, zlen in *; rewrite firstn_length; lia).
  assert (Bct : all_bytes ct = true) by (apply all_bytes_firstn; exact Bc).
  pose proof (len_ok_mono ct c ltac:(lia) Lc) as Lc'. unfold len_ok in Lc'.
  rewrite cp_poly1305_key_gen_ok by exact HK. rewrite bind_of_Ok.
  rewrite (cp_mac_ok key nonce aad ct
             (fun tag => if negb (list_eqb tag tg) then Ok None else
                         t9_ <- cha_init key nonce 1 20 ;; t10_ <- cha_decrypt t9_ ct ;; Ok (Some t10_)))
    by (assumption || lia).
  destruct (list_eqb (aead_tag key nonce aad ct) tg); cbn [negb]; [|reflexivity].
  rewrite cha_init_ok by assumption. rewrite bind_of_Ok.
  rewrite cha_decrypt_is_encrypt, cha_encrypt_ok by (try assumption; lia). reflexivity.
Qed.

Lemma aead_tag_length key nonce aad ct : length (aead_tag key nonce aad ct) = 16%nat.
Proof. unfold aead_tag, poly1305. apply le_bytes_length. Qed.

Lemma aead_open_iff_seal_spec key nonce c aad p :
  key_ok key nonce ->
  (aead_open key nonce c aad = Some p <-> c = aead_seal key nonce p aad).
Proof.
  intros (Hk & Bk & Hn & Bn). unfold aead_open, aead_seal. split.
  - destruct (zlen c <? 16) eqn:E; [discriminate|].
    set (ct := firstn (length c - 16) c). set (tg := skipn (length c - 16) c).
    destruct (list_eqb (aead_tag key nonce aad ct) tg) eqn:Et; [|discriminate].
    apply list_eqb_spec in Et. intros H. injection H as <-.
    rewrite chacha20_decrypt_encrypt by assumption.
    rewrite Et. unfold ct, tg. symmetry. apply firstn_skipn.
  - intros ->. set (ct := chacha20_encrypt key 1 nonce p).
    destruct (tag_app ct _ (aead_tag_length key nonce aad ct)) as (-> & -> & ->).
    rewrite list_eqb_refl.
    unfold ct. rewrite chacha20_decrypt_encrypt by assumption. reflexivity.
Qed.

Lemma aead_seal_length key nonce p aad : key_ok key nonce ->
  length (aead_seal key nonce p aad) = (length p + 16)%nat.
Proof.
  intros (Hk & Bk & Hn & Bn). unfold aead_seal. rewrite app_length, aead_tag_length.
  rewrite chacha20_encrypt_length by assumption. reflexivity.
Qed.

Lemma aead_seal_bytes key nonce p aad : all_bytes p = true -> all_bytes (aead_seal key nonce p aad) = true.
Proof.
  intros Bp. unfold aead_seal. rewrite all_bytes_app. apply andb_true_iff. split.
  - unfold chacha20_encrypt. apply xor_bytes_all_bytes; [exact Bp|apply keystream_bytes].
  - unfold aead_tag, poly1305. apply le_bytes_all_bytes.
Qed.
