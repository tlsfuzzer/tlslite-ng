From Coq Require Import ZArith List Bool Lia.
From TV Require Import Base.Prelude Base.PreludeFacts Base.Bytes Base.C11_Lib.
Import ListNotations.
Open Scope Z_scope.

(* the shift-and-mask encoding (written so for evaluation) is the shared one *)
Lemma be_bytes_is_be k n : be_bytes k n = be k n.
Proof.
  revert n. induction k as [|k IH]; intros n; [reflexivity|].
  cbn [be_bytes be]. rewrite IH, land_255, Z.shiftr_div_pow2 by lia. reflexivity.
Qed.

Lemma be_bytes_zlen k n : zlen (be_bytes k n) = Z.of_nat k.
Proof. rewrite be_bytes_is_be. apply be_zlen. Qed.

Lemma be_bytes_all_bytes k n : all_bytes (be_bytes k n) = true.
Proof. rewrite be_bytes_is_be. apply be_all_bytes. Qed.

Lemma bytesToNumber_is_num : bytesToNumber = num.
Proof. reflexivity. Qed.

Lemma numBits_nonneg n : 0 <= numBits n.
Proof. unfold numBits. pose proof (Z.log2_nonneg (Z.abs n)). destruct (_ =? 0); lia. Qed.

Lemma numberToByteArray_ok n k : 0 <= n -> 0 <= k ->
  numberToByteArray n k = Ok (be_bytes (Z.to_nat k) n).
Proof.
  intros Hn Hk. unfold numberToByteArray.
  destruct (n <? 0) eqn:E1; [lia|]. destruct (k <? 0) eqn:E2; [lia|]. reflexivity.
Qed.

Lemma mk_bytes_ok l : all_bytes l = true -> mk_bytes l = Ok l.
Proof. intros H. unfold mk_bytes. rewrite H. reflexivity. Qed.

Lemma pairs_of_forall (P : Z -> Prop) l :
  Forall P l -> Forall (fun hl => P (fst hl) /\ P (snd hl)) (pairs_of l).
Proof.
  revert l. fix IH 1. intros [|a [|b t]] H; cbn [pairs_of]; try constructor.
  - inversion H as [|? ? Ha H1]; subst. inversion H1 as [|? ? Hb H2]; subst. cbn [fst snd]. split; assumption.
  - apply IH. inversion H as [|? ? Ha H1]; subst. inversion H1 as [|? ? Hb H2]; subst. exact H2.
Qed.

Lemma pairs_of_length {A} (l : list A) : length (pairs_of l) = Nat.div2 (length l).
Proof.
  revert l. fix IH 1. intros [|a [|b t]]; cbn [pairs_of length Nat.div2]; try reflexivity. f_equal. apply IH.
Qed.

Lemma enumerate_from_forall (i : Z) (l : list Z) (P : Z -> Prop) :
  Forall P l ->
  Forall (fun pv => i <= fst pv < i + zlen l /\ P (snd pv)) (enumerate_from i l).
Proof.
  revert i. induction l as [|x t IH]; intros i H; cbn [enumerate_from]; [constructor|].
  inversion H as [|? ? Hx Ht]; subst. constructor.
  - cbn [fst snd]. rewrite zlen_cons. pose proof (zlen_nonneg t). split; [lia|exact Hx].
  - specialize (IH (i + 1) Ht). eapply Forall_impl; [|exact IH].
    intros [p v]. cbn [fst snd]. rewrite zlen_cons. intros [A B]. split; [lia|exact B].
Qed.

Lemma map_combine_sel (c : bool) (f : Z * Z -> Z) (a b : list Z) :
  length a = length b ->
  (forall x y, In x a -> In y b -> f (x, y) = if c then y else x) ->
  map f (combine a b) = if c then b else a.
Proof.
  revert b. induction a as [|x a IH]; intros [|y b] Hlen Hf; cbn [length] in Hlen; try discriminate.
  - destruct c; reflexivity.
  - cbn [combine map]. rewrite (Hf x y) by (left; reflexivity).
    rewrite (IH b) by (try lia; intros; apply Hf; right; assumption).
    destruct c; reflexivity.
Qed.

Lemma while_fuel_measure {S} (Inv : S -> Prop) (mu : S -> nat)
      (cond : S -> res bool) (body : S -> res S) :
  (forall s, Inv s -> exists c, cond s = Ok c /\
     (c = true -> exists s', body s = Ok s' /\ Inv s' /\ (mu s' < mu s)%nat)) ->
  forall fuel s, Inv s -> (mu s < fuel)%nat ->
  exists s', while_fuel fuel cond body s = Ok s' /\ Inv s' /\ cond s' = Ok false.
Proof.
  intros Hstep. induction fuel as [|f IH]; intros s HI Hmu; [lia|].
  cbn [while_fuel]. destruct (Hstep s HI) as [c [Hc Hb]]. rewrite Hc. cbn [bind].
  destruct c.
  - destruct (Hb eq_refl) as [s' [Hs' [HI' Hlt]]]. rewrite Hs'. cbn [bind].
    apply IH; [exact HI'|lia].
  - exists s. repeat split; assumption.
Qed.
