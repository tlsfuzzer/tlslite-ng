(* Serializability from lock discipline, for every schedule (induction over the schedule:
   no bound on the number of threads, steps or pre-emptions). *)
From Coq Require Import ZArith List Bool Lia.
From TV Require Base.ListUpd.
From TV Require Import Base.C18_Lib Model.C18_Conc.
Import ListNotations.

Lemma upd_nth_id {A} i (l : list A) t : nth_error l i = Some t -> upd_nth i l t = l.
Proof. rewrite upd_nth_upd. apply ListUpd.upd_id. Qed.

Lemma upd_nth_twice {A} i (l : list A) a b : upd_nth i (upd_nth i l a) b = upd_nth i l b.
Proof. rewrite !upd_nth_upd. apply ListUpd.upd_twice. Qed.

Lemma upd_nth_comm {A} i j (l : list A) a b : i <> j ->
  upd_nth i (upd_nth j l a) b = upd_nth j (upd_nth i l b) a.
Proof. rewrite !upd_nth_upd. apply ListUpd.upd_comm. Qed.

Section ConcProofs.
  Variables Lo V : Type.
  Notation step := (step Lo V).
  Notation thread := (thread Lo V).
  Notation config := (config Lo V).
  Notation sconf := (sconf Lo V).

  Definition step_store (s : step) (lo : Lo) (st : store V) : store V :=
    match s with Wr x g => upd st x (g lo (st x)) | _ => st end.
  Definition step_lo (s : step) (lo : Lo) (st : store V) : Lo :=
    match s with Rd x f => f lo (st x) | Loc f => f lo | _ => lo end.
  Definition holder (l : option nat) (i : nat) : bool :=
    match l with Some j => Nat.eqb j i | None => false end.
  Definition enabled (s : step) (i : nat) (l : option nat) : bool :=
    match s, l with Acq, Some _ => false | Rel, _ => holder l i | _, _ => true end.
  Definition lock_after (s : step) (i : nat) (l : option nat) : option nat :=
    match s with Acq => Some i | Rel => None | _ => l end.

  Lemma fire_eq (c : config) i : fire c i =
    match nth_error (g_threads c) i with
    | Some {| t_lo := lo; t_prog := s :: p |} =>
      if enabled s i (g_lock c)
      then Some {| g_store := step_store s lo (g_store c); g_lock := lock_after s i (g_lock c);
                   g_threads := set_thread (g_threads c) i (step_lo s lo (g_store c)) p |}
      else None
    | _ => None
    end.
  Proof.
    unfold fire. destruct (nth_error (g_threads c) i) as [[lo [|s p]]|]; try reflexivity.
    cbn [t_lo t_prog]. destruct s; try reflexivity; destruct (g_lock c) as [j|]; reflexivity.
  Qed.

  Lemma fire_some (c c' : config) i : fire c i = Some c' ->
    exists lo s p, nth_error (g_threads c) i = Some {| t_lo := lo; t_prog := s :: p |} /\
      enabled s i (g_lock c) = true /\
      c' = {| g_store := step_store s lo (g_store c); g_lock := lock_after s i (g_lock c);
              g_threads := set_thread (g_threads c) i (step_lo s lo (g_store c)) p |}.
  Proof.
    rewrite fire_eq. destruct (nth_error (g_threads c) i) as [[lo [|s p]]|]; try discriminate.
    destruct (enabled s i (g_lock c)) eqn:E; [|discriminate]. intros H. exists lo, s, p. inversion H. auto.
  Qed.

  Lemma run_chunk_cons (st : store V) lo s p : s <> Rel ->
    run_chunk false st lo (s :: p) = run_chunk false (step_store s lo st) (step_lo s lo st) p.
  Proof. destruct s; try reflexivity. congruence. Qed.

  Lemma holder_true l i : holder l i = true -> l = Some i.
  Proof. destruct l as [j|]; [|discriminate]. cbn [holder]. intros H. apply Nat.eqb_eq in H. congruence. Qed.

  Lemma holder_other i j : j <> i -> holder (Some i) j = false.
  Proof. intros H. apply Nat.eqb_neq. congruence. Qed.

  (* every thread's remaining program respects the lock discipline from its current
     position (inside for the holder, outside for everyone else) *)
  Definition wl_config (c : config) : Prop :=
    (forall i t, nth_error (g_threads c) i = Some t -> wl (holder (g_lock c) i) (t_prog t) = true) /\
    (forall h, g_lock c = Some h -> (h < length (g_threads c))%nat).

  Lemma wl_step s p i l : enabled s i l = true -> wl (holder l i) (s :: p) = true ->
    wl (holder (lock_after s i l) i) p = true /\
    forall j, j <> i -> holder (lock_after s i l) j = holder l j.
  Proof.
    destruct s; cbn [enabled wl lock_after]; intros He Hw.
    - destruct l; [discriminate|]. cbn [holder] in *. rewrite Nat.eqb_refl.
      split; [exact Hw|]. intros j Hj. apply Nat.eqb_neq. congruence.
    - rewrite He in Hw. apply holder_true in He. subst l.
      split; [exact Hw|]. intros j Hj. symmetry. apply holder_other. exact Hj.
    - apply andb_prop in Hw. split; [exact (proj2 Hw)|reflexivity].
    - apply andb_prop in Hw. split; [exact (proj2 Hw)|reflexivity].
    - split; [exact Hw|reflexivity].
  Qed.

  Lemma fire_length (c c' : config) i : fire c i = Some c' -> length (g_threads c') = length (g_threads c).
  Proof.
    intros Hf. apply fire_some in Hf. destruct Hf as [lo [s [p [_ [_ ->]]]]]. apply upd_nth_length.
  Qed.

  Lemma fire_preserves_wl (c c' : config) i : wl_config c -> fire c i = Some c' -> wl_config c'.
  Proof.
    intros [Hw Hh] Hf. apply fire_some in Hf. destruct Hf as [lo [s [p [Ht [He ->]]]]].
    destruct (wl_step s p i (g_lock c) He (Hw i _ Ht)) as [Hp Hother].
    assert (i < length (g_threads c))%nat as Hil by (apply nth_error_Some; congruence).
    split; cbn [g_threads g_lock].
    - intros j t' Hj. unfold set_thread in Hj. destruct (Nat.eq_dec j i) as [->|Hne].
      + rewrite upd_nth_same in Hj by exact Hil. inversion Hj; subst t'. exact Hp.
      + rewrite upd_nth_other in Hj by exact Hne. rewrite (Hother j Hne). exact (Hw j t' Hj).
    - intros h Hl. unfold set_thread. rewrite upd_nth_length.
      destruct s; cbn [lock_after] in Hl; try (apply Hh; exact Hl); congruence.
  Qed.

  Lemma run_op_finished (sc : sconf) i :
    (forall t, nth_error (snd sc) i = Some t -> t_prog t = []) -> run_op sc i = sc.
  Proof.
    intros H. unfold run_op. destruct sc as [st ths]. cbn [fst snd] in *.
    destruct (nth_error ths i) as [t|] eqn:Ht; [|reflexivity].
    pose proof (H t eq_refl) as Hp. destruct t as [lo p]. cbn [t_lo t_prog] in *. subst p.
    cbn [run_chunk]. unfold set_thread. rewrite (upd_nth_id _ _ _ Ht). reflexivity.
  Qed.

  Lemma serial_finished order (sc : sconf) :
    (forall t, In t (snd sc) -> t_prog t = []) -> serial order sc = sc.
  Proof.
    intros H. unfold serial. induction order as [|i order IH]; cbn [fold_left]; [reflexivity|].
    rewrite run_op_finished; [exact IH|].
    intros t Ht. apply H. eapply nth_error_In. exact Ht.
  Qed.

  Lemma run_op_ext (ths : list thread) (st st' : store V) i lo p lo' p' :
    nth_error ths i = Some {| t_lo := lo; t_prog := p |} ->
    run_chunk false st lo p = run_chunk false st' lo' p' ->
    run_op (st, ths) i = run_op (st', set_thread ths i lo' p') i.
  Proof.
    intros Ht He. unfold run_op. cbn [fst snd]. rewrite Ht.
    unfold set_thread at 2. rewrite upd_nth_same by (apply nth_error_Some; congruence). cbn [t_lo t_prog].
    rewrite He. destruct (run_chunk false st' lo' p') as [[st1 lo1] p1].
    unfold set_thread. rewrite upd_nth_twice. reflexivity.
  Qed.

  Lemma run_op_frame (sc : sconf) i j lo p : j <> i ->
    nth_error (snd (run_op sc j)) i = nth_error (snd sc) i /\
    run_op (fst sc, set_thread (snd sc) i lo p) j = (fst (run_op sc j), set_thread (snd (run_op sc j)) i lo p).
  Proof.
    intros Hne. unfold run_op. cbn [fst snd]. unfold set_thread at 2. rewrite upd_nth_other by exact Hne.
    destruct (nth_error (snd sc) j) as [tj|]; [|split; reflexivity].
    destruct (run_chunk false (fst sc) (t_lo tj) (t_prog tj)) as [[st' lo'] p']. cbn [fst snd].
    split; [apply upd_nth_other; congruence|]. unfold set_thread. rewrite upd_nth_comm by exact Hne. reflexivity.
  Qed.

  Lemma turn_ext order : forall (sc : sconf) i lo p lo' p',
    In i order -> nth_error (snd sc) i = Some {| t_lo := lo; t_prog := p |} ->
    (forall st, run_chunk false st lo p = run_chunk false st lo' p') ->
    serial order sc = serial order (fst sc, set_thread (snd sc) i lo' p').
  Proof.
    induction order as [|j order IH]; intros sc i lo p lo' p' Hin Hi He; [destruct Hin|].
    unfold serial. cbn [fold_left]. destruct (Nat.eq_dec j i) as [->|Hne].
    - f_equal. destruct sc as [st ths]. exact (run_op_ext ths st st i lo p lo' p' Hi (He st)).
    - destruct (run_op_frame sc i j lo' p' Hne) as [Ho ->]. rewrite <- Ho in Hi.
      apply (IH _ i lo p); [destruct Hin; [congruence|assumption]|exact Hi|exact He].
  Qed.

  (* after a release the rest of the operation is local *)
  Lemma after_release : forall (p : list step) (st : store V) (lo : Lo), wl false p = true ->
    exists lo' p', run_chunk true st lo p = (st, lo', p') /\
      forall st0 : store V, run_chunk false st0 lo p = run_chunk false st0 lo' p'.
  Proof.
    induction p as [|s p IH]; intros st lo Hw; [exists lo, []; split; reflexivity|].
    destruct s; cbn [wl negb andb] in Hw; try discriminate; [exists lo, (Acq :: p); split; reflexivity|].
    exact (IH st (f lo) Hw).
  Qed.

  Definition sc_of (c : config) : sconf := (g_store c, g_threads c).

  (* the remaining operations, run whole in this order, lead from c to cf; the thread that holds the
     lock (it is in the middle of an operation) comes first, and every thread has a turn *)
  Record serial_to (c cf : config) (order : list nat) : Prop := {
    st_run : serial order (sc_of c) = sc_of cf;
    st_holder_first : forall h, g_lock c = Some h -> exists rest, order = h :: rest;
    st_all : forall i, (i < length (g_threads c))%nat -> In i order }.

  Lemma serial_to_step (c c1 cf : config) i order1 :
    wl_config c -> fire c i = Some c1 -> serial_to c1 cf order1 -> exists order, serial_to c cf order.
  Proof.
    intros [Hw _] Hf [Hser Hhead Hall]. rewrite (fire_length _ _ _ Hf) in Hall.
    apply fire_some in Hf. destruct Hf as [lo [s [p [Ht [He ->]]]]].
    assert (i < length (g_threads c))%nat as Hil by (apply nth_error_Some; congruence).
    pose proof (Hw i _ Ht) as Hwi. cbn [t_prog] in Hwi.
    destruct (wl_step s p i (g_lock c) He Hwi) as [Hp Hother].
    unfold sc_of in Hser. cbn [g_store g_threads g_lock] in Hser, Hhead.
    (* a step after which i holds the lock: i's operation is the first of order1, and this step
       is part of it *)
    assert (lock_after s i (g_lock c) = Some i -> s <> Rel -> exists order, serial_to c cf order) as Hheld.
    { intros Hl1 Hs. destruct (Hhead i Hl1) as [rest ->]. exists (i :: rest). constructor.
      - unfold serial, sc_of. cbn [fold_left]. rewrite (run_op_ext _ _ _ _ _ _ _ _ Ht (run_chunk_cons _ _ _ _ Hs)). exact Hser.
      - intros h Hl. destruct (Nat.eq_dec h i) as [->|Hne]; [eauto|].
        specialize (Hother h Hne). rewrite Hl1, Hl, holder_other in Hother by exact Hne.
        cbn [holder] in Hother. rewrite Nat.eqb_refl in Hother. discriminate.
      - exact Hall. }
    destruct s; cbn [enabled wl lock_after step_store step_lo] in *.
    - apply Hheld; [reflexivity|discriminate].
    - (* Rel: the releasing thread's operation goes first *)
      apply holder_true in He. exists (i :: order1). constructor.
      + destruct (after_release p (g_store c) lo Hp) as [lo' [p' [E He']]].
        change (serial order1 (run_op (sc_of c) i) = sc_of cf). unfold run_op, sc_of. cbn [fst snd].
        rewrite Ht. cbn [t_lo t_prog run_chunk]. rewrite E, <- Hser.
        rewrite (turn_ext order1 (_, _) i lo p lo' p' (Hall i Hil) (upd_nth_same _ _ _ Hil) He'). cbn [fst snd].
        unfold set_thread. rewrite upd_nth_twice. reflexivity.
      + intros h Hl. rewrite He in Hl. inversion Hl; subst h. eexists. reflexivity.
      + intros k Hk. right. apply Hall. exact Hk.
    - apply andb_prop in Hwi. apply Hheld; [exact (holder_true _ _ (proj1 Hwi))|discriminate].
    - apply andb_prop in Hwi. apply Hheld; [exact (holder_true _ _ (proj1 Hwi))|discriminate].
    - (* Loc: invisible *)
      exists order1. constructor; [|exact Hhead|exact Hall].
      unfold sc_of. rewrite <- Hser. exact (turn_ext order1 (_, _) i lo (Loc f :: p) _ p (Hall i Hil) Ht (fun _ => eq_refl)).
  Qed.

  Lemma serializable_from : forall sched (c cf : config),
    wl_config c -> run_sched c sched = Some cf -> terminal cf -> exists order, serial_to c cf order.
  Proof.
    induction sched as [|i sched IH]; intros c cf Hwl Hrun Hterm; cbn [run_sched] in Hrun.
    - inversion Hrun; subst cf.
      exists ((match g_lock c with Some h => [h] | None => [] end) ++ seq 0 (length (g_threads c))).
      constructor.
      + apply serial_finished. exact Hterm.
      + intros h Hh. rewrite Hh. eexists. reflexivity.
      + intros i Hi. apply in_or_app. right. apply in_seq. lia.
    - destruct (fire c i) as [c1|] eqn:Hf; [|discriminate].
      destruct (IH c1 cf (fire_preserves_wl _ _ _ Hwl Hf) Hrun Hterm) as [order1 H1].
      exact (serial_to_step c c1 cf i order1 Hwl Hf H1).
  Qed.

  Lemma initial_wl (c : config) :
    g_lock c = None -> (forall t, In t (g_threads c) -> well_locked (t_prog t) = true) -> wl_config c.
  Proof.
    intros Hl Hw. split.
    - intros i t Ht. rewrite Hl. apply Hw. eapply nth_error_In. exact Ht.
    - intros h Hh. congruence.
  Qed.

  Lemma serializable_all : forall (c cf : config) sched,
    g_lock c = None ->
    (forall t, In t (g_threads c) -> well_locked (t_prog t) = true) ->
    run_sched c sched = Some cf -> terminal cf ->
    exists order, serial order (g_store c, g_threads c) = (g_store cf, g_threads cf).
  Proof.
    intros c cf sched Hl Hw Hrun Hterm.
    destruct (serializable_from sched c cf (initial_wl c Hl Hw) Hrun Hterm) as [order H].
    exists order. exact (st_run _ _ _ H).
  Qed.

  Lemma wl_enabled s p i l : l = None \/ l = Some i -> wl (holder l i) (s :: p) = true -> enabled s i l = true.
  Proof.
    intros [->| ->]; cbn [holder]; rewrite ?Nat.eqb_refl; destruct s; cbn [wl enabled holder];
      rewrite ?Nat.eqb_refl; auto; discriminate.
  Qed.

  Lemma progress_from (c : config) :
    wl_config c -> (exists t, In t (g_threads c) /\ t_prog t <> []) ->
    exists i c', fire c i = Some c'.
  Proof.
    intros [Hw Hh] [t [Hin Hne]].
    destruct (g_lock c) as [h|] eqn:Hl.
    - (* the holder can move: it has steps left, since it is inside *)
      specialize (Hh h eq_refl). apply nth_error_Some in Hh.
      destruct (nth_error (g_threads c) h) as [[lo p]|] eqn:Hth; [|congruence].
      specialize (Hw h _ Hth). cbn [t_prog] in Hw.
      destruct p as [|s p]; [cbn [holder wl] in Hw; rewrite Nat.eqb_refl in Hw; discriminate|].
      exists h. rewrite fire_eq, Hth, Hl, (wl_enabled s p h _ (or_intror eq_refl) Hw). eauto.
    - (* the lock is free *)
      apply In_nth_error in Hin. destruct Hin as [i Hi]. destruct t as [lo [|s p]]; [destruct (Hne eq_refl)|].
      exists i. rewrite fire_eq, Hi, Hl, (wl_enabled s p i _ (or_introl eq_refl) (Hw i _ Hi)). eauto.
  Qed.

  Lemma reachable_wl : forall sched (c c' : config), wl_config c -> run_sched c sched = Some c' -> wl_config c'.
  Proof.
    induction sched as [|i sched IH]; intros c c' Hw Hr; cbn [run_sched] in Hr.
    - inversion Hr; subst; exact Hw.
    - destruct (fire c i) as [c1|] eqn:Hf; [|discriminate].
      eapply IH; [eapply fire_preserves_wl; eauto|exact Hr].
  Qed.

  (* an operation with a single critical section runs to its end in one turn: a turn stops only at
     an acquire met after a release *)
  Lemma run_chunk_single : forall p released inside (st : store V) (lo : Lo),
    wl inside p = true -> (count_acq p <= if released || inside then 0 else 1)%nat ->
    run_chunk released st lo p = (fst (run_all st lo p), snd (run_all st lo p), []).
  Proof.
    induction p as [|s p IH]; intros released inside st lo Hw Hc; [reflexivity|].
    destruct s; cbn [wl] in Hw; cbn [count_acq] in Hc; cbn [run_chunk run_all];
      try (apply andb_true_iff in Hw; destruct Hw as [Hi Hw]).
    - destruct released, inside; cbn [orb] in Hc; try lia. apply (IH false true); [exact Hw|cbn [orb]; lia].
    - rewrite Hi, orb_true_r in Hc. apply (IH true false); [exact Hw|exact Hc].
    - apply (IH released inside); assumption.
    - apply (IH released inside); assumption.
    - apply (IH released inside); assumption.
  Qed.

  Lemma wl_of_shape : forall (p : list step) inside, wl inside p = wl_shape inside (map (@shape_of Lo V) p).
  Proof.
    induction p as [|s p IH]; intros inside; [reflexivity|].
    destruct s; cbn [wl map shape_of wl_shape]; rewrite ?IH; reflexivity.
  Qed.

  Lemma count_acq_of_shape : forall (p : list step), count_acq p = count_acq_shape (map (@shape_of Lo V) p).
  Proof.
    induction p as [|s p IH]; [reflexivity|]. destruct s; cbn [count_acq map shape_of count_acq_shape]; rewrite ?IH; reflexivity.
  Qed.
End ConcProofs.
