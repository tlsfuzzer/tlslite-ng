(* protect/unprotect through the dispatchers of sendRecord/recvRecord; the records in flight from
   a sender to its receiver; one direction of a connection under an arbitrary schedule of writes,
   arrivals and reads (the two directions are put together in Props/C01.v).  SEQ_MAX is the literal 2^64 of the
   per-path statements (Proofs/C01_RoundTrip.v, C01_Tls13.v): a bound stated with one is handed to a lemma stated with
   the other as it stands. *)
From Coq Require Import ZArith List Bool Lia.
From TV Require Import Base.Prelude Base.PreludeFacts Model.C01_RecordPipe Spec.C01_Contracts
  Model.C02_RecordAccept Proofs.C01_Lists Proofs.C01_Fragment Proofs.C01_RoundTrip Proofs.C01_Tls13.
Import ListNotations.
Open Scope Z_scope.

Definition SEQ_MAX : Z := 18446744073709551616.

Section Disp.
Context {CS : Type}.
Variable P : Prim CS.
Variable R : CS -> CS -> Prop.
Variable c : Cfg.

(* the most a protection path adds to the plaintext it is given: a wire record of this
   configuration carries at least its body length minus this (the harness reads body lengths
   off real record headers) *)
Definition overhead_max (md : mode) : Z :=
  match md with
  | MStream => ds P
  | MCbc => ds P + 2 * c_bs c
  | MEtm => ds P + 2 * (if c_has_enc c then c_bs c else 0)
  | MAead12 => c_tag c + 8
  | MTls13 => c_tag c
  end.

Lemma legacy_cfg_flags : legacy_cfg P c -> ver_lt (3, 3) (c_ver c) = false /\ c_tls13 c = false.
Proof. intros L. split; [exact (ver_macable_not13 _ (l_ver L))|exact (l_rec13 L)]. Qed.

Lemma legacy_flags md : md <> MTls13 -> mode_ok P R md c ->
  is_tls13_plus c = false /\ ver_lt (3, 3) (c_ver c) = false /\ c_tls13 c = false.
Proof.
  intros Hmd Hmode.
  assert (Hv : ver_lt (3, 3) (c_ver c) = false /\ c_tls13 c = false).
  { destruct md; [| | | |contradiction].
    1-3: exact (legacy_cfg_flags (mode_legacy Hmode)).
    - destruct Hmode as [_ [Hv [H13 _]]]. rewrite Hv. auto. }
  destruct Hv as [Hv H13]. unfold is_tls13_plus. rewrite Hv. auto.
Qed.

Lemma mode_dispatch md {A} (a e b s : A) : md <> MTls13 -> mode_ok P R md c ->
  (if c_has_enc c && c_aead c then a else if c_etm c then e else if c_has_enc c && c_block c then b else s) =
  match md with MStream => s | MCbc => b | MEtm => e | _ => a end.
Proof.
  intros Hmd Hmode. destruct md; [| | | |contradiction].
  - destruct Hmode as [_ [L%legacy_cfg_of [Hetm [Hblk _]]]]. rewrite (l_aead L), Hetm, Hblk, !andb_false_r. reflexivity.
  - destruct Hmode as [_ [L%legacy_cfg_of [Hetm [Henc Bk%block_cfg_of]]]]. rewrite (l_aead L), Hetm, (b_block Bk), Henc. reflexivity.
  - destruct Hmode as [_ [L%legacy_cfg_of [Hetm _]]]. rewrite (l_aead L), Hetm, andb_false_r. reflexivity.
  - pose proof (mode_aead12 Hmode) as G. rewrite (a_enc G), (a_aead G). reflexivity.
Qed.

Lemma mode_dispatch_send md {A} (a e m : A) : md <> MTls13 -> mode_ok P R md c ->
  (if c_has_enc c && c_aead c then a else if c_etm c then e else m) =
  match md with MStream | MCbc => m | MEtm => e | _ => a end.
Proof.
  intros Hmd Hmode. rewrite <- (mode_dispatch md a e m m Hmd Hmode).
  destruct (c_has_enc c && c_block c); reflexivity.
Qed.

Lemma unprotect_legacy md (r : St CS) hty hver body : md <> MTls13 -> mode_ok P R md c ->
  unprotect c P r (hty, hver, body) =
  (if zlen body >? c_recv_limit c + 2048 then RErr EOverflow else
   '(s1, d1) <~ recv_path P c md r hty hver body ;;
   if zlen d1 >? c_recv_limit c then RErr EOverflow else ROk (s1, (hty, d1))).
Proof.
  intros Hmd Hmode. destruct (legacy_flags md Hmd Hmode) as [Hn13 [_ H13]].
  unfold unprotect. rewrite Hn13, H13. cbn [andb]. rewrite (mode_dispatch md _ _ _ _ Hmd Hmode). reflexivity.
Qed.

Lemma unprotect_legacy_ok md (r r' : St CS) hty hver body ty p : md <> MTls13 -> mode_ok P R md c ->
  unprotect c P r (hty, hver, body) = ROk (r', (ty, p)) <->
  ty = hty /\ recv_path P c md r hty hver body = ROk (r', p) /\
  zlen p <= c_recv_limit c /\ zlen body <= c_recv_limit c + 2048.
Proof.
  intros Hmd Hmode. rewrite (unprotect_legacy md _ _ _ _ Hmd Hmode). split.
  - intros H. destruct (zlen body >? c_recv_limit c + 2048) eqn:E1; [discriminate|].
    apply rbind_ok_inv in H. destruct H as [[s1 d1] [Hd H]].
    destruct (zlen d1 >? c_recv_limit c) eqn:E; [discriminate|]. injection H as <- <- <-.
    repeat split; auto; lia.
  - intros [-> [Hd [Hp Hb]]]. rewrite Hd. cbn [rbind].
    destruct (zlen body >? c_recv_limit c + 2048) eqn:E1; [lia|].
    destruct (zlen p >? c_recv_limit c) eqn:E; [lia|reflexivity].
Qed.

Lemma protect_with_legacy md (s : St CS) ty data ch hver : md <> MTls13 -> mode_ok P R md c ->
  protect_with c P s (ty, data) ch hver =
  ('(s1, body) <~ send_path_with P c md s ty data ch ;; ROk (s1, (ty, hver, body))).
Proof.
  intros Hmd Hmode. destruct (legacy_flags md Hmd Hmode) as [Hn13 [Hvl _]].
  unfold protect_with. rewrite Hn13, Hvl. cbn [andb]. rewrite (mode_dispatch_send md _ _ _ Hmd Hmode). reflexivity.
Qed.

Lemma protect_legacy md (s : St CS) ty data : md <> MTls13 -> mode_ok P R md c ->
  protect c P s (ty, data) =
  ('(s1, body) <~ send_path P c md s ty data ;;
   if negb (is_byte ty) || (65536 <=? zlen body) then RErr EValue else ROk (s1, (ty, c_ver c, body))).
Proof.
  intros Hmd Hmode. destruct (legacy_flags md Hmd Hmode) as [Hn13 [Hvl _]].
  unfold protect. rewrite Hn13, Hvl. cbn [andb rbind]. rewrite (mode_dispatch_send md _ _ _ Hmd Hmode). reflexivity.
Qed.

Lemma body_len_overhead md data body : md <> MTls13 -> mode_ok P R md c -> body_len P c md data body ->
  zlen data <= zlen body <= zlen data + overhead_max md /\ overhead_max md <= 2048.
Proof.
  intros Hmd Hmode Hlen. destruct md; [| | | |contradiction]; cbn [body_len overhead_max] in *.
  - pose proof (l_ds (mode_legacy Hmode)). lia.
  - destruct Hmode as [_ [L%legacy_cfg_of [_ [_ Bk%block_cfg_of]]]]. pose proof (l_ds L). pose proof (b_bs Bk). lia.
  - destruct Hmode as [_ [L%legacy_cfg_of [_ Bk]]]. pose proof (l_ds L).
    destruct (c_has_enc c); [pose proof (b_bs (block_cfg_of P R c (Bk eq_refl)))|]; lia.
  - pose proof (a_tag (mode_aead12 Hmode)). lia.
Qed.

Lemma mode_tls13_dec (md : mode) : md = MTls13 \/ md <> MTls13.
Proof. destruct md; auto; right; discriminate. Qed.

(* all modes, application data and every other hidden content type: the record comes back, and
   no record on the wire carries more plaintext than the limit in force -- the protected fragment
   is at most send_record_limit; in TLS 1.3 the inner plaintext (content, type byte and padding)
   is at most send_record_limit + 1, i.e. the peer's record_size_limit *)
Theorem protect_unprotect_len md (s r : St CS) ty data :
  mode_ok P R md c -> sync R s r -> rec_ok c ty data -> (md = MTls13 -> ty <> 20) ->
  st_seq s < SEQ_MAX ->
  exists s' w r', round_trip P R c s r ty data s' w r' /\
    match md with
    | MTls13 => exists k, 0 <= k /\ zlen (snd w) = zlen data + 1 + k + c_tag c /\
                          zlen data + 1 + k <= c_send_limit c + 1
    | _ => zlen data <= zlen (snd w) <= zlen data + overhead_max md /\ zlen data <= c_send_limit c
    end.
Proof.
  intros Hmode Hsync Hrec H20 Hs. destruct (mode_tls13_dec md) as [->|Hmd].
  - destruct (tls13_rt (mode_tls13 Hmode) s r ty data Hsync Hrec (H20 eq_refl) Hs) as [s' [w [r' [Hrt [k [K0 [K1 K2]]]]]]].
    exists s', w, r'. split; [exact Hrt|]. exists k. auto.
  - destruct Hrec as [Hty Hlen]. pose proof Hmode as [[Hl1 [Hl2 Hl3]] _].
    assert (Hb : is_byte ty = true) by (apply is_byte_iff; lia).
    destruct (path_rt P R c md Hmd s r ty data Hmode Hsync Hb ltac:(lia) Hs)
      as [s' [body [r' [Hsend [Hbody [Hrecv [Hsy Hsq]]]]]]].
    destruct (body_len_overhead md data body Hmd Hmode Hbody) as [Hbl Hov].
    assert (Hp : protect c P s (ty, data) = ROk (s', (ty, c_ver c, body))).
    { rewrite (protect_legacy md _ _ _ Hmd Hmode), Hsend. cbn [rbind]. rewrite Hb. cbn [negb orb].
      destruct (65536 <=? zlen body) eqn:E; [lia|reflexivity]. }
    eexists _, _, _. split; [split; [exact Hp| |exact Hsy|exact Hsq]|].
    + apply (unprotect_legacy_ok md _ _ _ _ _ _ _ Hmd Hmode). repeat split; [exact Hrecv|lia|lia].
    + destruct md; [| | | |contradiction]; auto.
Qed.
End Disp.

Section Flight.
Context {CS : Type}.
Variable P : Prim CS.
Variable R : CS -> CS -> Prop.
Variable c : Cfg.
Variable md : mode.
Hypothesis Hmode : mode_ok P R md c.

(* the receiver in state r will accept the records ws in order, they carry the application
   bytes pl, and afterwards it is in step with the sender state s *)
Fixpoint flight_rel (r : St CS) (ws : list Wire) (pl : list Z) (s : St CS) : Prop :=
  match ws with
  | [] => sync R s r /\ pl = []
  | w :: ws' => exists r1 p pl', unprotect c P r w = ROk (r1, (23, p)) /\ pl = p ++ pl' /\
                                 flight_rel r1 ws' pl' s
  end.

Lemma protect_all_flight frags : forall (s r : St CS),
  sync R s r -> Forall (fun f => zlen f <= c_send_limit c) frags ->
  st_seq s + Z.of_nat (length frags) <= SEQ_MAX ->
  exists s' ws, protect_all c P s 23 frags = ROk (s', ws) /\
                flight_rel r ws (concat frags) s' /\
                st_seq s' = st_seq s + Z.of_nat (length frags).
Proof.
  induction frags as [|f fs IH]; intros s r Hsync Hall Hseq.
  - exists s, []. cbn [protect_all flight_rel concat length]. split; [reflexivity|]. split; [split; [exact Hsync|reflexivity]|].
    cbn; lia.
  - inversion Hall as [|? ? Hf Hfs]; subst.
    cbn [length] in Hseq. rewrite Nat2Z.inj_succ in Hseq.
    destruct (protect_unprotect_len P R c md s r 23 f Hmode Hsync) as [s1 [w [r1 [[Hp Hu Hsy Hsq] _]]]].
    { split; [lia|exact Hf]. }
    { discriminate. }
    { lia. }
    destruct (IH s1 r1 Hsy Hfs ltac:(lia)) as [s2 [ws [Hpa [Hfl Hsq2]]]].
    exists s2, (w :: ws). cbn [protect_all]. rewrite Hp. cbn [rbind]. rewrite Hpa. cbn [rbind].
    split; [reflexivity|]. split.
    + cbn [flight_rel concat]. exists r1, f, (concat fs). auto.
    + cbn [length]. rewrite Nat2Z.inj_succ. lia.
Qed.

Lemma flight_rel_end ws : forall r pl s, flight_rel r ws pl s ->
  exists r1, sync R s r1 /\
    forall ws2 pl2 s2, flight_rel r1 ws2 pl2 s2 -> flight_rel r (ws ++ ws2) (pl ++ pl2) s2.
Proof.
  induction ws as [|w ws IH]; intros r pl s H.
  - destruct H as [Hs ->]. exists r. auto.
  - destruct H as [r1 [p [pl' [Hu [-> Hrest]]]]]. destruct (IH _ _ _ Hrest) as [r2 [Hs2 Happ]].
    exists r2. split; [exact Hs2|]. intros ws2 pl2 s2 H2. cbn [app flight_rel].
    exists r1, p, (pl' ++ pl2). split; [exact Hu|]. split; [apply app_assoc_reverse|]. apply Happ, H2.
Qed.

Definition frag_count (user : Z) (data : list Z) : Z :=
  Z.of_nat (length (fragment (beast_split c 23) (record_size user (c_send_limit c)) data)).

Lemma send_app_flight user (s r : St CS) data : 1 <= user ->
  sync R s r -> st_seq s + frag_count user data <= SEQ_MAX ->
  exists s' ws, send_app c P user s data = ROk (s', ws) /\
                st_seq s' = st_seq s + frag_count user data /\ flight_rel r ws data s'.
Proof.
  intros Hu Hs Hseq. unfold send_app. pose proof Hmode as [[Hl1 _] _].
  set (frags := fragment (beast_split c 23) (record_size user (c_send_limit c)) data).
  assert (Hall : Forall (fun f => zlen f <= c_send_limit c) frags).
  { eapply Forall_impl; [|apply fragment_sizes; unfold record_size; lia].
    cbv beta. intros f [Hf _]. pose proof (record_size_le user (c_send_limit c)). lia. }
  destruct (protect_all_flight frags s r Hs Hall Hseq) as [s' [ws [H1 [H2 H3]]]].
  exists s', ws. unfold frags in H2. rewrite concat_fragment in H2. auto.
Qed.
End Flight.

Section OneDirection.
Context {CS : Type}.
Variable R : CS -> CS -> Prop.
Variable md : mode.

Definition dir_run (d : @Dir CS) (es : list event) : Dir := fold_left dir_step es d.

(* records a schedule will put on the wire *)
Fixpoint records_of (d : @Dir CS) (es : list event) : Z :=
  match es with
  | [] => 0
  | EvWrite data :: es' => frag_count (d_cfg d) (d_user d) data + records_of d es'
  | _ :: es' => records_of d es'
  end.

Definition dir_inv (d : @Dir CS) : Prop :=
  d_failed d = false /\
  exists pl, flight_rel (d_prim d) R (d_cfg d) (d_rcv d) (d_flight d) pl (d_snd d) /\
             d_written d = d_read d ++ d_rbuf d ++ pl.

Lemma dir_step_params (d : @Dir CS) e :
  d_cfg (dir_step d e) = d_cfg d /\ d_prim (dir_step d e) = d_prim d /\ d_user (dir_step d e) = d_user d.
Proof.
  destruct e; cbn [dir_step]; [destruct (send_app _ _ _ _ _) as [[s1 ws]|]| |]; auto.
  destruct (d_flight d); [auto|]. destruct (deliver _ _ _ _ _) as [[r1 b1]|]; auto.
Qed.

Lemma records_of_params (d d' : @Dir CS) es : d_cfg d' = d_cfg d -> d_user d' = d_user d ->
  records_of d' es = records_of d es.
Proof. intros Hc Hu. induction es as [|[data| |mx] es IH]; cbn [records_of]; rewrite ?IH, ?Hc, ?Hu; reflexivity. Qed.

Lemma records_of_nonneg d es : 0 <= records_of d es.
Proof.
  induction es as [|e es IH]; cbn [records_of]; [lia|].
  destruct e; try exact IH. unfold frag_count. lia.
Qed.

(* what stream_delivery assumes of a direction and the schedule ahead of it holds again after an event *)
Lemma dir_step_inv (d : @Dir CS) e es :
  mode_ok (d_prim d) R md (d_cfg d) -> 1 <= d_user d -> dir_inv d ->
  st_seq (d_snd d) + records_of d (e :: es) <= SEQ_MAX ->
  let d' := dir_step d e in
  mode_ok (d_prim d') R md (d_cfg d') /\ 1 <= d_user d' /\ dir_inv d' /\
  st_seq (d_snd d') + records_of d' es <= SEQ_MAX.
Proof.
  intros Hmode Hu [Hnf [pl [Hfl Hw]]] Hseq. destruct (dir_step_params d e) as [Hc [Hp Hus]]. cbv zeta.
  rewrite Hc, Hp, Hus, (records_of_params d _ es Hc Hus). split; [exact Hmode|]. split; [exact Hu|].
  pose proof (records_of_nonneg d es) as H0. destruct e as [data| |mx]; cbn [dir_step records_of] in *.
  - (* write *)
    destruct (flight_rel_end (d_prim d) R (d_cfg d) _ _ _ _ Hfl) as [r1 [Hs1 Happ]].
    destruct (send_app_flight (d_prim d) R (d_cfg d) md Hmode (d_user d) (d_snd d) r1 data Hu Hs1 ltac:(lia))
      as [s' [ws [Hsend [Hsq Hfl2]]]].
    rewrite Hsend. split; [|cbn [d_snd]; lia]. split; [exact Hnf|]. exists (pl ++ data).
    split; [exact (Happ _ _ _ Hfl2)|].
    cbn [d_written d_read d_rbuf]. rewrite Hw, <- !app_assoc. reflexivity.
  - (* deliver *)
    destruct (d_flight d) as [|w rest] eqn:Ef.
    + split; [|exact Hseq]. split; [exact Hnf|]. exists pl. rewrite Ef. auto.
    + destruct Hfl as [r1 [p [pl' [Hun [-> Hrest]]]]].
      unfold deliver. rewrite Hun. cbn [rbind fst snd]. change (23 =? 23) with true. cbn iota.
      split; [|exact Hseq]. split; [exact Hnf|]. exists pl'. split; [exact Hrest|].
      cbn [d_written d_read d_rbuf]. rewrite Hw, <- !app_assoc. reflexivity.
  - (* application read *)
    split; [|exact Hseq]. split; [exact Hnf|]. exists pl. split; [exact Hfl|].
    cbn [d_written d_read d_rbuf]. rewrite Hw.
    rewrite <- (ztake_zdrop mx (d_rbuf d)) at 1. rewrite <- !app_assoc. reflexivity.
Qed.
End OneDirection.

Definition events_of (x : side) (es : list (side * event)) : list event :=
  map snd (filter (fun e => match fst e, x with A, A => true | B, B => true | _, _ => false end) es).
