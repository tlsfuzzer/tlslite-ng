(* The constant-time helpers of tlslite/utils/constanttime.py (as regenerated into
   Gen/ConstantTime.v) equal the plain comparisons on the full unsigned 32-bit range.
   ct_lt_u32, ct_neq_u32 and ct_isnonzero_u32 end in `>> 31`, and the other comparisons are defined
   from them; shifting distributes over xor/or, and the top bit of a 32-bit word x is the comparison
   2^31 <= x, so each specification is a case analysis on a few integer comparisons. *)
From Coq Require Import ZArith List Bool Lia.
From TV Require Import Base.Prelude Gen.ConstantTime.
Open Scope Z_scope.

Definition u32 (x : Z) : Prop := 0 <= x < 4294967296.

Lemma land_mask32 x : Z.land x 4294967295 = x mod 4294967296.
Proof. change 4294967295 with (Z.ones 32). rewrite Z.land_ones by lia. reflexivity. Qed.

Lemma u32_mod x : u32 (x mod 4294967296).
Proof. apply Z.mod_pos_bound. reflexivity. Qed.

Lemma shiftr31_u32 x : u32 x -> Z.shiftr x 31 = Z.b2z (2147483648 <=? x).
Proof.
  intros [H0 H1]. rewrite Z.shiftr_div_pow2 by lia. change (2 ^ 31) with 2147483648.
  destruct (Z.leb_spec 2147483648 x); cbn [Z.b2z].
  - symmetry. apply Z.div_unique with (r := x - 2147483648); lia.
  - apply Z.div_small. lia.
Qed.

Lemma sub_mod_u32 a b : u32 a -> u32 b ->
  (a - b) mod 4294967296 = if a <? b then a - b + 4294967296 else a - b.
Proof.
  intros Ha Hb. unfold u32 in *. destruct (Z.ltb_spec a b).
  - symmetry. apply Z.mod_unique with (q := -1); lia.
  - apply Z.mod_small. lia.
Qed.

Lemma b2z_lxor1 b : Z.lxor 1 (Z.b2z b) = Z.b2z (negb b).
Proof. destruct b; reflexivity. Qed.
Lemma b2z_land a b : Z.land (Z.b2z a) (Z.b2z b) = Z.b2z (a && b).
Proof. destruct a, b; reflexivity. Qed.
Lemma b2z_lor a b : Z.lor (Z.b2z a) (Z.b2z b) = Z.b2z (a || b).
Proof. destruct a, b; reflexivity. Qed.

Lemma ct_lt_u32_spec a b : u32 a -> u32 b -> ct_lt_u32 a b = Z.b2z (a <? b).
Proof.
  intros Ha Hb. unfold ct_lt_u32.
  rewrite !land_mask32, (Z.mod_small a), (Z.mod_small b) by assumption.
  rewrite Z.shiftr_lxor, Z.shiftr_lor, !Z.shiftr_lxor.
  rewrite !shiftr31_u32 by (assumption || apply u32_mod).
  rewrite sub_mod_u32 by assumption. unfold u32 in *.
  (* sign bits of a, b and of the wrapped difference *)
  destruct (Z.ltb_spec a b), (Z.leb_spec 2147483648 a), (Z.leb_spec 2147483648 b);
    match goal with |- context [2147483648 <=? ?d] => destruct (Z.leb_spec 2147483648 d) end;
    try reflexivity; lia.
Qed.

Lemma ct_gt_u32_spec a b : u32 a -> u32 b -> ct_gt_u32 a b = Z.b2z (b <? a).
Proof. intros Ha Hb. apply ct_lt_u32_spec; assumption. Qed.

Lemma ct_le_u32_spec a b : u32 a -> u32 b -> ct_le_u32 a b = Z.b2z (a <=? b).
Proof.
  intros Ha Hb. unfold ct_le_u32. rewrite ct_gt_u32_spec, b2z_lxor1, <- Z.leb_antisym by assumption.
  reflexivity.
Qed.

(* of a non-zero 32-bit difference d, one of d and 2^32 - d has the top bit set *)
Lemma ct_neq_u32_spec a b : u32 a -> u32 b -> ct_neq_u32 a b = Z.b2z (negb (a =? b)).
Proof.
  intros Ha Hb. unfold ct_neq_u32.
  rewrite !land_mask32, (Z.mod_small a), (Z.mod_small b) by assumption.
  rewrite Z.shiftr_lor, !shiftr31_u32 by apply u32_mod.
  rewrite !sub_mod_u32 by assumption. unfold u32 in *.
  destruct (Z.eqb_spec a b), (Z.ltb_spec a b), (Z.ltb_spec b a); try lia;
    repeat match goal with |- context [2147483648 <=? ?d] => destruct (Z.leb_spec 2147483648 d) end;
    try reflexivity; lia.
Qed.

Lemma ct_eq_u32_spec a b : u32 a -> u32 b -> ct_eq_u32 a b = Z.b2z (a =? b).
Proof.
  intros Ha Hb. unfold ct_eq_u32. rewrite ct_neq_u32_spec, b2z_lxor1, negb_involutive by assumption.
  reflexivity.
Qed.

Lemma ct_isnonzero_neq a : ct_isnonzero_u32 a = ct_neq_u32 a 0.
Proof.
  unfold ct_isnonzero_u32, ct_neq_u32. cbv zeta. rewrite Z.land_0_l.
  set (x := Z.land a 4294967295). rewrite (Z.sub_0_r x), (Z.sub_0_l x).
  replace (Z.land x 4294967295) with x by (unfold x; rewrite <- Z.land_assoc; reflexivity).
  reflexivity.
Qed.

Lemma ct_isnonzero_u32_spec a : u32 a -> ct_isnonzero_u32 a = Z.b2z (negb (a =? 0)).
Proof. intros Ha. rewrite ct_isnonzero_neq. apply ct_neq_u32_spec; [exact Ha|split; reflexivity]. Qed.

Lemma ct_lsb_prop_u8_b2z c : ct_lsb_prop_u8 (Z.b2z c) = if c then 255 else 0.
Proof. destruct c; reflexivity. Qed.

Lemma mask8_zero c : ct_lsb_prop_u8 (Z.b2z c) = 0 <-> c = false.
Proof. destruct c; split; reflexivity || discriminate. Qed.

Lemma ct_lsb_prop_u16_b2z c : ct_lsb_prop_u16 (Z.b2z c) = if c then 65535 else 0.
Proof. destruct c; reflexivity. Qed.

Lemma sel_ones n (c : bool) a b : 0 <= n -> 0 <= a < 2 ^ n -> 0 <= b < 2 ^ n ->
  Z.lor (Z.land a (Z.lxor (Z.ones n) (if c then Z.ones n else 0))) (Z.land b (if c then Z.ones n else 0))
  = if c then b else a.
Proof.
  intros Hn Ha Hb. destruct c.
  - rewrite Z.lxor_nilpotent, Z.land_0_r, Z.lor_0_l, Z.land_ones by exact Hn. apply Z.mod_small. exact Hb.
  - rewrite Z.lxor_0_r, Z.land_0_r, Z.lor_0_r, Z.land_ones by exact Hn. apply Z.mod_small. exact Ha.
Qed.

Lemma sel16 c a b : 0 <= a < 65536 -> 0 <= b < 65536 ->
  Z.lor (Z.land a (Z.lxor 65535 (ct_lsb_prop_u16 (Z.b2z c)))) (Z.land b (ct_lsb_prop_u16 (Z.b2z c)))
  = if c then b else a.
Proof. intros Ha Hb. rewrite ct_lsb_prop_u16_b2z. exact (sel_ones 16 c a b ltac:(lia) Ha Hb). Qed.

Lemma sel8 c a b : 0 <= a < 256 -> 0 <= b < 256 ->
  Z.lor (Z.land a (Z.lxor 255 (ct_lsb_prop_u8 (Z.b2z c)))) (Z.land b (ct_lsb_prop_u8 (Z.b2z c)))
  = if c then b else a.
Proof. intros Ha Hb. rewrite ct_lsb_prop_u8_b2z. exact (sel_ones 8 c a b ltac:(lia) Ha Hb). Qed.
