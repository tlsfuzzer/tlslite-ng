(* C10: lemmas about the byte/integer conversions of the model (cryptomath). *)
From Coq Require Import ZArith List Bool Lia.
From TV Require Import Base.Prelude Base.PreludeFacts Base.Bytes Model.C10_RsaSig.
Import ListNotations.
Open Scope Z_scope.

Lemma all_bytes_forall l : all_bytes l = true <-> forall x, In x l -> 0 <= x < 256.
Proof. exact (all_bytes_In l). Qed.

(* cryptomath's conversions are the shared ones: every lemma of Base/Bytes.v about be, num and xor applies
   to int_to_bytes, bytesToNumber and xor_bytes as it stands. *)
Lemma c10_vocabulary : int_to_bytes = be /\ bytesToNumber = num /\ xor_bytes = xor.
Proof. repeat split. Qed.

(* restated under the model's names where a user rewrites with the equation or hands the fact to lia (which do not
   look through names) *)
Lemma b2n_cons x l : bytesToNumber (x :: l) = x * 256 ^ zlen l + bytesToNumber l.
Proof. exact (num_cons x l). Qed.

Lemma b2n_range l : all_bytes l = true -> 0 <= bytesToNumber l < 256 ^ zlen l.
Proof. exact (num_range l). Qed.

Lemma b2n_inj a b : all_bytes a = true -> all_bytes b = true -> zlen a = zlen b ->
  bytesToNumber a = bytesToNumber b -> a = b.
Proof. exact (num_inj a b). Qed.

Lemma n2b_b2n l k : all_bytes l = true -> zlen l = k -> numberToByteArray (bytesToNumber l) k = l.
Proof.
  intros H E. unfold numberToByteArray. subst k. unfold zlen. rewrite Nat2Z.id. apply be_of_num. exact H.
Qed.

Lemma b2n_n2b x k : 0 <= k -> 0 <= x < 256 ^ k -> bytesToNumber (numberToByteArray x k) = x.
Proof.
  intros Hk Hx. unfold numberToByteArray. apply num_be_small. rewrite Z2Nat.id; assumption.
Qed.

Lemma n2b_zlen x k : 0 <= k -> zlen (numberToByteArray x k) = k.
Proof. apply be_zlen_Z. Qed.

Lemma n2b_bytes x k : all_bytes (numberToByteArray x k) = true.
Proof. apply be_all_bytes. Qed.

Lemma numBits_log2 n : 0 < n -> numBits n = Z.log2 n + 1.
Proof. intros Hn. unfold numBits. destruct (Z.leb_spec n 0); [lia|reflexivity]. Qed.

Lemma numBits_spec n : 0 < n -> 2 ^ (numBits n - 1) <= n < 2 ^ numBits n.
Proof.
  intros Hn. rewrite numBits_log2, Z.add_simpl_r, Z.add_1_r by exact Hn. apply Z.log2_spec. exact Hn.
Qed.

Lemma numBits_pos n : 0 < n -> 1 <= numBits n.
Proof. intros Hn. rewrite numBits_log2 by exact Hn. pose proof (Z.log2_nonneg n). lia. Qed.

Lemma numBytes_bits n : numBits n <= 8 * numBytes n < numBits n + 8.
Proof.
  unfold numBytes. pose proof (Z.div_mod (numBits n + 7) 8 ltac:(lia)).
  pose proof (Z.mod_pos_bound (numBits n + 7) 8 ltac:(lia)). lia.
Qed.

Lemma numBytes_pos n : 0 < n -> 1 <= numBytes n.
Proof. intros Hn. pose proof (numBits_pos n Hn). pose proof (numBytes_bits n). lia. Qed.

Lemma numBytes_spec n : 0 < n -> 256 ^ (numBytes n - 1) <= n < 256 ^ numBytes n.
Proof.
  intros Hn. pose proof (numBits_spec n Hn) as [A B]. pose proof (numBytes_pos n Hn). pose proof (numBytes_bits n).
  rewrite !pow256_2 by lia.
  split; [eapply Z.le_trans; [|exact A]|eapply Z.lt_le_trans; [exact B|]]; apply Z.pow_le_mono_r; lia.
Qed.

Lemma list_eqb_false a b : a <> b -> list_eqb a b = false.
Proof. intros H. destruct (list_eqb a b) eqn:E; [|reflexivity]. apply list_eqb_spec in E. contradiction. Qed.
