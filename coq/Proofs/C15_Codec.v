(* C15 -- lemmas about the codec primitives (Model/C15_Codec.v) and about [take], the leaf of the format
   decoder (Model/C15_Fmt.v), through which the Parser primitives are read. *)
From Coq Require Import ZArith List Bool Lia.
From TV Require Import Base.Prelude Base.PreludeFacts Base.Bytes Model.C15_Codec Model.C15_Fmt.
Open Scope Z_scope.

Definition bytes (l : list Z) : Prop := Forall (fun x => 0 <= x < 256) l.

Lemma all_bytes_iff l : all_bytes l = true <-> bytes l.
Proof. exact (all_bytes_Forall l). Qed.

Lemma bytes_firstn n l : bytes l -> bytes (firstn n l).
Proof. apply Forall_firstn. Qed.

Lemma bytes_skipn n l : bytes l -> bytes (skipn n l).
Proof. apply Forall_skipn. Qed.

(* int.to_bytes / bytes_to_int of the codec are the shared be / num: Base/Bytes.v has their facts *)
Lemma c15_vocabulary : be_bytes = be /\ be_val = num.
Proof. split; reflexivity. Qed.

Lemma be_bytes_bytes n x : bytes (be_bytes n x).
Proof. apply all_bytes_iff, be_all_bytes. Qed.

Lemma pow256_pos n : 0 <= n -> 0 < 256 ^ n.
Proof. intros H. apply Z.pow_pos_nonneg; lia. Qed.

Lemma fits_iff x n : fits x n = true <-> 0 <= n /\ 0 <= x < 256 ^ n.
Proof. unfold fits. rewrite !andb_true_iff. lia. Qed.

Lemma w_add_ok w x n w' :
  w_add w x n = Ok w' <-> (0 <= n /\ 0 <= x < 256 ^ n) /\ w' = w ++ be_bytes (Z.to_nat n) x.
Proof.
  unfold w_add. destruct (fits x n) eqn:E.
  - apply fits_iff in E. split.
    + intros H. injection H as <-. auto.
    + intros [_ ->]. reflexivity.
  - split; [discriminate|]. intros [H _]. apply fits_iff in H. congruence.
Qed.

Lemma w_add_overflow w x n : ~ (0 <= n /\ 0 <= x < 256 ^ n) -> w_add w x n = Err ValueError.
Proof.
  intros H. unfold w_add. destruct (fits x n) eqn:E; [|reflexivity].
  apply fits_iff in E. contradiction.
Qed.

Lemma w_add_be_val w a : all_bytes a = true -> w_add w (be_val a) (zlen a) = Ok (w ++ a).
Proof.
  intros B. apply w_add_ok.
  split; [split; [apply zlen_nonneg|exact (num_range a B)]|]. unfold zlen. rewrite Nat2Z.id, be_of_num by exact B. reflexivity.
Qed.

Lemma w_add_var_bytes_ok w d ll w' :
  w_add_var_bytes w d ll = Ok w' <->
  (0 <= ll /\ zlen d < 256 ^ ll) /\ w' = w ++ be_bytes (Z.to_nat ll) (zlen d) ++ d.
Proof.
  unfold w_add_var_bytes, w_add. pose proof (zlen_nonneg d) as Hd. rewrite app_assoc.
  destruct (fits (zlen d) ll) eqn:E; cbn [bind].
  - apply fits_iff in E. split.
    + intros H. injection H as <-. split; [lia|reflexivity].
    + intros [_ ->]. reflexivity.
  - split; [discriminate|]. intros [K _]. assert (fits (zlen d) ll = true) by (apply fits_iff; lia).
    congruence.
Qed.

Lemma w_add_var_bytes_overflow w d ll : 256 ^ ll <= zlen d -> w_add_var_bytes w d ll = Err ValueError.
Proof.
  intros H. unfold w_add_var_bytes. rewrite w_add_overflow; [reflexivity|]. lia.
Qed.

Definition at_pos (a rest : list Z) (ic lc : Z) : Parser := mkParser (a ++ rest) (zlen a) ic lc.

(* [take] of the format decoder is getFixBytes on the input that remains at the parser's index
   ([p_getFixBytes_take]): what is proved of [take] is proved of the Parser primitives *)
Inductive take_spec (n : Z) (bs : list Z) : res (list Z * list Z) -> Prop :=
| take_spec_ok a r : bs = a ++ r -> zlen a = n -> take_spec n bs (Ok (a, r))
| take_spec_err : take_spec n bs (Err DecodeError).

Lemma takeP n bs : take_spec n bs (take n bs).
Proof.
  unfold take. destruct ((0 <=? n) && (n <=? zlen bs)) eqn:E; constructor.
  - symmetry. apply firstn_skipn.
  - apply firstn_zlen. lia.
Qed.

Lemma take_app a r : take (zlen a) (a ++ r) = Ok (a, r).
Proof.
  unfold take. rewrite zlen_app, firstn_zlen_app, skipn_zlen_app.
  pose proof (zlen_nonneg a). pose proof (zlen_nonneg r).
  destruct ((0 <=? zlen a) && (zlen a <=? zlen a + zlen r)) eqn:E; [reflexivity|lia].
Qed.

Lemma take_be n x r : 0 <= n -> take n (be_bytes (Z.to_nat n) x ++ r) = Ok (be_bytes (Z.to_nat n) x, r).
Proof. intros H. rewrite <- (be_zlen_Z n x H) at 1. apply take_app. Qed.

Lemma p_getFixBytes_take a r ic lc n :
  0 <= n ->
  p_getFixBytes (at_pos a r ic lc) n = ('(x, _) <- take n r ;; Ok (x, mkParser (a ++ r) (zlen a + n) ic lc)).
Proof.
  intros Hn. unfold p_getFixBytes, at_pos, p_set_index, take. cbn [pbytes pindex pindexCheck plengthCheck].
  rewrite zlen_app. pose proof (zlen_nonneg a).
  destruct (0 <=? n) eqn:E0; [|lia].
  destruct (n <=? zlen r) eqn:E; destruct (zlen a + n >? zlen a + zlen r) eqn:G; try lia; [|reflexivity].
  cbn [andb bind]. rewrite py_slice_nonneg by lia. rewrite skipn_zlen_app, Z.add_simpl_l. reflexivity.
Qed.

Lemma p_get_take a r ic lc n :
  0 <= n ->
  p_get (at_pos a r ic lc) n = ('(x, _) <- take n r ;; Ok (be_val x, mkParser (a ++ r) (zlen a + n) ic lc)).
Proof.
  intros Hn. unfold p_get. rewrite p_getFixBytes_take by exact Hn.
  destruct (take n r) as [[x r']|]; reflexivity.
Qed.

Lemma p_getFixBytes_app a b c ic lc :
  p_getFixBytes (at_pos a (b ++ c) ic lc) (zlen b)
  = Ok (b, mkParser (a ++ b ++ c) (zlen a + zlen b) ic lc).
Proof. rewrite p_getFixBytes_take, take_app by apply zlen_nonneg. reflexivity. Qed.

Lemma p_get_be a x n c ic lc :
  0 <= n -> 0 <= x < 256 ^ n ->
  p_get (at_pos a (be_bytes (Z.to_nat n) x ++ c) ic lc) n
  = Ok (x, mkParser (a ++ be_bytes (Z.to_nat n) x ++ c) (zlen a + n) ic lc).
Proof. intros Hn Hx. rewrite p_get_take, take_be by exact Hn. cbn [bind]. rewrite num_be_Z by assumption. reflexivity. Qed.

Lemma get_add a x n w c :
  w_add a x n = Ok w ->
  exists p', p_get (mkParser (w ++ c) (zlen a) 0 0) n = Ok (x, p') /\ pindex p' = zlen w /\ pbytes p' = w ++ c.
Proof.
  intros H. apply w_add_ok in H. destruct H as [[Hn Hx] ->]. rewrite <- app_assoc.
  fold (at_pos a (be_bytes (Z.to_nat n) x ++ c) 0 0). rewrite p_get_be by assumption.
  eexists. split; [reflexivity|]. cbn [pindex pbytes]. rewrite zlen_app, be_zlen_Z by exact Hn.
  split; reflexivity.
Qed.

Lemma p_getVarBytes_app a d ll c ic lc :
  0 <= ll -> zlen d < 256 ^ ll ->
  p_getVarBytes (at_pos a (be_bytes (Z.to_nat ll) (zlen d) ++ d ++ c) ic lc) ll
  = Ok (d, mkParser (a ++ be_bytes (Z.to_nat ll) (zlen d) ++ d ++ c) (zlen a + ll + zlen d) ic lc).
Proof.
  intros Hl Hd. unfold p_getVarBytes. rewrite p_get_be by (pose proof (zlen_nonneg d); lia). cbn [bind].
  pose proof (p_getFixBytes_app (a ++ be_bytes (Z.to_nat ll) (zlen d)) d c ic lc) as G. unfold at_pos in G.
  rewrite zlen_app, be_zlen_Z, <- app_assoc in G by exact Hl.
  exact G.
Qed.

(* startLengthCheck ... stopLengthCheck succeeds exactly if the code in between (which never
   writes the check fields) consumed the declared number of bytes *)
Lemma length_check_sound p ll p1 p2 :
  p_startLengthCheck p ll = Ok p1 ->
  pindexCheck p2 = pindexCheck p1 -> plengthCheck p2 = plengthCheck p1 ->
  (p_stopLengthCheck p2 = Ok tt <-> pindex p2 = pindex p1 + plengthCheck p1) /\
  (exists q, p_get p ll = Ok (plengthCheck p1, q) /\ pindex p1 = pindex q /\ pindexCheck p1 = pindex q).
Proof.
  unfold p_startLengthCheck. intros H HI HL.
  destruct (p_get p ll) as [[n q]|e] eqn:E; cbn [bind] in H; [|discriminate].
  injection H as <-. cbn [pindex pindexCheck plengthCheck] in *. split.
  - unfold p_stopLengthCheck. rewrite HI, HL.
    destruct (pindex p2 - pindex q =? n) eqn:Q; cbn [negb].
    + split; [lia|reflexivity].
    + split; [discriminate|lia].
  - exists q. auto.
Qed.

Lemma stopLengthCheck_err p : p_stopLengthCheck p <> Ok tt -> p_stopLengthCheck p = Err DecodeError.
Proof. unfold p_stopLengthCheck. destruct (negb _); [reflexivity|congruence]. Qed.

Lemma atLengthCheck_spec p :
  let used := pindex p - pindexCheck p in
  (used < plengthCheck p -> p_atLengthCheck p = Ok false) /\
  (used = plengthCheck p -> p_atLengthCheck p = Ok true) /\
  (used > plengthCheck p -> p_atLengthCheck p = Err DecodeError).
Proof.
  cbv zeta. unfold p_atLengthCheck.
  destruct (pindex p - pindexCheck p <? plengthCheck p) eqn:E1;
  destruct (pindex p - pindexCheck p =? plengthCheck p) eqn:E2; repeat split; intros; try reflexivity; lia.
Qed.
