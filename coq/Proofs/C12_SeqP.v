(* The big-endian encoding of Model/C12_Seq.v is the shared one of Base/Bytes.v (be_bytes is be,
   be_value is num), whose round trips and injectivity then apply to it; seq_bytes is that encoding
   below 2^64. *)
From Coq Require Import ZArith List Bool Lia.
From TV Require Import Base.Prelude Base.PreludeFacts Base.Bytes Model.C12_Seq.
Import ListNotations.
Open Scope Z_scope.

(* the closed form of Model/C12_Seq.v is the shared encoding, digit by digit from the front *)
Lemma be_bytes_is_be len x : be_bytes len x = be len x.
Proof.
  revert x. induction len as [|len IH]; intros x; [reflexivity|].
  rewrite be_S_front, <- IH. unfold be_bytes. cbn [seq map]. f_equal.
  - rewrite pow256_2 by lia. do 3 f_equal. lia.
  - rewrite <- seq_shift, map_map. apply map_ext. intros i. do 3 f_equal. lia.
Qed.

Lemma be_value_is_num l : be_value l = num l.
Proof.
  induction l as [|b l IH]; [reflexivity|].
  cbn [be_value]. rewrite num_cons, IH, (pow256_2 (zlen l)) by apply zlen_nonneg. reflexivity.
Qed.

Lemma be_value_bytes len x : be_value (be_bytes len x) = x mod 2 ^ (8 * Z.of_nat len).
Proof. rewrite be_bytes_is_be, be_value_is_num, num_be, pow256_2 by lia. reflexivity. Qed.

Lemma seq_bytes_ok n : 0 <= n < 2^64 -> seq_bytes n = Ok (be_bytes 8 n).
Proof.
  intros H. unfold seq_bytes.
  destruct (Z.leb_spec 0 n); [|lia]. destruct (Z.ltb_spec n (2^64)); [reflexivity|lia].
Qed.
