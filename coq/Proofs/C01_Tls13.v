(* TLS 1.3 records: de-padding, the inner plaintext, and sendRecord / recvRecord /
   _decryptAndUnseal under the TLS 1.3 flags as equations, read forwards (round trip) and
   backwards (what an accepted record must have been).  The section works under one hypothesis,
   tls13_cfg: the TLS 1.3 clause of mode_ok with a name for every fact. *)
From Coq Require Import ZArith List Bool Lia.
From TV Require Import Base.Prelude Base.PreludeFacts Base.Bytes Model.C01_RecordPipe Spec.C01_Contracts
  Model.C02_RecordAccept Spec.C02_Ideal Proofs.C01_Lists Proofs.C01_RoundTrip.
Import ListNotations.
Open Scope Z_scope.

Lemma strip_zeros_zeros k l : strip_zeros (repeat 0 k ++ l) = strip_zeros l.
Proof. induction k; cbn [repeat app strip_zeros]; [reflexivity|]. rewrite Z.eqb_refl. exact IHk. Qed.

Lemma rev_repeat {A} (x : A) k : rev (repeat x k) = repeat x k.
Proof.
  induction k; cbn [repeat rev]; [reflexivity|]. rewrite IHk. symmetry. apply repeat_cons.
Qed.

Lemma de_pad_spec data ty k : ty <> 0 -> de_pad (data ++ [ty] ++ zeros k) = ROk (ty, data).
Proof.
  intros Hty. unfold de_pad, zeros. rewrite !rev_app_distr, rev_repeat. cbn [rev app].
  rewrite <- app_assoc. rewrite strip_zeros_zeros. cbn [app strip_zeros].
  destruct (ty =? 0) eqn:E; [apply Z.eqb_eq in E; contradiction|].
  rewrite rev_involutive. reflexivity.
Qed.

Lemma strip_zeros_spec l : exists k, l = repeat 0 k ++ strip_zeros l /\
  match strip_zeros l with [] => True | x :: _ => x <> 0 end.
Proof.
  induction l as [|x l IH]; [exists 0%nat; cbn; auto|].
  cbn [strip_zeros]. destruct (x =? 0) eqn:E.
  - apply Z.eqb_eq in E. subst x. destruct IH as [k [H1 H2]]. exists (S k). cbn [repeat app]. rewrite <- H1. auto.
  - exists 0%nat. cbn [repeat app]. split; [reflexivity|]. apply Z.eqb_neq. exact E.
Qed.

Lemma de_pad_inv d ty content : de_pad d = ROk (ty, content) ->
  ty <> 0 /\ exists k, 0 <= k /\ d = content ++ [ty] ++ zeros k.
Proof.
  unfold de_pad. destruct (strip_zeros_spec (rev d)) as [k [H1 H2]].
  destruct (strip_zeros (rev d)) as [|t rr]; [discriminate|]. intros H. injection H as <- <-.
  split; [exact H2|]. exists (Z.of_nat k). split; [lia|].
  apply (f_equal (@rev Z)) in H1. rewrite rev_involutive in H1. rewrite H1.
  rewrite rev_app_distr. cbn [rev]. rewrite rev_repeat. unfold zeros. rewrite Nat2Z.id.
  rewrite <- app_assoc. reflexivity.
Qed.

(* mode_ok P R MTls13 c field by field, and the three flags the dispatchers test *)
Set Implicit Arguments.
Record tls13_cfg CS (P : Prim CS) (c : Cfg) : Prop := {
  t_limits : limits_ok c;
  t_ver : c_ver c = (3, 4);
  t_rec13 : c_tls13 c = true;
  t_enc : c_has_enc c = true;
  t_aead : c_aead c = true;
  t_aead_ok : aead_ok P (c_tag c);
  t_tag : 0 <= c_tag c <= 255;
  t_nonce : zlen (c_fixed_nonce c) = c_nonce_len c;
  t_nonce8 : 8 <= c_nonce_len c;
  t_pad_cb : pad_cb_ok c;
  t_plus : is_tls13_plus c = true;
  t_implicit : explicit_nonce c = false;
  t_xor : uses_xor_nonce c = true }.
Unset Implicit Arguments.

Lemma mode_tls13 {CS} {P : Prim CS} {R c} : mode_ok P R MTls13 c -> tls13_cfg P c.
Proof.
  intros [Hl [Hv [H13 [He [Ha [Hok [Ht [Hn [Hn8 Hcb]]]]]]]]].
  assert (Hp : is_tls13_plus c = true) by (unfold is_tls13_plus; rewrite Hv, H13; reflexivity).
  refine {| t_limits := Hl; t_ver := Hv; t_rec13 := H13; t_enc := He; t_aead := Ha; t_aead_ok := Hok; t_tag := Ht;
            t_nonce := Hn; t_nonce8 := Hn8; t_pad_cb := Hcb; t_plus := Hp; t_implicit := _; t_xor := _ |}.
  - unfold explicit_nonce. rewrite Hp. apply andb_false_r.
  - unfold uses_xor_nonce. rewrite Hp. apply orb_true_r.
Qed.

Lemma zlen_inner (data : list Z) ty k : 0 <= k -> zlen (data ++ [ty] ++ zeros k) = zlen data + 1 + k.
Proof. intros H. rewrite !zlen_app, zlen_zeros, zlen_cons, zlen_nil by exact H. lia. Qed.

(* the record body a sender at sequence number n makes of an inner plaintext *)
Definition sealed13 {CS} (P : Prim CS) (c : Cfg) (n : Z) (inner : list Z) : list Z :=
  pr_seal P (xor_nonce (c_fixed_nonce c) (be_bytes 8 n)) inner (aad13 23 (3, 3) (zlen inner + c_tag c)).

Section Tls13.
Context {CS : Type} {P : Prim CS} {c : Cfg}.
Hypothesis T : tls13_cfg P c.

Lemma inner_plaintext_ok ty data : 1 <= ty <= 255 -> zlen data <= c_send_limit c ->
  exists k, 0 <= k /\ inner_plaintext c ty data = ROk (data ++ [ty] ++ zeros k) /\
            zlen data + 1 + k <= c_send_limit c + 1.
Proof.
  intros Hty Hl. pose proof (t_pad_cb T) as Hcb.
  unfold inner_plaintext. assert (Hb : is_byte ty = true) by (apply is_byte_iff; lia).
  rewrite Hb. cbn [negb]. unfold pad_cb_ok in Hcb.
  destruct (c_pad_cb c) as [cb|].
  - set (k := cb (zlen (data ++ [ty])) ty (c_send_limit c - zlen (data ++ [ty]) - 1)).
    specialize (Hcb (zlen (data ++ [ty])) ty (c_send_limit c - zlen (data ++ [ty]) - 1)). fold k in Hcb.
    rewrite zlen_app in Hcb. change (zlen [ty]) with 1 in Hcb.
    exists k. destruct (k <? 0) eqn:E; [lia|]. split; [lia|]. split; [rewrite <- app_assoc; reflexivity|lia].
  - exists 0. split; [lia|]. split; [cbn [zeros Z.to_nat repeat]; rewrite app_nil_r; reflexivity|lia].
Qed.

Lemma get_nonce13 n : get_nonce c (be_bytes 8 n) = ROk (xor_nonce (c_fixed_nonce c) (be_bytes 8 n)).
Proof. apply get_nonce_xor; [apply T|rewrite be_zlen, (t_nonce T); apply T]. Qed.

Lemma unseal13 (r : St CS) hty hver body :
  decrypt_and_unseal c P r (hty, hver, body) =
  ('(seqb, s1) <~ next_seq r ;;
   if c_tag c >? zlen body then RErr EBadMac else
   if negb (hty =? 23) then RErr EUnexpected else
   if negb (pairZ_eqb hver (3, 3)) then RErr EIllegalParam else
   match pr_open P (xor_nonce (c_fixed_nonce c) seqb) body (aad13 hty hver (zlen body)) with
   | Some p => ROk (s1, p)
   | None => RErr EBadMac
   end).
Proof.
  unfold decrypt_and_unseal.
  destruct (next_seq r) as [[seqb s1]|e] eqn:Hns; [|reflexivity]. cbn [rbind].
  apply next_seq_inv in Hns. destruct Hns as [_ [-> _]].
  rewrite (t_implicit T), get_nonce13, (t_plus T). cbn [rbind].
  destruct (c_tag c >? zlen body); [reflexivity|]. destruct (hty =? 23); [|reflexivity].
  destruct (pairZ_eqb hver (3, 3)); reflexivity.
Qed.

Lemma unseal13_inv (r r' : St CS) hty hver body inner :
  decrypt_and_unseal c P r (hty, hver, body) = ROk (r', inner) ->
  0 <= st_seq r < 18446744073709551616 /\ r' = bump r /\ hty = 23 /\ hver = (3, 3) /\
  pr_open P (xor_nonce (c_fixed_nonce c) (be_bytes 8 (st_seq r))) body (aad13 23 (3, 3) (zlen body)) = Some inner.
Proof.
  intros H.
  destruct (unseal_inv P c _ _ _ _ _ _ H) as [nonce [buf [aad [Hr Hr' Ho _ Hnb Haad]]]].
  unfold nonce_recv in Hnb. rewrite (t_implicit T), get_nonce13 in Hnb. injection Hnb as <- <-.
  rewrite (t_plus T) in Haad. destruct Haad as [-> [-> ->]]. auto.
Qed.

(* a record that recvRecord passes through as it is: change_cipher_spec, and a short alert before any
   protected record while allow_plaintext_alert is set *)
Definition passes_plain (r : St CS) (hty : Z) (body : list Z) : bool :=
  (hty =? 20) || (c_plain_alert c && (hty =? 21) && (zlen body <? 3) && (st_seq r =? 0)).

(* The tail may be written as for application_data because _decryptAndUnseal refuses every other
   outer type (unseal13). *)
Lemma unprotect13_eq (r : St CS) hty hver body :
  unprotect c P r (hty, hver, body) =
  if zlen body >? c_recv_limit c + 256 then RErr EOverflow else
  if passes_plain r hty body
  then (if zlen body >? c_recv_limit c then RErr EOverflow else ROk (r, (hty, body)))
  else '(s1, d1) <~ decrypt_and_unseal c P r (hty, hver, body) ;;
       if zlen d1 >? c_recv_limit c + 1 then RErr EOverflow else
       '(ty, d2) <~ de_pad d1 ;;
       if ty =? 20 then RErr EUnexpected else
       if zlen d2 >? c_recv_limit c then RErr EOverflow else ROk (s1, (ty, d2)).
Proof.
  unfold unprotect, passes_plain. rewrite (t_plus T), (t_rec13 T), (t_enc T), (t_aead T). cbn [andb].
  destruct (zlen body >? c_recv_limit c + 256) eqn:E; [destruct (zlen body >? c_recv_limit c + 2048); reflexivity|].
  destruct (zlen body >? c_recv_limit c + 2048) eqn:E2; [lia|]. rewrite andb_true_r.
  destruct (Z.eqb_spec hty 20) as [->|H20]; [reflexivity|]. cbn [orb].
  destruct (c_plain_alert c && (hty =? 21) && (zlen body <? 3) && (st_seq r =? 0)) eqn:Eb.
  - assert (hty = 21) as -> by (rewrite !andb_true_iff, Z.eqb_eq in Eb; apply Eb). reflexivity.
  - destruct (Z.eqb_spec hty 23) as [->|H23].
    + destruct (decrypt_and_unseal c P r (23, hver, body)) as [[s1 d1]|e]; [|reflexivity]. cbn [rbind].
      destruct (zlen d1 >? c_recv_limit c + 1); [reflexivity|].
      destruct (de_pad d1) as [[ty d2]|e]; [|reflexivity]. cbn [rbind]. destruct (ty =? 20); reflexivity.
    + rewrite unseal13. destruct (next_seq r) as [[seqb s1]|e]; [|reflexivity]. cbn [rbind].
      destruct (c_tag c >? zlen body); [reflexivity|].
      destruct (Z.eqb_spec hty 23); [contradiction|reflexivity].
Qed.

Lemma unprotect13 (r : St CS) hver body :
  unprotect c P r (23, hver, body) =
  (if zlen body >? c_recv_limit c + 256 then RErr EOverflow else
   '(s1, d1) <~ decrypt_and_unseal c P r (23, hver, body) ;;
   if zlen d1 >? c_recv_limit c + 1 then RErr EOverflow else
   '(ty, d2) <~ de_pad d1 ;;
   if ty =? 20 then RErr EUnexpected else
   if zlen d2 >? c_recv_limit c then RErr EOverflow else ROk (s1, (ty, d2))).
Proof. rewrite unprotect13_eq. unfold passes_plain. cbn [Z.eqb orb andb]. rewrite andb_false_r. reflexivity. Qed.

Lemma unprotect13_inv (r r' : St CS) hver body ty p :
  unprotect c P r (23, hver, body) = ROk (r', (ty, p)) ->
  exists inner, decrypt_and_unseal c P r (23, hver, body) = ROk (r', inner) /\ de_pad inner = ROk (ty, p) /\
                ty <> 20 /\ zlen inner <= c_recv_limit c + 1 /\ zlen p <= c_recv_limit c.
Proof.
  intros H. rewrite unprotect13 in H.
  destruct (zlen body >? c_recv_limit c + 256); [discriminate|].
  apply rbind_ok_inv in H. destruct H as [[s1 d1] [Hd H]].
  destruct (zlen d1 >? c_recv_limit c + 1) eqn:E1; [discriminate|].
  apply rbind_ok_inv in H. destruct H as [[ty1 d2] [Hdp H]].
  destruct (ty1 =? 20) eqn:E20; [discriminate|]. destruct (zlen d2 >? c_recv_limit c) eqn:E2; [discriminate|].
  injection H as <- <- <-. apply Z.eqb_neq in E20. exists d1. repeat split; auto; lia.
Qed.

Lemma unprotect13_ccs (r : St CS) hver body :
  unprotect c P r (20, hver, body) = if zlen body >? c_recv_limit c then RErr EOverflow else ROk (r, (20, body)).
Proof.
  rewrite unprotect13_eq. cbn [passes_plain Z.eqb orb].
  destruct (Z.gtb_spec (zlen body) (c_recv_limit c + 256)); [|reflexivity].
  destruct (Z.gtb_spec (zlen body) (c_recv_limit c)); [reflexivity|lia].
Qed.

Lemma protect13_ccs (s : St CS) data :
  protect c P s (20, data) = if 65536 <=? zlen data then RErr EValue else ROk (s, (20, (3, 3), data)).
Proof.
  unfold protect. rewrite (t_plus T), (t_enc T), (t_ver T). change (20 =? 20) with true. cbn [andb negb rbind].
  change (ver_lt (3, 3) (3, 4)) with true. change (is_byte 20) with true. cbn [andb negb orb rbind].
  reflexivity.
Qed.

Lemma seal13 (s : St CS) inner ch :
  0 <= st_seq s < 18446744073709551616 -> zlen inner + c_tag c < 65536 ->
  encrypt_then_seal c P s 23 inner = ROk (bump s, sealed13 P c (st_seq s) inner) /\
  aead_body_with c P s 23 inner ch = ROk (bump s, sealed13 P c (st_seq s) inner).
Proof.
  intros Hs Hl. pose proof (t_tag T). pose proof (zlen_nonneg inner).
  unfold encrypt_then_seal, aead_body_with. rewrite next_seq_ok by exact Hs. cbn [rbind].
  rewrite (t_plus T), (t_implicit T), get_nonce13. change (is_byte 23) with true.
  rewrite (div256_byte (zlen inner + c_tag c)) by lia. cbn [andb negb rbind].
  rewrite zlen_xor_nonce, (t_nonce T), Z.eqb_refl. split; reflexivity.
Qed.

Lemma protect_with_tls13 (s : St CS) ty data k : ty <> 20 -> 0 <= k ->
  0 <= st_seq s < 18446744073709551616 -> zlen data + 1 + k + c_tag c < 65536 ->
  protect_with c P s (ty, data) {| ch_pad := []; ch_ivb := []; ch_nonce := []; ch_zeros := k |} (3, 3) =
  ROk (bump s, (23, (3, 3), sealed13 P c (st_seq s) (data ++ [ty] ++ zeros k))).
Proof.
  intros H20 Hk Hs Hl.
  destruct (seal13 s (data ++ [ty] ++ zeros k) {| ch_pad := []; ch_ivb := []; ch_nonce := []; ch_zeros := k |} Hs)
    as [_ Hab]; [rewrite zlen_inner by exact Hk; exact Hl|].
  unfold protect_with. rewrite (t_plus T), (t_enc T).
  destruct (ty =? 20) eqn:E; [apply Z.eqb_eq in E; contradiction|]. cbn [andb negb].
  rewrite (t_ver T). change (ver_lt (3, 3) (3, 4)) with true. change (23 =? 20) with false. cbn [andb].
  rewrite (t_aead T). cbn [andb ch_zeros]. rewrite Hab. reflexivity.
Qed.

Lemma tls13_inner_accepted {R} (s r : St CS) ty data k :
  sync R s r -> ty <> 0 -> ty <> 20 -> 0 <= k ->
  zlen data + 1 + k <= c_recv_limit c + 1 -> st_seq s < 18446744073709551616 ->
  let body := sealed13 P c (st_seq s) (data ++ [ty] ++ zeros k) in
  unprotect c P r (23, (3, 3), body) = ROk (bump r, (ty, data)) /\ zlen body = zlen data + 1 + k + c_tag c.
Proof.
  intros [_ [Hseq H0]] Hty H20 Hk Hkl Hs. set (inner := data ++ [ty] ++ zeros k). intros body.
  pose proof (t_limits T) as [_ [_ Hl3]]. pose proof (t_tag T) as Htag.
  destruct (t_aead_ok T (xor_nonce (c_fixed_nonce c) (be_bytes 8 (st_seq s))) inner (aad13 23 (3, 3) (zlen inner + c_tag c)))
    as [Hopen Hslen]. fold (sealed13 P c (st_seq s) inner) in Hopen, Hslen. fold body in Hopen, Hslen.
  assert (Hil : zlen inner = zlen data + 1 + k) by (apply zlen_inner; exact Hk).
  pose proof (zlen_nonneg data). split; [|lia].
  rewrite unprotect13, unseal13.
  destruct (zlen body >? c_recv_limit c + 256) eqn:E1; [lia|].
  rewrite next_seq_ok by lia. cbn [rbind]. destruct (c_tag c >? zlen body) eqn:E2; [lia|].
  change (23 =? 23) with true. change (pairZ_eqb (3, 3) (3, 3)) with true. cbn [negb].
  rewrite <- Hseq, Hslen, Hopen. cbn [rbind].
  destruct (zlen inner >? c_recv_limit c + 1) eqn:E3; [lia|]. unfold inner. rewrite de_pad_spec by exact Hty.
  cbn [rbind]. destruct (ty =? 20) eqn:E20; [apply Z.eqb_eq in E20; contradiction|].
  destruct (zlen data >? c_recv_limit c) eqn:E4; [lia|reflexivity].
Qed.

Lemma zlen_sealed13 n inner : zlen (sealed13 P c n inner) = zlen inner + c_tag c.
Proof. apply (t_aead_ok T). Qed.

(* the converse of tls13_inner_accepted, open being tight *)
Lemma accepted13_sealed (r r' : St CS) hver body ty data : aead_tight P ->
  unprotect c P r (23, hver, body) = ROk (r', (ty, data)) ->
  hver = (3, 3) /\ 0 <= st_seq r < 18446744073709551616 /\ r' = bump r /\ (ty <> 0 /\ ty <> 20) /\
  zlen data <= c_recv_limit c /\
  exists k, 0 <= k /\ zlen data + 1 + k <= c_recv_limit c + 1 /\
            body = sealed13 P c (st_seq r) (data ++ [ty] ++ zeros k).
Proof.
  intros Htight Hacc. destruct (unprotect13_inv _ _ _ _ _ _ Hacc) as [inner [Hdu [Hdp [H20 [Hil Hdl]]]]].
  destruct (unseal13_inv _ _ _ _ _ _ Hdu) as [Hr [-> [_ [-> Hopen]]]].
  apply de_pad_inv in Hdp. destruct Hdp as [Hty [k [Hk ->]]]. rewrite zlen_inner in Hil by exact Hk.
  apply Htight in Hopen. repeat (split; [auto|]). exists k. split; [exact Hk|]. split; [exact Hil|].
  unfold sealed13. replace (zlen (data ++ [ty] ++ zeros k) + c_tag c) with (zlen body); [exact Hopen|].
  rewrite Hopen at 1. apply (t_aead_ok T).
Qed.

(* sendRecord hides the type of everything but change_cipher_spec *)
Lemma protect13 (s : St CS) ty data : ty <> 20 ->
  protect c P s (ty, data) =
  (d <~ inner_plaintext c ty data ;; '(s1, body) <~ encrypt_then_seal c P s 23 d ;;
   if 65536 <=? zlen body then RErr EValue else ROk (s1, (23, (3, 3), body))).
Proof.
  intros H20. unfold protect. rewrite (t_plus T), (t_enc T), (t_aead T), (t_ver T).
  destruct (ty =? 20) eqn:E; [apply Z.eqb_eq in E; contradiction|]. cbn [andb negb].
  destruct (inner_plaintext c ty data) as [d|e]; reflexivity.
Qed.

Lemma tls13_rt {R} (s r : St CS) ty data :
  sync R s r -> rec_ok c ty data -> ty <> 20 ->
  st_seq s < 18446744073709551616 ->
  exists s' w r', round_trip P R c s r ty data s' w r' /\
    exists k, 0 <= k /\ zlen data + 1 + k <= c_send_limit c + 1 /\
              zlen (snd w) = zlen data + 1 + k + c_tag c.
Proof.
  intros Hsync [Hty Hl] H20 Hs. pose proof Hsync as [_ [_ H0]].
  destruct (inner_plaintext_ok ty data Hty Hl) as [k [Hk0 [Hin Hk1]]].
  pose proof (t_limits T) as [Hl1 [Hl2 Hl3]]. pose proof (t_tag T) as Htag. pose proof (zlen_nonneg data).
  assert (Hil : zlen (data ++ [ty] ++ zeros k) = zlen data + 1 + k) by (apply zlen_inner; exact Hk0).
  destruct (seal13 s (data ++ [ty] ++ zeros k) {| ch_pad := []; ch_ivb := []; ch_nonce := []; ch_zeros := 0 |})
    as [Hseal _]; [lia|lia|].
  destruct (tls13_inner_accepted s r ty data k Hsync) as [Hacc Hlen]; try lia.
  assert (Hp : protect c P s (ty, data) = ROk (bump s, (23, (3, 3), sealed13 P c (st_seq s) (data ++ [ty] ++ zeros k)))).
  { rewrite (protect13 _ _ _ H20), Hin. cbn [rbind]. rewrite Hseal. cbn [rbind].
    destruct (65536 <=? _) eqn:E; [lia|reflexivity]. }
  eexists _, _, _. split; [split; [exact Hp|exact Hacc|exact (sync_bump R s r Hsync)|reflexivity]|].
  exists k. auto.
Qed.
End Tls13.
