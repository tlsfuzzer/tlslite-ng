(* C03 -- concrete configurations over the regenerated tables and default settings: satisfiability examples,
   evaluated here, and the configurations whose runs refute a statement in Props/C03.v. *)
From Coq Require Import ZArith List Bool.
From TV Require Import Base.Prelude Model.C03_Negotiate Model.C03_Resume Gen.C03Defaults.
Import ListNotations.
Open Scope Z_scope.

Definition D := default_settings.

(* A refutation that concerns a defect for which a repair is proposed: it is stated for the tree as
   generated -- if the repair flag regenerated from the tree is set the statement is vacuous (and the
   theorem that takes the flag as a hypothesis applies instead). *)
Definition refuted_unless (repaired : bool) (P : Prop) : Prop := if repaired then True else P.
(* proves refuted_unless f P: nothing to do if the regenerated flag f is set, tac proves P otherwise *)
Ltac by_flag f tac := unfold refuted_unless, f; cbv iota; first [exact I | tac].

(* what validate() returns for a lower maxVersion *)
Definition with_versions (st : Settings) (lo hi : Z) (vs macs : list Z) : Settings :=
  {| st_minV := lo; st_maxV := hi; st_versions := vs; st_ciphers := st_ciphers st; st_macs := macs;
     st_kxs := st_kxs st; st_curves := st_curves st; st_dhgroups := st_dhgroups st; st_shares := st_shares st;
     st_default_curve := st_default_curve st; st_rsa_hashes := st_rsa_hashes st;
     st_rsa_schemes := st_rsa_schemes st; st_ecdsa_hashes := st_ecdsa_hashes st;
     st_dsa_hashes := st_dsa_hashes st; st_more_sigs := st_more_sigs st; st_min_key := st_min_key st;
     st_max_key := st_max_key st; st_etm := st_etm st; st_ems := st_ems st; st_req_ems := st_req_ems st;
     st_rsl := st_rsl st; st_psks := st_psks st; st_psk_modes := st_psk_modes st; st_dh_bits := st_dh_bits st |}.

Definition with_keys (st : Settings) (kxs dhg : list Z) (lo hi : Z) : Settings :=
  {| st_minV := st_minV st; st_maxV := st_maxV st; st_versions := st_versions st; st_ciphers := st_ciphers st;
     st_macs := st_macs st; st_kxs := kxs; st_curves := st_curves st; st_dhgroups := dhg; st_shares := st_shares st;
     st_default_curve := st_default_curve st; st_rsa_hashes := st_rsa_hashes st;
     st_rsa_schemes := st_rsa_schemes st; st_ecdsa_hashes := st_ecdsa_hashes st;
     st_dsa_hashes := st_dsa_hashes st; st_more_sigs := st_more_sigs st; st_min_key := lo;
     st_max_key := hi; st_etm := st_etm st; st_ems := st_ems st; st_req_ems := st_req_ems st;
     st_rsl := st_rsl st; st_psks := st_psks st; st_psk_modes := st_psk_modes st; st_dh_bits := st_dh_bits st |}.

Definition rsa2048 := {| ct_alg := 0; ct_bits := 2048; ct_curve := 0; ct_id := 0; ct_small_key := false |}.
Definition rsa1024 := {| ct_alg := 0; ct_bits := 1024; ct_curve := 0; ct_id := 8; ct_small_key := true |}.
Definition ecdsa256 := {| ct_alg := 2; ct_bits := 256; ct_curve := 23; ct_id := 2; ct_small_key := false |}.
Definition dsa2048 := {| ct_alg := 5; ct_bits := 2048; ct_curve := 0; ct_id := 7; ct_small_key := false |}.

Definition client_of (st : Settings) (flavour : Z) (cert : option Cert) (alpn : option (list Z)) : Client :=
  {| cl_set := st; cl_flavour := flavour; cl_cert := cert; cl_alpn := alpn; cl_npn := None; cl_sni := Some 1;
     cl_srp_user := 0; cl_fallback := false; cl_ticket := None; cl_hello2_len := 0 |}.
Definition server_of (st : Settings) (cert : option Cert) (anon req : bool) (alpn : option (list Z)) : Server :=
  {| sv_set := st; sv_cert := cert; sv_srp := None; sv_anon := anon; sv_req_cert := req; sv_alpn := alpn;
     sv_npn := None; sv_nst_len := 0; sv_ticket := None |}.

(* the default pair completes in TLS 1.3 with TLS_AES_256_GCM_SHA384 on secp256r1 *)
Example default_pair_negotiates :
  match negotiate (client_of D 0 None None) (server_of D (Some rsa2048) false false None) with
  | Ok o => vw_version (oc_server o) = 4 /\ vw_suite (oc_server o) = 4866 /\ fl_group (oc_flight o) = Some 23
  | Err _ => False end.
Proof. vm_compute. repeat split; reflexivity. Qed.

Example tls12_pair_negotiates :
  match negotiate (client_of (with_versions D 1 3 [3; 2; 1] (st_macs D)) 0 None (Some [1; 2]))
                  (server_of D (Some rsa2048) false false (Some [2; 1])) with
  | Ok o => vw_version (oc_server o) = 3 /\ vw_alpn (oc_server o) = Some 1 /\ vw_etm (oc_client o) = false
  | Err _ => False end.
Proof. vm_compute. repeat split; reflexivity. Qed.

Example disjoint_ciphers_fail :
  match negotiate (client_of (with_keys D [] (st_dhgroups D) 1023 8193) 2 None None)
                  (server_of D None true false None) with
  | Err (OtherExn k) => 2000 < k < 2900     (* the server refuses with an alert *)
  | _ => False end.
Proof. vm_compute. split; reflexivity. Qed.

(* a server whose maxVersion is TLS 1.1 (until /repo f81c02a its `versions` list was only stripped of TLS 1.3 by
   validate()) negotiates TLS 1.2 with a default client *)
Definition srv_max11 := server_of (with_versions D 1 2 [3; 2; 1] [0]) (Some rsa2048) false false None.

(* until /repo 313c6d9 a client that demands 3072-bit keys completes an anonymous DH handshake over 2048 bits *)
Definition cl_dh3072 := client_of (with_keys (with_versions D 1 3 [3; 2; 1] (st_macs D)) [7] [] 3072 8193) 2 None None.
Definition srv_anon := server_of (with_keys D [7] (st_dhgroups D) 1023 8193) None true false None.

(* until /repo 756abb1 a TLS 1.3 server that demands 4096-bit keys records a 1024-bit RSA client certificate *)
Definition srv_min4096 := server_of (with_keys D (st_kxs D) (st_dhgroups D) 4096 8193) (Some ecdsa256) false true None.
Definition cl_rsa1024 := client_of D 0 (Some rsa1024) None.

Definition D12 := with_versions D 1 3 [3; 2; 1] (st_macs D).

(* a handshake that ends without any alert: settings that validate() accepts (DSA hashes only, TLS 1.3
   only) leave no signature algorithm to advertise and, until /repo 9127f2c, the client dies on `assert sig_list` *)
Definition with_sigs (st : Settings) (lo : Z) (vs rsa ecdsa more : list Z) : Settings :=
  {| st_minV := lo; st_maxV := st_maxV st; st_versions := vs; st_ciphers := st_ciphers st;
     st_macs := st_macs st; st_kxs := st_kxs st; st_curves := st_curves st; st_dhgroups := st_dhgroups st;
     st_shares := st_shares st; st_default_curve := st_default_curve st; st_rsa_hashes := rsa;
     st_rsa_schemes := st_rsa_schemes st; st_ecdsa_hashes := ecdsa;
     st_dsa_hashes := st_dsa_hashes st; st_more_sigs := more; st_min_key := st_min_key st;
     st_max_key := st_max_key st; st_etm := st_etm st; st_ems := st_ems st; st_req_ems := st_req_ems st;
     st_rsl := st_rsl st; st_psks := st_psks st; st_psk_modes := st_psk_modes st; st_dh_bits := st_dh_bits st |}.
Definition cl_dsa_only := client_of (with_sigs D 4 [4] [] [] []) 0 None None.

Example alpn_ignored_without_server_list :
  match negotiate (client_of D 0 None (Some [1])) (server_of D (Some rsa2048) false false None) with
  | Ok o => vw_alpn (oc_client o) = None /\ vw_alpn (oc_server o) = None
  | Err _ => False end.
Proof. vm_compute. split; reflexivity. Qed.

(* until /repo 7678352 the client kept reporting 1: former finding C03-15 *)
Example resumed_without_alpn :
  match negotiate (client_of D12 0 None (Some [1])) (server_of D (Some rsa2048) false false (Some [1])) with
  | Ok o => match resume_legacy false (client_of D12 0 None None) (server_of D (Some rsa2048) false false (Some [1]))
                                (oc_client o) (oc_server o) with
            | Ok r => rs_resumed r = true /\ vw_alpn (rs_client r) = None /\ vw_alpn (rs_server r) = None
            | Err _ => False end
  | Err _ => False end.
Proof. vm_compute. repeat split; reflexivity. Qed.

Example resumed_with_limits :
  match negotiate (client_of D12 0 None None) (server_of D (Some rsa2048) false false None) with
  | Ok o => match resume_legacy true (client_of D12 0 None None) (server_of D (Some rsa2048) false false None)
                                (oc_client o) (oc_server o) with
            | Ok r => rs_resumed r = true /\ vw_send_limit (rs_client r) = 16384
            | Err _ => False end
  | Err _ => False end.
Proof. vm_compute. split; reflexivity. Qed.
