(* What each function of the model guarantees whatever happens (`f_spec`: a frame `same_core` for
   socket writes, a preorder `st_le_hs` for everything that may shut the connection down, `took` for
   everything that takes messages off the queue), and what it returns, as an equation, when
   nothing is queued for writing (`f_quiet`; `quit r s` is the state a successful _shutdown(r)
   leaves) or the send direction is dead (`f_dead`).  What any event does to the life of the
   connection is the relation `life` (`step_life`); event sequences rest on it and `run_invariant`. *)
From Coq Require Import ZArith List Bool Lia.
From TV Require Import Model.C17_Lifecycle.
Import ListNotations.
Open Scope Z_scope.

Ltac inverts H := inversion H; subst; clear H.

Definition sess_le (a b : option bool) : Prop := b = a \/ (a = Some true /\ b = Some false).

Lemma sess_le_refl a : sess_le a a.
Proof. left; reflexivity. Qed.

Lemma sess_le_trans a b c : sess_le a b -> sess_le b c -> sess_le a c.
Proof.
  unfold sess_le. intros [->|[-> ->]] [->|[E ->]]; auto; try discriminate.
Qed.

Lemma sess_le_off a : sess_le a (option_map (fun _ => false) a).
Proof. destruct a as [[|]|]; cbn; [right|left|left]; auto. Qed.

Lemma off_off (a : option bool) :
  option_map (fun _ => false) (option_map (fun _ : bool => false) a) = option_map (fun _ => false) a.
Proof. destruct a; reflexivity. Qed.

(* the frame of all I/O: every field but the two queues (wq, inq), the buffering flag, the
   send-failure countdown and the wire *)
Definition same_core (s s' : st) : Prop :=
  closed s' = closed s /\ hs s' = hs s /\ refc s' = refc s /\ sess s' = sess s /\ ign s' = ign s /\
  csock s' = csock s /\ tls13 s' = tls13 s /\ split s' = split s /\ recsz s' = recsz s /\
  rbuf s' = rbuf s /\ rxe s' = rxe s /\ sock_open s' = sock_open s.

Lemma same_core_refl s : same_core s s.
Proof. unfold same_core; repeat split. Qed.

Lemma same_core_trans a b c : same_core a b -> same_core b c -> same_core a c.
Proof. unfold same_core. intuition congruence. Qed.

Section SameCore.
  Context {s s' : st} (C : same_core s s').
  Lemma same_core_closed : closed s' = closed s. Proof. unfold same_core in C. tauto. Qed.
  Lemma same_core_hs : hs s' = hs s. Proof. unfold same_core in C. tauto. Qed.
  Lemma same_core_sess : sess s' = sess s. Proof. unfold same_core in C. tauto. Qed.
  Lemma same_core_rbuf : rbuf s' = rbuf s. Proof. unfold same_core in C. tauto. Qed.
  Lemma same_core_ign : ign s' = ign s. Proof. unfold same_core in C. tauto. Qed.
End SameCore.

(* the transport has failed: the receive direction has ended (EOF or errno) with the socket still
   open; every further socket write fails with errno e *)
Definition rx_dead (s : st) : Prop := sock_open s = true /\ rxe s <> RxOpen.
Definition tx_dead (s : st) (e : Z) : Prop := sock_open s = true /\ exists k, txf s = Some (k, e) /\ k <= 0.

Lemma sock_send_spec ws s s' e : sock_send ws s = (s', e) ->
  same_core s s' /\ inq s' = inq s /\ wq s' = wq s /\ bufw s' = bufw s.
Proof.
  unfold sock_send. intros H.
  destruct (negb (sock_open s)); [|destruct (txf s) as [[k z]|]; [destruct (k <=? 0)|]];
    inverts H; unfold same_core; cbn; repeat split.
Qed.

Lemma sock_send_ok ws s : sock_open s = true -> txf s = None ->
  sock_send ws s = (set_wire (wire s ++ ws) s, None).
Proof. intros SO T. unfold sock_send. rewrite SO, T. reflexivity. Qed.

Lemma sock_send_dead ws s e : tx_dead s e -> sock_send ws s = (s, Some e).
Proof.
  intros (SO & k & T & K). unfold sock_send. rewrite SO, T. cbn.
  apply Z.leb_le in K. rewrite K. reflexivity.
Qed.

Lemma send_rec_spec w s s' e : send_rec w s = (s', e) ->
  same_core s s' /\ inq s' = inq s /\ bufw s' = bufw s /\ (bufw s = false -> wq s' = wq s).
Proof.
  unfold send_rec. intros H. destruct (bufw s) eqn:B.
  - inverts H. unfold same_core; cbn; repeat split; auto. discriminate.
  - apply sock_send_spec in H. rewrite B in H. tauto.
Qed.

Lemma send_rec_dead w s e : bufw s = false -> tx_dead s e -> send_rec w s = (s, Some e).
Proof. intros B T. unfold send_rec. rewrite B. apply sock_send_dead, T. Qed.

Lemma flush_spec s s' e : flush s = (s', e) ->
  same_core s s' /\ inq s' = inq s /\ bufw s' = bufw s /\ wq s' = [].
Proof.
  unfold flush. intros H. destruct (wq s) eqn:Q.
  - inverts H. auto using same_core_refl.
  - apply sock_send_spec in H. destruct H as (A & B & C & D).
    split; [eapply same_core_trans; [|exact A]; unfold same_core; cbn; repeat split|auto].
Qed.

Lemma flush_nil s : wq s = [] -> flush s = (s, None).
Proof. intros Q. unfold flush. rewrite Q. reflexivity. Qed.

Arguments sock_send : simpl never.
Arguments send_rec : simpl never.
Arguments flush : simpl never.

(* What every piece of the machine guarantees between entry and exit, a preorder: the session
   flag only goes off, ignoreAbruptClose (which the read loop consults) stays, a closed connection
   stays closed, `hs` stays.  The handshake wrapper, which ends the handshake, guarantees it from
   `set_hs false s` on. *)
Set Implicit Arguments.
Record st_le_hs (s s' : st) : Prop := {
  le_sess : sess_le (sess s) (sess s');
  le_ign : ign s' = ign s;
  le_closed : closed s = true -> closed s' = true;
  le_hs : hs s' = hs s }.
Unset Implicit Arguments.

Lemma st_le_hs_trans a b c : st_le_hs a b -> st_le_hs b c -> st_le_hs a c.
Proof.
  intros A B. split.
  - exact (sess_le_trans _ _ _ (le_sess A) (le_sess B)).
  - rewrite (le_ign B). exact (le_ign A).
  - intros C. exact (le_closed B (le_closed A C)).
  - rewrite (le_hs B). exact (le_hs A).
Qed.

Lemma st_le_hs_refl s : st_le_hs s s.
Proof. split; auto using sess_le_refl. Qed.

Lemma core_le s s' : same_core s s' -> st_le_hs s s'.
Proof.
  intros C. split; [| | |exact (same_core_hs C)].
  - rewrite (same_core_sess C). apply sess_le_refl.
  - exact (same_core_ign C).
  - rewrite (same_core_closed C). auto.
Qed.

Lemma set_inq_le q s : st_le_hs s (set_inq q s).
Proof. split; auto using sess_le_refl. Qed.
Lemma set_rbuf_le q s : st_le_hs s (set_rbuf q s).
Proof. split; auto using sess_le_refl. Qed.
Lemma set_bufw_le b s : st_le_hs s (set_bufw b s).
Proof. split; auto using sess_le_refl. Qed.

Lemma set_hs_mono s t : st_le_hs s t -> st_le_hs (set_hs false s) (set_hs false t).
Proof. intros A. split; [exact (le_sess A)|exact (le_ign A)|exact (le_closed A)|reflexivity]. Qed.

Lemma send_rec_le w s s' e : send_rec w s = (s', e) -> st_le_hs s s'.
Proof. intros H. exact (core_le _ _ (proj1 (send_rec_spec _ _ _ _ H))). Qed.

(* closed is set first and st_le_hs never reopens, so it suffices to follow st_le_hs from there *)
Lemma shutdown_spec r s s' e : shutdown r s = (s', e) -> closed s' = true /\ st_le_hs s s' /\ inq s' = inq s.
Proof.
  (* the last step, on whatever state closing the socket has left *)
  assert (forall t, st_le_hs t (if r then t else set_sess (option_map (fun _ => false) (sess t)) t)) as OFF
    by (intros t; destruct r; split; cbn; auto using sess_le_refl, sess_le_off).
  intros H. assert (st_le_hs (set_closed true s) s' /\ inq s' = inq s) as (A & Q).
  { revert H. unfold shutdown. cbn [csock set_closed]. destruct (csock s).
    - destruct (flush (set_closed true s)) as [s1 e1] eqn:F. apply flush_spec in F.
      destruct F as (C%core_le & Q & _).
      destruct e1; intros H; inverts H; [auto|]. split; [|destruct r; exact Q].
      eapply st_le_hs_trans; [exact C|]. eapply st_le_hs_trans; [|apply (OFF (set_sock_open false s1))].
      split; auto using sess_le_refl.
    - intros H. inverts H. split; [apply (OFF (set_closed true s))|destruct r; reflexivity]. }
  split; [exact (le_closed A eq_refl)|]. split; [|exact Q].
  eapply st_le_hs_trans; [|exact A]. split; auto using sess_le_refl.
Qed.

(* The state _shutdown(r) leaves when nothing is queued for writing, so that closing the socket
   cannot fail.  Written with setters over `set_closed true s` so that every field computes. *)
Definition quit (r : bool) (s : st) : st :=
  set_sess (if r then sess s else option_map (fun _ => false) (sess s))
    (set_sock_open (if csock s then false else sock_open s) (set_closed true s)).

Lemma shutdown_quiet r s : wq s = [] -> shutdown r s = (quit r s, None).
Proof.
  intros Q. unfold shutdown, quit. cbn [csock set_closed]. destruct (csock s).
  - rewrite flush_nil by exact Q. destruct r; reflexivity.
  - destruct r; reflexivity.
Qed.

Lemma raise_spec r x s s' o : raise_after_shutdown r x s = (s', o) ->
  st_le_hs s s' /\ closed s' = true /\ exists y, o = OExc y.
Proof.
  unfold raise_after_shutdown. destruct (shutdown r s) as [s1 e] eqn:S. intros H. inverts H.
  apply shutdown_spec in S. split; [tauto|]. split; [tauto|]. eexists; reflexivity.
Qed.

Lemma raise_quiet r x s : wq s = [] -> raise_after_shutdown r x s = (quit r s, OExc x).
Proof. intros Q. unfold raise_after_shutdown. rewrite shutdown_quiet by exact Q. reflexivity. Qed.

Arguments shutdown : simpl never.
Arguments raise_after_shutdown : simpl never.

Lemma send_error_spec d s s' x : send_error d s = (s', x) ->
  st_le_hs s s' /\ inq s' = inq s /\ ((exists z, x = XSock z) \/ x = XLocal d).
Proof.
  unfold send_error. intros H.
  destruct (flush s) as [s1 e1] eqn:F. apply flush_spec in F. destruct F as (C1%core_le & Q1 & _).
  destruct e1; [inverts H; eauto|].
  destruct (send_rec (WAlert 2 d) (set_bufw false s1)) as [s3 e3] eqn:S3.
  apply send_rec_spec in S3. destruct S3 as (C3%core_le & Q3 & _). cbn in Q3.
  assert (st_le_hs s s3) as A
    by (eapply st_le_hs_trans; [exact C1|]; eapply st_le_hs_trans; [apply set_bufw_le|exact C3]).
  destruct e3; [inverts H; split; [exact A|]; split; [congruence|eauto]|].
  destruct (shutdown false s3) as [s4 e4] eqn:S4. apply shutdown_spec in S4. destruct S4 as (_ & R4 & Q4).
  inverts H. split; [eapply st_le_hs_trans; eauto|]. split; [congruence|]. destruct e4; eauto.
Qed.

(* the alert branch answers a warning or close_notify with close_notify before the shutdown,
   socket errors of the answer ignored *)
Definition answered (b : bool) (s : st) : st := if b then fst (send_rec (WAlert 1 0) s) else s.

Lemma answered_frame b s :
  same_core s (answered b s) /\ inq (answered b s) = inq s /\ bufw (answered b s) = bufw s /\
  (bufw s = false -> wq (answered b s) = wq s).
Proof.
  unfold answered. destruct b; [|auto using same_core_refl].
  destruct (send_rec (WAlert 1 0) s) as [t e] eqn:E. apply send_rec_spec in E. exact E.
Qed.

Lemma alert_branch_spec l d s s' x : alert_branch l d s = (s', x) ->
  st_le_hs s s' /\ inq s' = inq s /\ ((exists z, x = XSock z) \/ x = XRemote d).
Proof.
  unfold alert_branch. fold (answered ((l =? 1) || (d =? 0)) s). intros H.
  destruct (answered_frame ((l =? 1) || (d =? 0)) s) as (C1%core_le & Q1 & _).
  destruct (shutdown (d =? 0) _) as [s2 e] eqn:S. apply shutdown_spec in S. destruct S as (_ & R2 & Q2).
  inverts H. split; [eapply st_le_hs_trans; eauto|]. split; [congruence|]. destruct e; eauto.
Qed.

Lemma alert_branch_quiet l d s : wq (answered ((l =? 1) || (d =? 0)) s) = [] ->
  alert_branch l d s = (quit (d =? 0) (answered ((l =? 1) || (d =? 0)) s), XRemote d).
Proof.
  intros Q. unfold alert_branch. fold (answered ((l =? 1) || (d =? 0)) s).
  rewrite shutdown_quiet by exact Q. reflexivity.
Qed.

Arguments send_error : simpl never.
Arguments alert_branch : simpl never.

Lemma no_input_spec s : no_input s = Blk \/ no_input s = Exc XAbrupt \/ exists e, no_input s = Exc (XSock e).
Proof. unfold no_input. destruct (negb (sock_open s)); [|destruct (rxe s)]; eauto. Qed.

Lemma recv_item_spec s s' res : recv_item s = (s', res) ->
  (exists i, res = Val i /\ inq s = i :: inq s' /\ st_le_hs s s') \/
  (s' = s /\ (res = Blk \/ res = Exc XAbrupt \/ exists e, res = Exc (XSock e))).
Proof.
  unfold recv_item. destruct (inq s) as [|i q]; intros H; inverts H.
  - right. split; [reflexivity|apply no_input_spec].
  - left. exists i. auto using set_inq_le.
Qed.

(* What a function that takes messages off the queue q guarantees.  n: how many messages a returned
   value has cost at least (1 where the value is a message, 0 for a send), which is what bounds the
   read loop (`loop_bound`). *)
Set Implicit Arguments.
Record took {A} (n : nat) (q : list item) (s s' : st) (res : r A) : Prop := {
  took_le : st_le_hs s s';
  took_fuel : res <> Fuel;
  took_queue : exists pre, q = pre ++ inq s' /\
    match res with
    | Val _ => closed s' = closed s /\ (n <= length pre)%nat
    | Exc (XRemote d) => exists l, In (IAlert l d) pre
    | _ => True
    end }.
Unset Implicit Arguments.

Lemma took_none {A} s s1 (res : r A) : st_le_hs s s1 -> closed s1 = closed s -> inq s1 = inq s ->
  res <> Fuel -> (forall d, res <> Exc (XRemote d)) -> took 0 (inq s) s s1 res.
Proof.
  intros R C Q NF X. split; [exact R|exact NF|]. exists []. split; [symmetry; exact Q|].
  destruct res as [?|[]| |]; auto. destruct (X _ eq_refl).
Qed.

(* an item is delivered (n = 1) or skipped (n = 0, with more to come) *)
Lemma took_item n i q s s1 : (n <= 1)%nat -> st_le_hs s s1 -> closed s1 = closed s -> inq s1 = q ->
  took n (i :: q) s s1 (Val i).
Proof. intros N R C Q. split; [exact R|discriminate|]. exists [i]. rewrite Q. auto. Qed.

Lemma took_raise {A} n i q s s1 x : st_le_hs s s1 -> inq s1 = q ->
  (forall d, x = XRemote d -> exists l, i = IAlert l d) -> took n (i :: q) s s1 (@Exc A x).
Proof.
  intros R Q X. split; [exact R|discriminate|]. exists [i]. rewrite Q. split; [reflexivity|].
  destruct x; auto. destruct (X _ eq_refl) as (l & ->). exists l. left. reflexivity.
Qed.

Lemma took_then {A B} n m q s s1 s2 (v : A) (res : r B) :
  took n q s s1 (Val v) -> took m (inq s1) s1 s2 res -> took (n + m) q s s2 res.
Proof.
  intros [R1 _ (p1 & -> & C1 & L1)] [R2 NF (p2 & E2 & M)].
  split; [exact (st_le_hs_trans _ _ _ R1 R2)|exact NF|].
  exists (p1 ++ p2). split; [rewrite E2; apply app_assoc|].
  destruct res as [?|x| |]; auto.
  - destruct M as (C2 & L2). split; [congruence|rewrite app_length; lia].
  - destruct x; auto. destruct M as (l & M). exists l. apply in_or_app. auto.
Qed.

Lemma took_shutdown {A} n q s s1 s2 x r0 e : took n q s s1 (@Exc A x) -> shutdown r0 s1 = (s2, e) ->
  took n q s s2 (@Exc A (match e with Some z => XSock z | None => x end)).
Proof.
  intros [R _ (pre & E & M)] S. apply shutdown_spec in S. destruct S as (_ & R2 & Q2).
  split; [exact (st_le_hs_trans _ _ _ R R2)|discriminate|]. exists pre. rewrite Q2. split; [exact E|].
  destruct e; [exact I|exact M].
Qed.

Lemma get_msg_q_spec c : forall q s s' res, get_msg_q c q s = (s', res) -> took 1 q s s' res.
Proof.
  induction q as [|i q IH]; intros s s' res H; cbn [get_msg_q] in H.
  - inverts H. pose proof (set_inq_le [] s) as R0.
    destruct (no_input_spec (set_inq [] s)) as [->|[->|(e & ->)]];
      (split; [exact R0|discriminate|exists []; auto]).
  - pose proof (set_inq_le q s) as R0.
    assert ((set_inq q s, Val i) = (s', res) -> took 1 (i :: q) s s' res) as DEL
      by (intros E; inverts E; apply took_item; auto).
    assert ((let '(s1, x) := send_error 10 (set_inq q s) in (s1, @Exc item x)) = (s', res) ->
            took 1 (i :: q) s s' res) as SE.
    { destruct (send_error 10 (set_inq q s)) as [s1 x] eqn:E. apply send_error_spec in E.
      destruct E as (R1 & Q1 & X). intros E. inverts E.
      apply took_raise; [exact (st_le_hs_trans _ _ _ R0 R1)|exact Q1|].
      intros d ->. destruct X as [(z & X)|X]; discriminate X. }
    assert (forall s1, st_le_hs (set_inq q s) s1 -> closed s1 = closed s -> inq s1 = q ->
            get_msg_q c q s1 = (s', res) -> took 1 (i :: q) s s' res) as SKIP.
    { intros s1 R1 C1 Q1 E. apply IH in E. rewrite <- Q1 in E at 1.
      exact (took_then 0 1 _ _ _ _ i _ (took_item 0 i q s s1 (Nat.le_0_l 1) (st_le_hs_trans _ _ _ R0 R1) C1 Q1) E). }
    (* the cases of get_msg_q: item, then caller (CRead, CWait, CHs) *)
    destruct i as [d|l d|b|k].
    + (* data *)
      destruct c; [| |exact (SE H)];
        (destruct d; [exact (SKIP _ (st_le_hs_refl _) eq_refl eq_refl H)|exact (DEL H)]).
    + (* an alert *)
      destruct c; [|exact (DEL H)|];
        (destruct (alert_branch l d (set_inq q s)) as [s1 x] eqn:E; apply alert_branch_spec in E;
         destruct E as (R1 & Q1 & X); inverts H;
         apply took_raise; [exact (st_le_hs_trans _ _ _ R0 R1)|exact Q1|];
         intros d' ->; destruct X as [(z & X)|X]; [discriminate X|inverts X; eauto]).
    + (* a handshake message *)
      destruct c; [destruct (b && tls13 _); [exact (DEL H)|exact (SE H)]|exact (SE H)|exact (DEL H)].
    + (* control traffic *)
      destruct k as [| |a|a].
      1,2: destruct c; [destruct (tls13 _); [exact (DEL H)|exact (SE H)]|exact (SE H)|exact (SE H)].
      * destruct a; [|exact (SE H)].
        destruct (send_rec (WHs 24) (set_inq q s)) as [t e] eqn:E. apply send_rec_spec in E.
        destruct E as (E & Q & _). exact (SKIP t (core_le _ _ E) (same_core_closed E) Q H).
      * destruct c; [destruct (a && tls13 _); [exact (DEL H)|exact (SE H)]|exact (SE H)|exact (SE H)].
Qed.

Lemma get_msg_alert c l d rest s : c <> CWait -> inq s = IAlert l d :: rest ->
  get_msg c s = (let '(s1, x) := alert_branch l d (set_inq rest s) in (s1, Exc x)).
Proof. intros NW IQ. unfold get_msg. rewrite IQ. destruct c; [reflexivity|destruct (NW eq_refl)|reflexivity]. Qed.

Arguments get_msg_q : simpl never.

Lemma post_send_hs_spec s s' res : post_send_hs s = (s', res) -> took 0 (inq s) s s' res.
Proof.
  unfold post_send_hs. intros H.
  destruct (send_rec (WHs 22) s) as [s1 e] eqn:E. apply send_rec_spec in E.
  destruct E as (C1 & Q1 & _). pose proof (core_le _ _ C1) as R1.
  assert (forall res1 : r unit, res1 <> Fuel -> (forall d, res1 <> Exc (XRemote d)) ->
          took 0 (inq s) s s1 res1) as NONE by (intros; apply took_none; auto using same_core_closed).
  destruct e as [z|]; [|inverts H; apply NONE; congruence].
  destruct (recv_item s1) as [s2 ri] eqn:V. apply recv_item_spec in V.
  destruct V as [(i & -> & IQ & R2)|(-> & [->|[->|(e0 & ->)]])]; try (inverts H; apply NONE; congruence).
  destruct (shutdown false s2) as [s3 e'] eqn:S. inverts H. refine (took_shutdown _ _ _ _ _ _ _ _ _ S).
  rewrite <- Q1, IQ. apply took_raise; [exact (st_le_hs_trans _ _ _ R1 R2)|reflexivity|].
  intros d X. destruct i; inverts X. eauto.
Qed.

Lemma post_send_w_spec s s' res : post_send_w s = (s', res) ->
  took 0 (inq s) s s' res /\ (forall x, res = Exc x -> closed s' = true).
Proof.
  unfold post_send_w. intros H. destruct (post_send_hs s) as [s1 r1] eqn:P. apply post_send_hs_spec in P.
  destruct r1 as [u|x| |]; try (inverts H; split; [exact P|discriminate]).
  destruct (shutdown false s1) as [s2 e] eqn:S. inverts H.
  split; [exact (took_shutdown _ _ _ _ _ _ _ _ P S)|intros; exact (proj1 (shutdown_spec _ _ _ _ S))].
Qed.

Arguments post_send_hs : simpl never.
Arguments post_send_w : simpl never.

Lemma read_msg_spec s s' res : read_msg s = (s', res) -> took 1 (inq s) s s' res.
Proof.
  unfold read_msg, get_msg. intros H.
  destruct (get_msg_q CRead (inq s) s) as [s1 r1] eqn:G. apply get_msg_q_spec in G.
  destruct r1 as [i|x| |]; try (inverts H; exact G).
  destruct i as [d|l d|b|k]; try (inverts H; exact G).
  destruct k as [| |a|a]; try (inverts H; exact G).
  - (* KeyUpdate(update_requested) *)
    destruct (post_send_w s1) as [s2 r2] eqn:P. apply post_send_w_spec in P.
    destruct (took_then 1 0 _ _ _ _ _ _ G (proj1 P)) as [R NF Q].
    (* the read ends as the answer does, with a result of the same kind *)
    destruct r2; inverts H; [| | |destruct (NF eq_refl)]; (split; [exact R|discriminate|exact Q]).
  - (* post-handshake CertificateRequest *)
    destruct (sock_send [WHs 22; WHs 22; WHs 22] s1) as [s2 e] eqn:P. apply sock_send_spec in P.
    destruct P as (C2 & Q2 & _). inverts H. apply (took_then 1 0 _ _ _ _ _ _ G).
    apply took_none; [exact (core_le _ _ C2)|exact (same_core_closed C2)|exact Q2|..]; destruct e; congruence.
Qed.

Arguments read_msg : simpl never.

(* one round; below, the loop is unfolded through this equation only *)
Lemma read_loop_S f t mn s : read_loop (S f) t mn s =
    if ((zlen (rbuf s) <? mn) || (is_nil (rbuf s) && t)) && negb (closed s) then
      match read_msg s with
      | (s1, Val (IData d)) => read_loop f false mn (set_rbuf (rbuf s1 ++ d) s1)
      | (s1, Val (ICtl KuNoReq)) => read_loop f true mn s1
      | (s1, Val _) => read_loop f false mn s1
      | (s1, Exc (XRemote d)) => if d =? 0 then read_loop f false mn s1 else (s1, Exc (XRemote d))
      | (s1, Exc XAbrupt) =>
          if ign s1 then
            (let '(s2, e) := shutdown true s1 in
             match e with Some z => (s2, Exc (XSock z)) | None => read_loop f false mn s2 end)
          else (s1, Exc XAbrupt)
      | (s1, Exc x) => (s1, Exc x)
      | (s1, Blk) => (s1, Blk)
      | (s1, Fuel) => (s1, Fuel)
      end
    else (s, Val tt).
Proof. reflexivity. Qed.

Arguments read_loop : simpl never.

(* what bounds the iterations: every round takes a message or closes the connection *)
Definition loop_bound (s : st) : nat := (length (inq s) + (if closed s then 0 else 1))%nat.

(* the three facts about the loop, for one induction *)
Definition loop_post (f : nat) (s s' : st) (res : r unit) : Prop :=
  st_le_hs s s' /\ ((loop_bound s < f)%nat -> res <> Fuel) /\
  (forall u, res = Val u -> ign s = false -> closed s = false -> closed s' = true ->
   exists l, In (IAlert l 0) (inq s)).

Lemma read_loop_spec mn : forall f t s s' res, read_loop f t mn s = (s', res) -> loop_post f s s' res.
Proof.
  induction f as [|f IH]; intros t s s' res H.
  - inverts H. split; [apply st_le_hs_refl|]. split; [lia|discriminate].
  - rewrite read_loop_S in H.
    destruct (((zlen (rbuf s) <? mn) || (is_nil (rbuf s) && t)) && negb (closed s)) eqn:CND.
    2:{ inverts H. split; [apply st_le_hs_refl|]. split; [discriminate|congruence]. }
    apply andb_true_iff in CND. destruct CND as (_ & CL). apply negb_true_iff in CL.
    destruct (read_msg s) as [s1 r1] eqn:G. apply read_msg_spec in G.
    destruct G as [R1 NF (pre & E & M)].
    pose proof (le_ign R1) as IG1.
    (* the loop goes on from s2, which differs from s1 at most by the buffer or a shutdown *)
    assert (forall t' s2, st_le_hs s1 s2 -> inq s2 = inq s1 -> (loop_bound s2 <= length (inq s))%nat ->
              (ign s = false -> (exists l, In (IAlert l 0) (inq s)) \/ closed s2 = false) ->
              read_loop f t' mn s2 = (s', res) -> loop_post (S f) s s' res) as REC.
    { intros t' s2 R2 Q2 M2 W E2. apply IH in E2. destruct E2 as (R3 & NF3 & T3).
      pose proof (le_ign R2) as IG2.
      split; [eapply st_le_hs_trans; [exact R1|eapply st_le_hs_trans; eauto]|].
      split; [unfold loop_bound; rewrite CL; intros; apply NF3; lia|].
      intros u U IG _ C'. destruct (W IG) as [W'|C2]; [exact W'|].
      destruct (T3 u U) as (l & K); [congruence|exact C2|exact C'|].
      exists l. rewrite E. apply in_or_app. right. rewrite <- Q2. exact K. }
    assert (forall s2 x, st_le_hs s1 s2 -> (s2, @Exc unit x) = (s', res) -> loop_post (S f) s s' res) as END.
    { intros s2 x R2 E2. inverts E2. split; [eapply st_le_hs_trans; eauto|]. split; discriminate. }
    assert (length (inq s) = length pre + length (inq s1))%nat as LEN by (rewrite E; apply app_length).
    destruct r1 as [i|x| |].
    + destruct M as (M & L). rewrite CL in M.
      assert (loop_bound s1 <= length (inq s))%nat as M1 by (unfold loop_bound; rewrite M; lia).
      destruct i as [d|l d|b|k]; [| | |destruct k];
        (refine (REC _ _ _ _ _ _ H); [auto using st_le_hs_refl, set_rbuf_le|reflexivity|exact M1|right; exact M]).
    + destruct x as [| | |d| |]; try exact (END _ _ (st_le_hs_refl _) H).
      * destruct (ign s1) eqn:IG; [|exact (END _ _ (st_le_hs_refl _) H)].
        destruct (shutdown true s1) as [s2 e] eqn:S. apply shutdown_spec in S. destruct S as (C2 & R2 & Q2).
        destruct e; [exact (END _ _ R2 H)|].
        refine (REC _ _ R2 Q2 _ _ H); [unfold loop_bound; rewrite C2, Q2; lia|congruence].
      * destruct (d =? 0) eqn:D; [|exact (END _ _ (st_le_hs_refl _) H)].
        destruct M as (l & M). apply Z.eqb_eq in D. subst d.
        refine (REC _ _ (st_le_hs_refl _) eq_refl _ _ H).
        -- destruct pre; [destruct M|]. unfold loop_bound. cbn in LEN. destruct (closed s1); lia.
        -- intros _. left. exists l. rewrite E. apply in_or_app. auto.
    + inverts H. split; [exact R1|]. split; discriminate.
    + congruence.
Qed.

(* How a call or event that leaves the connection in its phase ends: an exception has closed the
   connection; the fuel never runs out and "handshake complete" is not among the outcomes. *)
Definition call_out (s' : st) (o : outcome) : Prop :=
  match o with OExc _ => closed s' = true | OHsDone | OFuel => False | _ => True end.

Lemma raise_out r x s s' o : raise_after_shutdown r x s = (s', o) -> st_le_hs s s' /\ call_out s' o.
Proof. intros H. apply raise_spec in H. destruct H as (A & C & y & ->). auto. Qed.

Lemma do_read_spec mx mn s s' o : do_read mx mn s = (s', o) ->
  st_le_hs s s' /\ call_out s' o /\
  (forall d, o = ORet d -> ign s = false -> closed s = false -> closed s' = true ->
   exists l, In (IAlert l 0) (inq s)).
Proof.
  unfold do_read. intros H.
  destruct (read_loop (S (S (length (inq s)))) true mn s) as [s1 res] eqn:L.
  apply read_loop_spec in L. destruct L as (R1 & NF & T). destruct res as [u|x| |].
  - inverts H. split; [eapply st_le_hs_trans; [exact R1|apply set_rbuf_le]|]. split; [exact I|].
    intros d _. apply (T u eq_refl).
  - apply raise_spec in H. destruct H as (R2 & C & y & ->).
    split; [eapply st_le_hs_trans; eauto|]. split; [exact C|discriminate].
  - inverts H. split; [exact R1|]. split; [exact I|discriminate].
  - destruct NF; [unfold loop_bound; destruct (closed s); lia|reflexivity].
Qed.

Arguments do_read : simpl never.

Lemma out_trans s t s' o : st_le_hs s t -> st_le_hs t s' /\ call_out s' o -> st_le_hs s s' /\ call_out s' o.
Proof. intros A (B & C). split; [eapply st_le_hs_trans; eauto|exact C]. Qed.

Lemma send_all_le rs : forall s s' e, send_all rs s = (s', e) -> st_le_hs s s'.
Proof.
  induction rs as [|x rs IH]; intros s s' e H; cbn in H; [inverts H; apply st_le_hs_refl|].
  destruct (send_rec (WData x) s) as [s1 e1] eqn:S. apply send_rec_le in S.
  destruct e1; [inverts H; exact S|]. eapply st_le_hs_trans; eauto.
Qed.

Lemma do_write_spec d s s' o : do_write d s = (s', o) -> st_le_hs s s' /\ call_out s' o.
Proof.
  unfold do_write. intros H. destruct (closed s) eqn:C; [inverts H; split; [apply st_le_hs_refl|exact C]|].
  destruct (send_all (records s d) s) as [s1 e] eqn:S. apply send_all_le in S.
  destruct e; [|inverts H; split; [exact S|exact I]]. exact (out_trans _ _ _ _ S (raise_out _ _ _ _ _ H)).
Qed.

(* the one taker of messages whose spec is not a `took`: the preorder and the fuel are all that its user
   do_close_spec needs (with that much fuel `took 1 (inq s) s s' res` holds as well) *)
Lemma close_wait_spec : forall f s s' res, close_wait f s = (s', res) ->
  st_le_hs s s' /\ ((length (inq s) < f)%nat -> res <> Fuel).
Proof.
  induction f as [|f IH]; intros s s' res H; cbn [close_wait] in H; [inverts H; split; [apply st_le_hs_refl|lia]|].
  unfold get_msg in H. destruct (get_msg_q CWait (inq s) s) as [s1 r1] eqn:G. apply get_msg_q_spec in G.
  destruct G as [R1 NF (pre & E & M)].
  destruct r1 as [i|x| |]; [|inverts H; split; [exact R1|discriminate]..|congruence].
  rewrite E, app_length. destruct i; try (inverts H; split; [exact R1|discriminate]);
    (apply IH in H; destruct H as (R2 & N2); split; [eapply st_le_hs_trans; eauto|intros; apply N2; lia]).
Qed.

Lemma close_forgive_spec s s' o : close_forgive s = (s', o) -> st_le_hs s s' /\ call_out s' o.
Proof.
  unfold close_forgive. destruct (shutdown true s) as [s1 e] eqn:S. intros H; inverts H.
  apply shutdown_spec in S. destruct S as (C & A & _). split; [exact A|]. destruct e; [exact C|exact I].
Qed.

Lemma do_close_spec s s' o : do_close s = (s', o) -> st_le_hs s s' /\ call_out s' o.
Proof.
  assert (forall t, (let '(t1, e) := shutdown true t in
                     match e with Some _ => close_forgive t1 | None => (t1, ODone) end) = (s', o) ->
                    st_le_hs t s' /\ call_out s' o) as TAIL.
  { intros t H. destruct (shutdown true t) as [t1 e] eqn:S. apply shutdown_spec in S. destruct S as (_ & A & _).
    destruct e; [exact (out_trans _ _ _ _ A (close_forgive_spec _ _ _ H))|inverts H; split; [exact A|exact I]]. }
  unfold do_close. intros H. destruct (closed s); [inverts H; split; [apply st_le_hs_refl|exact I]|].
  assert (st_le_hs s (set_refc (refc s - 1) s)) as R0 by (split; auto using sess_le_refl).
  destruct (refc (set_refc (refc s - 1) s) =? 0); [|inverts H; split; [exact R0|exact I]].
  destruct (send_rec (WAlert 1 0) (set_refc (refc s - 1) s)) as [s2 e2] eqn:S2. apply send_rec_le in S2.
  apply (out_trans _ s2); [eapply st_le_hs_trans; eauto|].
  destruct e2; [exact (close_forgive_spec _ _ _ H)|]. destruct (csock s2); [exact (TAIL _ H)|].
  destruct (close_wait (S (length (inq s2))) s2) as [s3 r3] eqn:W. apply close_wait_spec in W.
  destruct W as (R3 & NF). apply (out_trans _ s3 _ _ R3).
  destruct r3 as [[l d]|x| |].
  - destruct (d =? 0); [exact (TAIL _ H)|exact (raise_out _ _ _ _ _ H)].
  - destruct x as [| |z|a|a|]; [|exact (close_forgive_spec _ _ _ H)..| | |]; exact (raise_out _ _ _ _ _ H).
  - inverts H. split; [apply st_le_hs_refl|exact I].
  - destruct NF; [lia|reflexivity].
Qed.

Definition post_call (ev : event) : Prop :=
  match ev with UKeyUpdate | UPha _ | UHeartbeat _ => True | _ => False end.

Lemma post_outcome_spec s s' o : post_outcome (post_send_w s) = (s', o) -> st_le_hs s s' /\ call_out s' o.
Proof.
  destruct (post_send_w s) as [s1 res] eqn:P. apply post_send_w_spec in P. destruct P as ([R1 NF _] & K).
  destruct res; intros H; inverts H; (split; [exact R1|]); [exact I|apply (K x eq_refl)|exact I|congruence].
Qed.

Lemma post_call_spec ev s s' o : post_call ev -> step s ev = (s', o) ->
  (s', o) = (s, OExc XValue) \/ (st_le_hs s s' /\ call_out s' o).
Proof.
  destruct ev; try contradiction; intros _; cbn [step].
  - unfold do_keyupdate. destruct (closed s) eqn:C; [intros H; inverts H; right; split; [apply st_le_hs_refl|exact C]|].
    destruct (negb (tls13 s)); [auto|]. right. apply post_outcome_spec; assumption.
  - unfold do_pha. destruct (closed s || negb ok || negb (tls13 s)); [auto|].
    right. apply post_outcome_spec; assumption.
  - unfold do_heartbeat. destruct (closed s) eqn:C; [intros H; inverts H; right; split; [apply st_le_hs_refl|exact C]|].
    destruct (negb ok); [auto|]. right.
    destruct (send_rec (WHs 24) s) as [s1 e] eqn:E. apply send_rec_le in E.
    destruct e; [exact (out_trans _ _ _ _ E (raise_out _ _ _ _ _ H))|inverts H; split; [exact E|exact I]].
Qed.

(* how a handshake call ends when it is over: abandoned while waiting for input, or an exception
   (that `hs` is off then is le_hs from `set_hs false s` on) *)
Definition hs_over (o : outcome) : Prop := o = OBlocked \/ exists y, o = OExc y.

(* What a step does to the life of the connection, whatever the event.  There are three phases:
   closed, in a handshake (hs; then closed as well, see inv), open.  `stays`: the phase is kept --
   every call and event of the data phase, a handshake event outside a handshake, a handshake step
   that went through, a refused _handshakeStart; of st_le_hs it keeps what survives USetIgn, which
   changes ignoreAbruptClose, and its field O (`call_out`, read by conversion at the outcome in hand)
   says that an exception has closed the connection and that the outcome is neither OHsDone nor
   OFuel.  `refused`: a public post-handshake call raises its caller error before touching
   anything.  `starts` and `completes` are _handshakeStart and _handshakeDone, `ends` is a
   handshake call abandoned or raising, `installs` a new session object: the one step after which
   the flag may read true again. *)
Inductive life (ev : event) (s s' : st) (o : outcome) : Prop :=
| stays (HS : hs s' = hs s) (CL : closed s = true -> closed s' = true)
        (SE : sess_le (sess s) (sess s')) (O : call_out s' o)
| refused (PC : post_call ev) (E : (s', o) = (s, OExc XValue))
| starts (EV : ev = UHsStart) (CL : closed s = true) (E : (s', o) = (set_refc 1 (set_hs true s), OStep))
| ends (HS : hs s = true) (HS' : hs s' = false) (OV : hs_over o) (CL : closed s = true -> closed s' = true)
       (SE : sess_le (sess s) (sess s'))
| installs b (EV : ev = UHs (HSetSess b)) (HS : hs s = true) (E : (s', o) = (set_sess (Some b) s, OStep))
| completes (HS : hs s = true) (E : (s', o) = (set_hs false (set_closed false s), OHsDone)).

Lemma life_call ev s s' o : st_le_hs s s' /\ call_out s' o -> life ev s s' o.
Proof.
  intros (A & O).
  exact (stays _ _ _ _ (le_hs A) (le_closed A) (le_sess A) O).
Qed.

Lemma life_on ev s s' : st_le_hs s s' -> life ev s s' OStep.
Proof.
  intros A.
  exact (stays ev s s' OStep (le_hs A) (le_closed A) (le_sess A) I).
Qed.

Lemma over_trans s t s' o : st_le_hs s t -> st_le_hs (set_hs false t) s' /\ hs_over o ->
  st_le_hs (set_hs false s) s' /\ hs_over o.
Proof. intros A (B & O). split; [exact (st_le_hs_trans _ _ _ (set_hs_mono _ _ A) B)|exact O]. Qed.

Lemma life_over ev s t s' o : hs s = true -> st_le_hs s t -> st_le_hs (set_hs false t) s' /\ hs_over o ->
  life ev s s' o.
Proof.
  intros HS A B. destruct (over_trans _ _ _ _ A B) as (C & O).
  exact (ends _ _ _ _ HS (le_hs C) O (le_closed C) (le_sess C)).
Qed.

Lemma blocked_over s : st_le_hs (set_hs false s) (set_hs false s) /\ hs_over OBlocked.
Proof. split; [apply st_le_hs_refl|left; reflexivity]. Qed.

Lemma hs_wrapper_spec x s s' o : hs_wrapper x s = (s', o) -> st_le_hs (set_hs false s) s' /\ hs_over o.
Proof.
  unfold hs_wrapper. intros H.
  assert (forall s1 o1, raise_after_shutdown false x (set_hs false s) = (s1, o1) ->
            st_le_hs (set_hs false s) s1 /\ hs_over o1) as K.
  { intros s1 o1 E. apply raise_spec in E. destruct E as (A & _ & Y).
    split; [exact A|right; exact Y]. }
  destruct x; try (apply K; exact H); inverts H;
    (split; [apply st_le_hs_refl|right; eexists; reflexivity]).
Qed.

Arguments hs_wrapper : simpl never.

Lemma look_for_alert_spec z s s' o : look_for_alert z s = (s', o) ->
  st_le_hs (set_hs false s) s' /\ hs_over o.
Proof.
  unfold look_for_alert. intros H.
  destruct (recv_item s) as [s1 res] eqn:E. apply recv_item_spec in E.
  destruct E as [(i & -> & _ & R1)|(-> & [->|[->|(e & ->)]])]; try exact (hs_wrapper_spec _ _ _ _ H).
  - destruct (shutdown false s1) as [s2 e] eqn:S. apply shutdown_spec in S. destruct S as (_ & R2 & _).
    apply (over_trans _ s2); [eapply st_le_hs_trans; eauto|].
    destruct e; [|destruct i]; exact (hs_wrapper_spec _ _ _ _ H).
  - inverts H. apply blocked_over.
Qed.

Arguments look_for_alert : simpl never.

Lemma do_hs_spec h s s' o : do_hs h s = (s', o) -> life (UHs h) s s' o.
Proof.
  unfold do_hs. intros H. destruct (hs s) eqn:HS; cbn [negb] in H.
  2:{ inverts H. apply stays; auto using sess_le_refl. exact I. }
  destruct h as [|ct| | |b|];
    [| | | |exact (installs _ _ _ _ b eq_refl HS (eq_sym H))|exact (completes _ _ _ _ HS (eq_sym H))].
  - unfold get_msg in H. destruct (get_msg_q CHs (inq s) s) as [s1 res] eqn:G. apply get_msg_q_spec in G.
    destruct G as [R1 NF _].
    destruct res; [inverts H; apply life_on, R1| |inverts H|congruence]; apply (life_over _ _ s1 _ _ HS R1);
      [exact (hs_wrapper_spec _ _ _ _ H)|apply blocked_over].
  - destruct (send_rec (WHs ct) s) as [s1 e] eqn:E. apply send_rec_le in E.
    destruct e; [|inverts H; apply life_on, E]. apply (life_over _ _ s1 _ _ HS E).
    destruct (ct =? 22); [exact (look_for_alert_spec _ _ _ _ H)|exact (hs_wrapper_spec _ _ _ _ H)].
  - inverts H. apply life_on, set_bufw_le.
  - destruct (flush s) as [s1 e] eqn:E. apply flush_spec in E. destruct E as (E%core_le & _).
    destruct e; [exact (life_over _ _ s1 _ _ HS E (hs_wrapper_spec _ _ _ _ H))|].
    inverts H. apply life_on. eapply st_le_hs_trans; [exact E|apply set_bufw_le].
Qed.

Lemma do_hs_start_spec s s' o : do_hs_start s = (s', o) -> life UHsStart s s' o.
Proof.
  unfold do_hs_start. intros H. destruct (closed s) eqn:C; cbn [negb] in H.
  - exact (starts _ _ _ _ eq_refl C (eq_sym H)).
  - exact (life_call _ _ _ _ (raise_out _ _ _ _ _ H)).
Qed.

Definition not_setsess (ev : event) : Prop := forall b, ev <> UHs (HSetSess b).

Definition data_event (ev : event) : Prop :=
  match ev with UHsStart | UHs _ => False | _ => True end.

Definition is_call (ev : event) : Prop :=
  match ev with URead _ _ | UWrite _ | UClose | UHsStart | UHs _ => True | _ => False end.

(* the events that are no call into the TLS layer: reference count, flags, the transport *)
Definition passive (ev : event) : Prop :=
  match ev with
  | UMakefile | USetIgn _ | USetCsock _ | NIn _ | NEof | NReset _ | NSendBreak _ _ => True
  | _ => False
  end.

Set Implicit Arguments.
Record passive_post (s s' : st) (o : outcome) : Prop := {
  pv_out : o = OStep \/ o = ONone;
  pv_closed : closed s' = closed s;
  pv_hs : hs s' = hs s;
  pv_sess : sess s' = sess s;
  pv_wq : wq s' = wq s;
  pv_bufw : bufw s' = bufw s;
  pv_rbuf : rbuf s' = rbuf s;
  pv_wire : wire s' = wire s }.
Unset Implicit Arguments.

Lemma passive_step ev s s' o : passive ev -> step s ev = (s', o) -> passive_post s s' o.
Proof.
  destruct ev; try contradiction; cbn [step]; intros _ H;
    [| | |destruct (rx_open s && sock_open s)|destruct (rx_open s)|destruct (rx_open s)|destruct (txf s)];
    inverts H; split; cbn; auto.
Qed.

Lemma step_life s ev s' o : step s ev = (s', o) -> life ev s s' o.
Proof.
  intros H.
  assert (passive ev -> life ev s s' o) as PASSIVE.
  { intros P. pose proof (passive_step _ _ _ _ P H) as K. apply stays.
    - exact (pv_hs K).
    - rewrite (pv_closed K). auto.
    - rewrite (pv_sess K). apply sess_le_refl.
    - destruct (pv_out K) as [->| ->]; exact I. }
  assert (post_call ev -> life ev s s' o) as POST.
  { intros P. destruct (post_call_spec _ _ _ _ P H) as [E|K]; [exact (refused _ _ _ _ P E)|exact (life_call _ _ _ _ K)]. }
  destruct ev as [mx mn|d| | | |h|b|b| |ok|ok|i| |e|k e]; try exact (PASSIVE I); try exact (POST I);
    cbn [step] in H.
  - apply life_call. apply do_read_spec in H. tauto.
  - exact (life_call _ _ _ _ (do_write_spec _ _ _ _ H)).
  - exact (life_call _ _ _ _ (do_close_spec _ _ _ H)).
  - exact (do_hs_start_spec _ _ _ H).
  - exact (do_hs_spec _ _ _ _ H).
Qed.

Lemma step_sess_le s ev s' o : not_setsess ev -> step s ev = (s', o) -> sess_le (sess s) (sess s').
Proof.
  intros NS H. destruct (step_life _ _ _ _ H) as [HS CL SE O|PC E|EV CL E|HS HS' OV CL SE|b EV HS E|HS E].
  - (* stays *) exact SE.
  - (* refused *) inverts E. apply sess_le_refl.
  - (* starts *) inverts E. apply sess_le_refl.
  - (* ends *) exact SE.
  - (* installs *) destruct (NS b EV).
  - (* completes *) inverts E. apply sess_le_refl.
Qed.

Definition inv (s : st) : Prop := hs s = true -> closed s = true.

Lemma run_invariant (P : st -> Prop) (E : event -> Prop) (Q : outcome -> Prop) :
  (forall s ev s' o, P s -> E ev -> step s ev = (s', o) -> P s' /\ Q o) ->
  forall evs s s' os, P s -> Forall E evs -> run s evs = (s', os) -> P s' /\ Forall Q os.
Proof.
  intros STEP. induction evs as [|ev evs IH]; intros s s' os HP F H; cbn [run] in H.
  - inverts H. auto.
  - destruct (step s ev) as [s1 o] eqn:S. destruct (run s1 evs) as [s2 os2] eqn:RN. inverts H.
    inversion F as [|? ? Eev F']; subst. destruct (STEP _ _ _ _ HP Eev S) as (P1 & Qo).
    destruct (IH _ _ _ P1 F' RN) as (P2 & Qs). auto.
Qed.

Definition shut (s : st) : Prop := closed s = true /\ hs s = false /\ wq s = [] /\ bufw s = false.

Lemma passive_shut s s' o : passive_post s s' o -> shut s -> shut s'.
Proof.
  intros K (C & HS & Q & B). unfold shut.
  rewrite (pv_closed K), (pv_hs K), (pv_wq K), (pv_bufw K). auto.
Qed.

Lemma shutdown_shut r s : shut s -> exists s', shutdown r s = (s', None) /\ shut s' /\
  rbuf s' = rbuf s /\ wire s' = wire s /\ inq s' = inq s /\
  sess s' = (if r then sess s else option_map (fun _ => false) (sess s)).
Proof.
  intros (C & H & Q & B). exists (quit r s). rewrite shutdown_quiet by exact Q.
  unfold shut. cbn. auto 10.
Qed.

Definition take_n (mx : option Z) (l : list Z) : nat :=
  match mx with None => length l | Some m => Z.to_nat m end.

Lemma read_loop_closed f t mn s : closed s = true -> read_loop (S f) t mn s = (s, Val tt).
Proof. intros C. rewrite read_loop_S, C. cbn [negb]. rewrite andb_false_r. reflexivity. Qed.

Lemma do_read_returns mx mn s s1 : read_loop (S (S (length (inq s)))) true mn s = (s1, Val tt) ->
  do_read mx mn s = (set_rbuf (skipn (take_n mx (rbuf s1)) (rbuf s1)) s1,
                     ORet (firstn (take_n mx (rbuf s1)) (rbuf s1))).
Proof. unfold do_read. intros ->. destruct mx; reflexivity. Qed.

Lemma step_shut s ev s' o : shut s -> data_event ev -> step s ev = (s', o) ->
  shut s' /\ wire s' = wire s /\
  match ev with
  | URead _ _ => exists d, o = ORet d /\ d ++ rbuf s' = rbuf s /\ sess s' = sess s
  | UWrite _ => o = OExc XClosed /\ s' = s
  | UClose => o = ODone /\ s' = s
  | UKeyUpdate | UHeartbeat _ => o = OExc XClosed /\ s' = s
  | UPha _ => o = OExc XValue /\ s' = s
  | _ => sess s' = sess s
  end.
Proof.
  intros S D H. pose proof S as (C & _).
  assert (passive ev -> shut s' /\ wire s' = wire s /\ sess s' = sess s) as PASSIVE.
  { intros P. pose proof (passive_step _ _ _ _ P H) as K.
    exact (conj (passive_shut _ _ _ K S) (conj (pv_wire K) (pv_sess K))). }
  destruct ev; try contradiction; try exact (PASSIVE I); cbn [step] in H.
  - rewrite (do_read_returns mx mn s s) in H by (apply read_loop_closed, C). inverts H.
    split; [exact S|]. split; [reflexivity|]. eexists. split; [reflexivity|].
    split; [apply firstn_skipn|reflexivity].
  - unfold do_write in H. rewrite C in H. inverts H. auto.
  - unfold do_close in H. rewrite C in H. inverts H. auto.
  - unfold do_keyupdate in H. rewrite C in H. inverts H. auto.
  - unfold do_pha in H. rewrite C in H. inverts H. auto.
  - unfold do_heartbeat in H. rewrite C in H. inverts H. auto.
Qed.

Definition shut_outcome (o : outcome) : Prop :=
  (exists d, o = ORet d) \/ o = OExc XClosed \/ o = OExc XValue \/ o = ODone \/ o = OStep \/ o = ONone.

(* the same for every event alike: no call gets further than the closed-connection check *)
Lemma step_shut_out s ev s' o : shut s -> data_event ev -> step s ev = (s', o) ->
  shut s' /\ wire s' = wire s /\ sess s' = sess s /\ shut_outcome o /\
  exists d, d ++ rbuf s' = rbuf s /\ forall d', o = ORet d' -> d' = d.
Proof.
  intros S D H. destruct (step_shut _ _ _ _ S D H) as (S' & W & K). split; [exact S'|]. split; [exact W|].
  assert (passive ev -> sess s' = sess s /\ shut_outcome o /\
          exists d, d ++ rbuf s' = rbuf s /\ forall d', o = ORet d' -> d' = d) as PASSIVE.
  { intros P. pose proof (passive_step _ _ _ _ P H) as V. split; [exact (pv_sess V)|].
    unfold shut_outcome. split; [destruct (pv_out V) as [->| ->]; tauto|]. exists []. split; [exact (pv_rbuf V)|].
    intros d' E. destruct (pv_out V); congruence. }
  unfold shut_outcome. destruct ev; try contradiction; try exact (PASSIVE I).
  1:{ (* a read *)
      destruct K as (d & -> & K & SE). split; [exact SE|]. split; [left; eauto|].
      exists d. split; [exact K|congruence]. }
  (* write, close and the post-handshake calls *)
  all: destruct K as (-> & ->); split; [reflexivity|]; (split; [tauto|]); exists []; split; [reflexivity|discriminate].
Qed.

(* a run of data events from a shut state: nothing moves but the read buffer, which only drains: every read
   returns a piece of what was buffered at the start *)
Set Implicit Arguments.
Record shut_run (s s' : st) (os : list outcome) : Prop := {
  sr_shut : shut s';
  sr_wire : wire s' = wire s;
  sr_sess : sess s' = sess s;
  sr_out : Forall shut_outcome os;
  sr_piece : Forall (fun o => forall d, o = ORet d -> exists a b, rbuf s = a ++ d ++ b) os }.
Unset Implicit Arguments.

(* where a run of data events from the shut state s has come to in t: of the read buffer a suffix is left *)
Definition shut_from (s t : st) : Prop :=
  shut t /\ wire t = wire s /\ sess t = sess s /\ exists a, rbuf s = a ++ rbuf t.

Lemma shut_from_refl s : shut s -> shut_from s s.
Proof. intros S. split; [exact S|]. split; [reflexivity|]. split; [reflexivity|]. exists []. reflexivity. Qed.

Lemma shut_from_step s t ev t' o : shut_from s t -> data_event ev -> step t ev = (t', o) ->
  shut_from s t' /\ shut_outcome o /\ forall d, o = ORet d -> exists a b, rbuf s = a ++ d ++ b.
Proof.
  intros (St & Wt & SEt & a & RBt) D E.
  destruct (step_shut_out _ _ _ _ St D E) as (St' & W' & SE' & O & d & RB & RET).
  rewrite <- RB in RBt. split.
  - split; [exact St'|]. split; [congruence|]. split; [congruence|].
    exists (a ++ d). rewrite <- app_assoc. exact RBt.
  - split; [exact O|]. intros d' E'. rewrite (RET d' E'). exists a, (rbuf t'). exact RBt.
Qed.

Lemma run_shut evs s s' os : shut s -> Forall data_event evs -> run s evs = (s', os) -> shut_run s s' os.
Proof.
  intros S F H.
  destruct (run_invariant (shut_from s) data_event
              (fun o => shut_outcome o /\ forall d, o = ORet d -> exists a b, rbuf s = a ++ d ++ b)
              (shut_from_step s) evs s s' os (shut_from_refl s S) F H) as ((S' & W & SE & _) & Q).
  split; [exact S'|exact W|exact SE| |]; (eapply Forall_impl; [|exact Q]); intros o K; apply K.
Qed.

Definition fault_exn (x : exn) : Prop := x = XAbrupt \/ exists e, x = XSock e.

Definition contained (s s' : st) (o : outcome) : Prop :=
  (exists x, o = OExc x /\ fault_exn x) /\ hs s' = false /\ closed s' = true /\
  sess s' = option_map (fun _ => false) (sess s).

(* `contained` in the order and with the alternative that `transport_fault_contained` states *)
Lemma contained_or (P : Prop) s s' o : contained s s' o ->
  hs s' = false /\ closed s' = true /\ sess s' = option_map (fun _ => false) (sess s) /\
  ((exists x, o = OExc x /\ fault_exn x) \/ P).
Proof. intros (X & H & C & SE). auto. Qed.

Lemma wants_true mn s : closed s = false -> (zlen (rbuf s) <? mn) || is_nil (rbuf s) = true ->
  ((zlen (rbuf s) <? mn) || (is_nil (rbuf s) && true)) && negb (closed s) = true.
Proof. intros -> W. rewrite !andb_true_r. exact W. Qed.

Lemma set_inq_same s : set_inq (inq s) s = s.
Proof. destruct s; reflexivity. Qed.

Lemma get_msg_empty c s : inq s = [] -> get_msg c s = (s, no_input s).
Proof.
  intros IQ. unfold get_msg. rewrite IQ. unfold get_msg_q. rewrite <- IQ, set_inq_same. reflexivity.
Qed.

Lemma read_msg_empty s : inq s = [] -> sock_open s = true ->
  read_msg s = (s, match rxe s with RxOpen => Blk | RxEof => Exc XAbrupt | RxErr e => Exc (XSock e) end).
Proof.
  intros IQ SO. unfold read_msg. rewrite get_msg_empty by exact IQ. unfold no_input. rewrite SO.
  destruct (rxe s); reflexivity.
Qed.

Lemma read_msg_alert l d rest s : inq s = IAlert l d :: rest ->
  read_msg s = (let '(s1, x) := alert_branch l d (set_inq rest s) in (s1, Exc x)).
Proof.
  intros IQ. unfold read_msg. rewrite (get_msg_alert CRead l d rest s) by (discriminate || exact IQ).
  destruct (alert_branch l d (set_inq rest s)); reflexivity.
Qed.

Lemma wrapper_quiet x s : wq s = [] -> hs_wrapper x s =
  (match x with XRemote _ | XLocal _ => set_hs false s | _ => quit false (set_hs false s) end, OExc x).
Proof. intros Q. unfold hs_wrapper. destruct x; try reflexivity; apply raise_quiet; exact Q. Qed.

(* a transport fault is contained, also when the raiser has shut down already *)
Lemma wrapper_contained x s0 s : wq s = [] -> fault_exn x -> sess_le (sess s0) (sess s) ->
  exists s', hs_wrapper x s = (s', OExc x) /\ contained s0 s' (OExc x).
Proof.
  intros Q F SE. rewrite wrapper_quiet by exact Q. exists (quit false (set_hs false s)).
  split; [destruct F as [->|(e & ->)]; reflexivity|]. split; [eauto|]. split; [reflexivity|].
  split; [reflexivity|]. cbn. destruct SE as [->|(-> & ->)]; reflexivity.
Qed.

Lemma look_for_alert_dead z s : wq s = [] -> sock_open s = true -> look_for_alert z s =
  match inq s with
  | [] => match rxe s with
          | RxOpen => (set_hs false s, OBlocked)
          | RxEof => hs_wrapper XAbrupt s
          | RxErr e => hs_wrapper (XSock e) s
          end
  | i :: rest => hs_wrapper (match i with IAlert _ d => XRemote d | _ => XSock z end)
                            (quit false (set_inq rest s))
  end.
Proof.
  intros Q SO. unfold look_for_alert, recv_item. destruct (inq s) as [|i rest].
  - unfold no_input. rewrite SO. destruct (rxe s); reflexivity.
  - rewrite shutdown_quiet by exact Q. destruct i; reflexivity.
Qed.

Lemma do_hs_send_dead ct s e : hs s = true -> bufw s = false -> tx_dead s e ->
  do_hs (HSend ct) s = if ct =? 22 then look_for_alert e s else hs_wrapper (XSock e) s.
Proof. intros HS B T. unfold do_hs. rewrite HS, (send_rec_dead _ _ _ B T). reflexivity. Qed.

(* the same outside a handshake, through _send_post_handshake_msg: one more _shutdown(False) *)
Lemma post_send_w_dead s e : wq s = [] -> bufw s = false -> tx_dead s e -> post_send_w s =
  match inq s with
  | [] => match rxe s with
          | RxOpen => (s, Blk)
          | RxEof => (quit false s, Exc XAbrupt)
          | RxErr e' => (quit false s, Exc (XSock e'))
          end
  | i :: rest => (quit false (quit false (set_inq rest s)),
                  Exc (match i with IAlert _ d => XRemote d | _ => XSock e end))
  end.
Proof.
  intros Q B T. unfold post_send_w, post_send_hs. rewrite (send_rec_dead _ _ _ B T).
  unfold recv_item. destruct (inq s) as [|i rest].
  - unfold no_input. rewrite (proj1 T).
    destruct (rxe s); cbn; rewrite ?shutdown_quiet by exact Q; reflexivity.
  - rewrite shutdown_quiet by exact Q. rewrite shutdown_quiet by exact Q. reflexivity.
Qed.

Lemma post_outcome_dead s e : wq s = [] -> bufw s = false -> tx_dead s e -> inq s <> [] \/ rxe s <> RxOpen ->
  exists s' x, post_outcome (post_send_w s) = (s', OExc x) /\ closed s' = true /\
    sess s' = option_map (fun _ => false) (sess s) /\
    (fault_exn x \/ exists l d rest, inq s = IAlert l d :: rest /\ x = XRemote d).
Proof.
  intros Q B T NE. rewrite (post_send_w_dead s e Q B T). unfold fault_exn. destruct (inq s) as [|i rest].
  - destruct (rxe s) as [| |e']; [destruct NE; congruence|..]; eexists _, _; cbn.
    + (* EOF *) split; [reflexivity|]. split; [reflexivity|]. split; [reflexivity|]. left. left. reflexivity.
    + (* errno e' *) split; [reflexivity|]. split; [reflexivity|]. split; [reflexivity|]. left. right. exists e'. reflexivity.
  - eexists _, _. cbn. split; [reflexivity|]. split; [reflexivity|]. split; [apply off_off|].
    destruct i as [d|l d|b|k]; [|right; exists l, d, rest; auto|..]; left; right; exists e; reflexivity.
Qed.

Lemma records_cons s d : exists x rs, records s d = x :: rs.
Proof.
  unfold records. destruct (split s); [destruct d; eauto|].
  destruct d as [|b d]; cbn [length frags]; [eauto|].
  destruct (S (length d) <=? Z.to_nat (recsz s))%nat; eauto.
Qed.

Definition applicable (ev : event) (s : st) : Prop :=
  match ev with
  | UKeyUpdate | UPha true => tls13 s = true
  | UHeartbeat true => True
  | _ => False
  end.

Lemma applicable_cases ev s : applicable ev s ->
  (ev = UKeyUpdate /\ tls13 s = true) \/ (ev = UPha true /\ tls13 s = true) \/ ev = UHeartbeat true.
Proof. destruct ev as [| | | | | | | | |[|]|[|]| | | |]; cbn; try contradiction; auto. Qed.

(* handshake, the transport dies, a public post-handshake call: before /repo fa8f243 the call
   raised with the connection open and the session resumable *)
Definition post_fault_script (ev : event) : list event :=
  [UHsStart; UHs (HSend 22); NIn (IHs false); UHs HRecv; UHs (HSetSess true); UHs HDone;
   NSendBreak 0 32; NEof; ev; UWrite [119]].

(* Before /repo 0ab9df1 (_sendMsgThroughSocket fell through when the waiting record was not an
   alert) this script ended in [...; OStep; OHsDone] with closed = false on a closed socket. *)
Definition swallow_script : list event :=
  [UHsStart; NIn (IHs false); UHs HRecv; UHs (HSend 22); NIn (IHs false); UHs HRecv; UHs (HSetSess true);
   NIn (IData [71; 69; 84]);              (* the peer's first application data, already buffered *)
   NSendBreak 0 32; NEof;                 (* the transport dies *)
   UHs (HSend 22);                        (* the server's NewSessionTicket record *)
   UHs HDone].

(* an established connection; before /repo 8b57b65 (writeAsync's handler ran
   _shutdown(ignoreAbruptClose) also for the closed-connection error) the history
   [close_notify; read; write] from here ended with sess = Some false *)
Definition est0 : st := mkst false false 1 (Some true) false true false false 16384 true false [] [] [] RxOpen None [].

(* example states meeting the hypotheses of the theorems *)
Definition ex_open_cn : st := fst (run est0 [NIn (IData [1; 2]); NIn (IAlert 1 0)]).
Definition ex_in_handshake : st := fst (run (init false true false false 16384) [UHsStart; UHs (HSend 22); UHs (HSetSess true)]).
