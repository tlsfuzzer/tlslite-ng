(* readAsync(max, min): what a call returns and leaves in the buffer, without and with the peer's
   close among the arrivals (nothing that was buffered is lost); key generations; the defragmenter
   across read-key changes. *)
From Coq Require Import ZArith List Bool Lia.
From TV Require Import Base.Prelude Model.C01_RecordPipe Proofs.C01_Lists.
Import ListNotations.
Open Scope Z_scope.

Lemma fill_buffer_spec fuel : forall mn t buf arr b1 rest,
  fill_buffer fuel mn t buf arr = (b1, rest) ->
  exists used, arr = used ++ rest /\ b1 = buf ++ concat used /\
               ((length arr < fuel)%nat -> rest <> [] -> mn <= zlen b1).
Proof.
  induction fuel as [|f IH]; intros mn t buf arr b1 rest H; cbn [fill_buffer] in H.
  - injection H as <- <-. exists []. cbn [concat app]. rewrite app_nil_r. repeat split. lia.
  - destruct ((zlen buf <? mn) || ((zlen buf =? 0) && t)) eqn:E; [destruct arr as [|a arr']|].
    + injection H as <- <-. exists []. cbn [concat app]. rewrite app_nil_r. repeat split. congruence.
    + apply IH in H. destruct H as [used [-> [-> Hmin]]]. exists (a :: used). cbn [concat app length].
      rewrite <- app_assoc in *. repeat split. intros Hf. apply Hmin. lia.
    + injection H as <- <-. exists []. cbn [concat app]. rewrite app_nil_r. repeat split.
      apply orb_false_iff in E. lia.
Qed.

(* the last step of readAsync *)
Lemma take_max_spec (mx : option Z) (b1 : list Z) :
  let m := match mx with None => zlen b1 | Some v => v end in
  match mx with Some v => 0 <= v -> zlen (ztake m b1) <= v | None => zdrop m b1 = [] end.
Proof. destruct mx as [v|]; cbv zeta; [intros Hv; rewrite zlen_ztake_eq; lia|apply zdrop_all; lia]. Qed.

Lemma data_of_app a b : data_of (a ++ b) = data_of a ++ data_of b.
Proof.
  induction a as [|[p|] a IH]; cbn [app data_of]; [reflexivity| |exact IH]. rewrite IH, app_assoc. reflexivity.
Qed.

Lemma fill_buffer_c_spec fuel : forall mn t buf cl arr b1 cl1 rest,
  fill_buffer_c fuel mn t buf cl arr = (b1, cl1, rest) ->
  exists used, arr = used ++ rest /\ b1 = buf ++ data_of used /\ (cl = true -> cl1 = true /\ used = []).
Proof.
  induction fuel as [|f IH]; intros mn t buf cl arr b1 cl1 rest H; cbn [fill_buffer_c] in H.
  - injection H as <- <- <-. exists []. cbn [data_of app]. rewrite app_nil_r. auto.
  - destruct (((zlen buf <? mn) || ((zlen buf =? 0) && t)) && negb cl) eqn:E.
    + apply andb_true_iff in E. destruct E as [_ Ecl]. apply negb_true_iff in Ecl. subst cl.
      destruct arr as [|[a|] arr'].
      * injection H as <- <- <-. exists []. cbn [data_of app]. rewrite app_nil_r. split; [auto|]. split; [auto|discriminate].
      * apply IH in H. destruct H as [used [-> [-> _]]]. exists (AData a :: used). cbn [data_of app].
        rewrite <- app_assoc. split; [auto|]. split; [auto|discriminate].
      * injection H as <- <- <-. exists [AClose]. cbn [data_of app]. rewrite app_nil_r. split; [auto|]. split; [auto|discriminate].
    + injection H as <- <- <-. exists []. cbn [data_of app]. rewrite app_nil_r. auto.
Qed.

Lemma read_call_c_spec mx mn buf cl arr out b' cl' rest :
  read_call_c mx mn buf cl arr = (out, b', cl', rest) ->
  exists used, arr = used ++ rest /\ out ++ b' = buf ++ data_of used /\
               (cl = true -> cl' = true /\ used = []) /\
               (match mx with Some m => 0 <= m -> zlen out <= m | None => b' = [] end).
Proof.
  unfold read_call_c. destruct (fill_buffer_c (S (length arr)) mn true buf cl arr) as [[b1 cl1] rest1] eqn:E.
  intros H. injection H as <- <- <- <-.
  destruct (fill_buffer_c_spec _ _ _ _ _ _ _ _ _ E) as [used [Ha [Hb Hc]]].
  exists used. split; [exact Ha|]. split; [rewrite ztake_zdrop; exact Hb|]. split; [exact Hc|apply take_max_spec].
Qed.

Lemma generation_inj {S} (next : S -> S) s0 : (forall a b, next a = next b -> a = b) ->
  (forall n, (0 < n)%nat -> generation next s0 n <> s0) ->
  forall i j, i <> j -> generation next s0 i <> generation next s0 j.
Proof.
  intros Hinj Hacyc.
  assert (H : forall i d, (0 < d)%nat -> generation next s0 (i + d) <> generation next s0 i).
  { induction i as [|i IH]; intros d Hd; cbn [plus generation].
    - apply Hacyc. exact Hd.
    - intros E. apply Hinj in E. exact (IH d Hd E). }
  intros i j Hne E. destruct (Nat.lt_trichotomy i j) as [L|[L|L]]; [|contradiction|].
  - apply (H i (j - i)%nat ltac:(lia)). replace (i + (j - i))%nat with j by lia. symmetry. exact E.
  - apply (H j (i - j)%nat ltac:(lia)). replace (j + (i - j))%nat with i by lia. exact E.
Qed.

Definition defrag_ok (st : option dstate) : Prop :=
  match st with
  | None => True
  | Some (ep, waiting, out) =>
      Forall (fun b => snd b = ep) waiting /\
      Forall (fun m => Forall (fun b => snd b = fst m) (snd m)) out
  end.

Lemma defrag_step_ok st e : defrag_ok st -> defrag_ok (defrag_step st e).
Proof.
  destruct st as [[[ep waiting] out]|]; [|intros _; exact I].
  intros [Hw Ho]. destruct e as [bs|n|]; cbn [defrag_step].
  - split; [|exact Ho]. apply Forall_app. split; [exact Hw|]. apply Forall_forall. intros x Hx.
    apply in_map_iff in Hx. destruct Hx as [b [<- _]]. reflexivity.
  - destruct (n <=? length waiting)%nat; [|split; assumption].
    rewrite <- (firstn_skipn n waiting) in Hw. apply Forall_app in Hw. destruct Hw as [Hf Hs].
    split; [exact Hs|]. apply Forall_app. split; [exact Ho|]. constructor; [exact Hf|constructor].
  - destruct waiting; [|exact I]. split; [constructor|exact Ho].
Qed.

Lemma defrag_run_ok steps : forall st, defrag_ok st -> defrag_ok (fold_left defrag_step steps st).
Proof.
  induction steps as [|e es IH]; intros st H; [exact H|]. cbn [fold_left]. apply IH. apply defrag_step_ok. exact H.
Qed.
