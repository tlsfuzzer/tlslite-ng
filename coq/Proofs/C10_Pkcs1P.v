(* C10: RSASSA-PKCS1-v1_5 as implemented by rsakey.py: verification accepts exactly the
   canonical encoding(s); a signature made with a correct private operation verifies; an
   RSASSA-PSS-only key accepts no PKCS#1 signature under any spelling of the scheme name. *)
From Coq Require Import ZArith List Bool Lia String.
From TV Require Import Base.Prelude Base.PreludeFacts Gen.C10_Tables Model.C10_RsaMath Model.C10_RsaSig
     Proofs.C10_BytesP Proofs.C10_MathP.
Import ListNotations.
Open Scope Z_scope.

Lemma padding_is_canonical n data : addPKCS1Padding_sig n data = canonical_em (numBytes n) data.
Proof.
  unfold addPKCS1Padding_sig, canonical_em.
  replace (numBytes n - (zlen data + 3)) with (numBytes n - zlen data - 3) by lia. reflexivity.
Qed.

Lemma canonical_em_zlen k T : zlen (canonical_em k T) = Z.max (zlen T + 3) k.
Proof.
  unfold canonical_em. rewrite !zlen_app, zlen_repeat. change (zlen [0; 1]) with 2. change (zlen [0]) with 1. lia.
Qed.

Lemma canonical_em_bytes k T : all_bytes T = true -> all_bytes (canonical_em k T) = true.
Proof.
  intros H. unfold canonical_em. rewrite !all_bytes_app, H, all_bytes_repeat by reflexivity. reflexivity.
Qed.

(* _raw_private_key_op_bytes and _raw_public_key_op_bytes are one function of the integer-level operation
   (raw_public_key_op_bytes n e is raw_private_key_op_bytes n (raw_public_op n e) by computation) *)
Lemma raw_op_ok n f m c : raw_private_key_op_bytes n f m = Ok c <->
  zlen m = numBytes n /\ bytesToNumber m < n /\ c = numberToByteArray (f (bytesToNumber m)) (numBytes n).
Proof.
  unfold raw_private_key_op_bytes.
  destruct (Z.eqb_spec (zlen m) (numBytes n)) as [E1|E1]; cbn [negb]; [|split; [discriminate|tauto]].
  destruct (bytesToNumber m >=? n) eqn:E2; [split; [discriminate|lia]|].
  split; [intros H; injection H as <-; repeat split; lia|intros (_ & _ & ->); reflexivity].
Qed.

(* the encoding of T for a k-byte modulus, when RFC 8017 9.2 allows one (|PS| >= 8) *)
Definition enc (k : Z) (T : list Z) : list (list Z) :=
  if k <? zlen T + 11 then [] else [canonical_em k T].

Lemma in_enc k T c : In c (enc k T) <-> zlen T + 11 <= k /\ c = canonical_em k T.
Proof.
  unfold enc. destruct (k <? zlen T + 11) eqn:E.
  - apply Z.ltb_lt in E. cbn [In]. split; [tauto|intros [H _]; lia].
  - apply Z.ltb_ge in E. cbn [In]. split; [intros [<-|[]]; auto|intros [_ ->]; auto].
Qed.

Lemma raw_verify_enc n e sig T :
  raw_pkcs1_verify n e sig T = true <->
  zlen T + 11 <= numBytes n /\ raw_public_key_op_bytes n e sig = Ok (canonical_em (numBytes n) T).
Proof.
  unfold raw_pkcs1_verify. rewrite padding_is_canonical.
  destruct (raw_public_key_op_bytes n e sig) as [c|x]; [|split; [discriminate|intros [_ H]; discriminate]].
  destruct (Z.ltb_spec (numBytes n) (zlen T + 11)) as [L|L]; [split; [discriminate|lia]|].
  rewrite list_eqb_spec. split; [intros ->; auto|intros [_ H]; injection H; auto].
Qed.

(* the encodings verify() compares against, per hash name (None: TLS <= 1.1 raw MD5||SHA1) *)
Definition accepted_encodings (k : Z) (hashAlg : option string) (data : list Z) : list (list Z) :=
  match hashAlg with
  | None => enc k data
  | Some h =>
      match lookup_prefix pkcs1_prefixes h with
      | None => []
      | Some p =>
          if String.eqb h "sha1"
          then enc k (sha1_prefix_no_null ++ data) ++ enc k (p ++ data)
          else enc k (p ++ data)
      end
  end.

Lemma sha1_in_table : lookup_prefix pkcs1_prefixes "sha1" <> None.
Proof. vm_compute. discriminate. Qed.

(* the block sign() encodes *)
Definition signed_block (hashAlg : option string) (data : list Z) : option (list Z) :=
  match hashAlg with
  | None => Some data
  | Some h => match lookup_prefix pkcs1_prefixes h with Some p => Some (p ++ data) | None => None end
  end.

(* the blocks verify() compares the opened signature against: the one sign() encodes, for SHA-1 preceded by the one
   whose DigestInfo lacks the NULL parameter; addPKCS1Prefix asserts that the hash is in the table *)
Definition verify_blocks (hashAlg : option string) (data : list Z) : res (list (list Z)) :=
  match signed_block hashAlg data with
  | None => Err AssertionError
  | Some T => Ok (match hashAlg with
                  | Some h => if String.eqb h "sha1" then [sha1_prefix_no_null ++ data; T] else [T]
                  | None => [T]
                  end)
  end.

Lemma rsa_verify_pkcs1 hash hLen n e sig data hashAlg sLen :
  rsa_verify hash hLen false n e sig data PadPkcs1 hashAlg sLen =
  (Ts <- verify_blocks hashAlg data ;; Ok (existsb (raw_pkcs1_verify n e sig) Ts)).
Proof.
  unfold rsa_verify, verify_blocks, signed_block.
  destruct hashAlg as [h|]; [|cbn [bind existsb]; rewrite orb_false_r; reflexivity].
  destruct (String.eqb h "sha1") eqn:Eh.
  - apply String.eqb_eq in Eh. subst h. unfold addPKCS1SHA1Prefix.
    destruct (lookup_prefix pkcs1_prefixes "sha1") eqn:Ep; [|destruct (sha1_in_table Ep)].
    cbn [bind existsb]. rewrite orb_false_r. reflexivity.
  - unfold addPKCS1Prefix.
    destruct (lookup_prefix pkcs1_prefixes h); cbn [bind existsb]; rewrite ?orb_false_r; reflexivity.
Qed.

Lemma accepted_encodings_blocks k hashAlg data :
  accepted_encodings k hashAlg data =
  match verify_blocks hashAlg data with Ok Ts => flat_map (enc k) Ts | Err _ => [] end.
Proof.
  unfold accepted_encodings, verify_blocks, signed_block.
  destruct hashAlg as [h|]; [|cbn [flat_map]; rewrite app_nil_r; reflexivity].
  destruct (lookup_prefix pkcs1_prefixes h); [|reflexivity].
  destruct (String.eqb h "sha1"); cbn [flat_map]; rewrite app_nil_r; reflexivity.
Qed.

Section VerifyTotal.
  Variable hash : list Z -> list Z.
  Variable hLen : Z.

  Lemma pkcs1_verify_total n e sig data hashAlg sLen :
    (exists b, rsa_verify hash hLen false n e sig data PadPkcs1 hashAlg sLen = Ok b) \/
    (exists h, hashAlg = Some h /\ lookup_prefix pkcs1_prefixes h = None /\
               rsa_verify hash hLen false n e sig data PadPkcs1 hashAlg sLen = Err AssertionError).
  Proof.
    rewrite rsa_verify_pkcs1. unfold verify_blocks, signed_block.
    destruct hashAlg as [h|]; [|left; eexists; reflexivity].
    destruct (lookup_prefix pkcs1_prefixes h) eqn:Ep; [left; eexists; reflexivity|right; exists h; auto].
  Qed.
End VerifyTotal.

Lemma repeat_ff_split j j' X X' :
  repeat 255 j ++ [0] ++ X = repeat 255 j' ++ [0] ++ X' -> j = j' /\ X = X'.
Proof.
  revert j'. induction j as [|j IH]; intros [|j'] H; cbn [repeat app] in H.
  - injection H as H. auto.
  - discriminate.
  - discriminate.
  - injection H as H. destruct (IH j' H) as [-> ->]. auto.
Qed.

Lemma em_parse_unique k T j X :
  [0; 1] ++ repeat 255 j ++ [0] ++ X = canonical_em k T ->
  X = T /\ j = Z.to_nat (k - zlen T - 3).
Proof.
  unfold canonical_em. intros H. cbn [app] in H. injection H as H.
  destruct (repeat_ff_split _ _ _ _ H) as [-> ->]. auto.
Qed.

Lemma canonical_em_inj k T T' : zlen T = zlen T' -> canonical_em k T = canonical_em k T' -> T = T'.
Proof.
  unfold canonical_em. intros Hl H. rewrite Hl in H. cbn [app] in H. injection H as H.
  apply app_inv_head in H. injection H; auto.
Qed.

Lemma rsa_sign_pkcs1 hash hLen n priv data hashAlg salt :
  rsa_sign hash hLen n priv data PadPkcs1 hashAlg salt =
  match signed_block hashAlg data with Some T => raw_pkcs1_sign n priv T | None => Err AssertionError end.
Proof.
  unfold rsa_sign, signed_block, addPKCS1Prefix.
  destruct hashAlg as [h|]; [destruct (lookup_prefix pkcs1_prefixes h)|]; reflexivity.
Qed.

Lemma lookup_prefix_in t h p : lookup_prefix t h = Some p -> In (h, p) t.
Proof.
  induction t as [|[k v] t IH]; cbn [lookup_prefix]; [discriminate|].
  destruct (String.eqb_spec k h) as [->|_]; intros H; [injection H as <-; left; reflexivity|right; exact (IH H)].
Qed.

Lemma prefixes_bytes : forallb (fun kv => all_bytes (snd kv)) pkcs1_prefixes = true.
Proof. vm_compute. reflexivity. Qed.

Lemma signed_block_bytes hashAlg data T :
  all_bytes data = true -> signed_block hashAlg data = Some T -> all_bytes T = true.
Proof.
  intros Hd. unfold signed_block. destruct hashAlg as [h|]; [|intros H; injection H as <-; exact Hd].
  destruct (lookup_prefix pkcs1_prefixes h) as [p|] eqn:Ep; [|discriminate]. intros H. injection H as <-.
  pose proof (proj1 (forallb_forall _ _) prefixes_bytes _ (lookup_prefix_in _ _ _ Ep)) as Hp. cbn [snd] in Hp.
  rewrite all_bytes_app, Hp, Hd. reflexivity.
Qed.

(* a block the raw operations take: the k-byte representative of a number below n *)
Set Implicit Arguments.
Record block (n : Z) (m : list Z) : Prop := {
  blk_bytes : all_bytes m = true;
  blk_zlen : zlen m = numBytes n;
  blk_lt : bytesToNumber m < n }.
Unset Implicit Arguments.

Section Sign.
  Variables n e : Z.
  Variable priv : Z -> Z.
  Hypothesis Hn : 0 < n.
  (* what a correct private operation provides (C10_MathP.raw_private_op_inverts: the blinded CRT code does) *)
  Hypothesis Hpriv : forall x, 0 <= x < n -> 0 <= priv x < n /\ powmod (priv x) e n = x.

  (* the leading 00 alone puts the encoding below 256^(k-1) <= n *)
  Lemma canonical_em_block T : all_bytes T = true -> zlen T + 3 <= numBytes n ->
    block n (canonical_em (numBytes n) T).
  Proof.
    intros HT Hlen. pose proof (canonical_em_bytes (numBytes n) T HT) as B.
    pose proof (canonical_em_zlen (numBytes n) T) as L. pose proof (numBytes_spec n Hn) as Hlow.
    split; [exact B|lia|].
    unfold canonical_em in *. cbn [app] in *. rewrite all_bytes_cons in B. rewrite zlen_cons in L.
    rewrite b2n_cons. pose proof (b2n_range _ B) as R.
    replace (zlen (1 :: _)) with (numBytes n - 1) in R by lia. lia.
  Qed.

  Lemma raw_private_then_public m : block n m ->
    exists S, raw_private_key_op_bytes n priv m = Ok S /\ raw_public_key_op_bytes n e S = Ok m.
  Proof.
    intros [Hb Hl Hlt]. pose proof (numBytes_pos n Hn) as Hk. pose proof (numBytes_spec n Hn) as Hu.
    pose proof (b2n_range m Hb) as [H0 _].
    destruct (Hpriv (bytesToNumber m) (conj H0 Hlt)) as [[P0 P1] P2].
    eexists. split; [apply raw_op_ok; auto|]. apply (raw_op_ok n (raw_public_op n e)).
    rewrite n2b_zlen, b2n_n2b by lia. unfold raw_public_op. rewrite P2, n2b_b2n by assumption. auto.
  Qed.

  Lemma raw_sign_verifies T :
    all_bytes T = true -> zlen T + 11 <= numBytes n ->
    exists sig, raw_pkcs1_sign n priv T = Ok sig /\ raw_pkcs1_verify n e sig T = true.
  Proof.
    intros HT Hlen. unfold raw_pkcs1_sign. destruct (numBytes n <? zlen T + 11) eqn:EG; [lia|].
    rewrite padding_is_canonical.
    destruct (raw_private_then_public _ (canonical_em_block T HT ltac:(lia))) as [sig [Hs Hp]].
    exists sig. split; [exact Hs|]. apply raw_verify_enc. auto.
  Qed.

  (* RFC 8017 9.2 step 3: fewer than 8 bytes of padding would be needed: signing raises *)
  Lemma raw_sign_too_long T : numBytes n < zlen T + 11 -> raw_pkcs1_sign n priv T = Err ValueError.
  Proof.
    intros H. unfold raw_pkcs1_sign.
    destruct (numBytes n <? zlen T + 11) eqn:E; [reflexivity|lia].
  Qed.

  Variable hash : list Z -> list Z.
  Variable hLen : Z.

  Theorem pkcs1_sign_verifies_gen data hashAlg salt sLen T :
    all_bytes data = true -> signed_block hashAlg data = Some T -> zlen T + 11 <= numBytes n ->
    exists sig, rsa_sign hash hLen n priv data PadPkcs1 hashAlg salt = Ok sig /\
                rsa_verify hash hLen false n e sig data PadPkcs1 hashAlg sLen = Ok true.
  Proof.
    intros Hd HT HL. rewrite rsa_sign_pkcs1, HT.
    destruct (raw_sign_verifies T (signed_block_bytes _ _ _ Hd HT) HL) as [sig [Hs Hv]].
    exists sig. split; [exact Hs|].
    rewrite rsa_verify_pkcs1. unfold verify_blocks. rewrite HT. cbn [bind]. f_equal. apply existsb_exists.
    exists T. split; [|exact Hv]. destruct hashAlg as [h|]; [destruct (String.eqb h "sha1")|]; cbn [In]; auto.
  Qed.
End Sign.

Lemma raw_public_op_bytes_inj n e s1 s2 c : 0 < n ->
  (forall x y, 0 <= x < n -> 0 <= y < n -> powmod x e n = powmod y e n -> x = y) ->
  all_bytes s1 = true -> all_bytes s2 = true ->
  raw_public_key_op_bytes n e s1 = Ok c -> raw_public_key_op_bytes n e s2 = Ok c -> s1 = s2.
Proof.
  intros Hn Hinj B1 B2 H1 H2.
  apply (raw_op_ok n (raw_public_op n e)) in H1, H2. destruct H1 as (L1 & R1 & E1), H2 as (L2 & R2 & E2).
  unfold raw_public_op in *.
  pose proof (numBytes_spec n Hn) as U. pose proof (numBytes_pos n Hn) as P.
  apply b2n_inj; try assumption; [lia|].
  apply Hinj; [pose proof (b2n_range s1 B1); lia|pose proof (b2n_range s2 B2); lia|].
  pose proof (powmod_range (bytesToNumber s1) e n Hn).
  pose proof (powmod_range (bytesToNumber s2) e n Hn).
  rewrite <- (b2n_n2b (powmod (bytesToNumber s1) e n) (numBytes n)), <- E1, E2 by lia.
  apply b2n_n2b; lia.
Qed.

Section CrtSign.
  Variable k : rsa_priv.
  Variable b : blind.

  (* C10_MathP.raw_private_op_inverts: a right inverse of the public operation, for a valid key and a blinding pair
     that satisfies the invariant *)
  Definition crt_priv (m : Z) : Z := fst (raw_private_op k b m).
End CrtSign.

Lemma accepted_is_rfc8017 k hashAlg data c :
  In c (accepted_encodings k hashAlg data) -> exists T, rfc8017_em k T = Some c.
Proof.
  rewrite accepted_encodings_blocks. destruct (verify_blocks hashAlg data) as [Ts|x]; [|intros []].
  intros H. apply in_flat_map in H. destruct H as [T [_ H]]. exists T. revert H.
  unfold enc, rfc8017_em. destruct (k <? zlen T + 11); [intros []|intros [<-|[]]; reflexivity].
Qed.

(* 304-bit modulus (38 bytes) and an MD5 DigestInfo (34 bytes): before /repo 693c302 sign() emitted and
   verify() accepted a block with ONE byte of padding for this key; sign() refuses it
   (Props/C10.v pkcs1_former_short_padding_witness_refused) *)
Definition small_key : rsa_priv :=
  {| rk_n := 25638404324901246760496983147100340690291781477598438344356687246102644127504076286653413581;
     rk_e := 65537;
     rk_d := 305335529175662955224802712152094479588213305999856375343447813764145868321429343267903791;
     rk_p := 5659302335800191498658776363438708154314788647;
     rk_q := 4530311830614741268698412578695073616325030123;
     rk_dP := 465441500068099427464955744067238917737411093;
     rk_dQ := 3939007874085170235351658513080876144453502471;
     rk_qInv := 4409193426150039511113837341851114542028539939 |}.
Definition small_digest : list Z := [1; 2; 3; 4; 5; 6; 7; 8; 9; 10; 11; 12; 13; 14; 15; 16].
Definition plain_priv (k : rsa_priv) (m : Z) : Z := powmod m (rk_d k) (rk_n k).

Section PssOnlyKey.
  Variable hash : list Z -> list Z.
  Variable hLen : Z.

  (* verify() with an rsa-pss key: the key-type guard answers False to the exact name "pkcs1" (by computation) *)
  Lemma verify_named_pss_key_unknown n e sig data padname hashAlg sLen :
    padname <> "pkcs1"%string -> padname <> "pss"%string ->
    rsa_verify_named hash hLen true n e sig data padname hashAlg sLen = Err UnknownRSAType.
  Proof.
    intros N1 N2. unfold rsa_verify_named, pad_of_name.
    apply String.eqb_neq in N1, N2. rewrite N1, N2. reflexivity.
  Qed.

  Lemma verify_named_pss_key_accepts n e sig data padname hashAlg sLen :
    rsa_verify_named hash hLen true n e sig data padname hashAlg sLen = Ok true -> padname = "pss"%string.
  Proof.
    destruct (String.eqb_spec padname "pkcs1") as [->|N1]; [discriminate|].
    destruct (String.eqb_spec padname "pss") as [E|N2]; [intros _; exact E|].
    rewrite verify_named_pss_key_unknown by assumption. discriminate.
  Qed.
End PssOnlyKey.
