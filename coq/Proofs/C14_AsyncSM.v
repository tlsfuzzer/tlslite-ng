(* C14 lemmas: AsyncStateMachine drives one generator to completion, one next() per event,
   reports completion exactly once, and refuses a second operation while one is active. *)
From Coq Require Import ZArith List Bool Lia.
From TV Require Import Model.C14_AsyncSM.
Import ListNotations.
Open Scope Z_scope.

Definition is_io (c : acall) : bool := match c with InRead _ | InWrite => true | _ => false end.

Definition exns (os : list obs) : list (option aexn) := map (fun o => snd (fst (fst o))) os.
Definition events (os : list obs) : list aevent := concat (map (fun o => fst (fst (fst o))) os).
Definition no_exn (os : list obs) : Prop := Forall (fun x => x = None) (exns os).

(* the machine while a handshake / a read is suspended on [y], [g] being the rest of its generator *)
Definition running (y : Z) (g : gen) : asm :=
  {| a_hs := Some g; a_cl := None; a_rd := None; a_wr := None; a_result := Some y |}.
Definition running_rd (y : Z) (g : gen) : asm :=
  {| a_hs := None; a_cl := None; a_rd := Some g; a_wr := None; a_result := Some y |}.

Lemma io_call_running y g c : is01 y = true -> is_io c = true ->
  asm_call c (running y g) = do_finishing g set_hs [EConnect] (running y g).
Proof.
  intros Hy Hc. destruct c; try discriminate; cbn [asm_call];
    unfold check_assert; cbn [running a_result]; rewrite Hy; reflexivity.
Qed.

Lemma io_call_running_rd y g c : is01 y = true -> is_io c = true ->
  asm_call c (running_rd y g) = do_read g (running_rd y g).
Proof.
  intros Hy Hc. destruct c; try discriminate; cbn [asm_call];
    unfold check_assert; cbn [running_rd a_result]; rewrite Hy; reflexivity.
Qed.

Definition completes (ev : aevent) (r : list obs * asm) : Prop :=
  snd r = asm_idle /\ no_exn (fst r) /\ events (fst r) = [ev].

Lemma completes_last c m ev :
  asm_call c m = (asm_idle, [ev], None) -> completes ev (asm_trace [c] m).
Proof. intros Hc. cbn [asm_trace]. rewrite Hc. repeat split. repeat constructor. Qed.

Lemma completes_cons c cs m m' ev :
  asm_call c m = (m', [], None) -> completes ev (asm_trace cs m') -> completes ev (asm_trace (c :: cs) m).
Proof.
  intros Hc (H1 & H2 & H3). cbn [asm_trace]. rewrite Hc.
  destruct (asm_trace cs m') as [os m'']. split; [exact H1|].
  split; [constructor; [reflexivity|exact H2]|exact H3].
Qed.

(* [R y g]: the states of one operation slot. *)
Lemma drive (R : Z -> gen -> asm) (tl : gen) (ev : aevent) :
  (forall y y1 g c, is01 y = true -> is01 y1 = true -> is_io c = true ->
     asm_call c (R y (GY y1 :: g)) = (R y1 g, [], None)) ->
  (forall y c, is01 y = true -> is_io c = true -> asm_call c (R y tl) = (asm_idle, [ev], None)) ->
  forall ys evs y,
  is01 y = true -> all01 ys = true -> length evs = S (length ys) -> forallb is_io evs = true ->
  completes ev (asm_trace evs (R y (yields01 ys ++ tl))).
Proof.
  intros Hstep Hend.
  induction ys as [|y1 ys IH]; intros evs y Hy Hall Hlen Hio;
    (destruct evs as [|c evs]; [discriminate|]);
    cbn [forallb] in Hio; apply andb_true_iff in Hio; destruct Hio as [Hc Hio];
    injection Hlen as Hlen.
  - destruct evs; [|discriminate]. apply completes_last, Hend; assumption.
  - cbn [all01 forallb] in Hall. apply andb_true_iff in Hall. destruct Hall as [Hy1 Hall].
    apply (completes_cons _ _ _ (R y1 (yields01 ys ++ tl))); [apply Hstep; assumption|].
    apply IH; assumption.
Qed.

Lemma asm_handshake_completes ys evs :
  all01 ys = true -> length evs = length ys -> forallb is_io evs = true ->
  completes EConnect (asm_trace (SetHandshake (yields01 ys) :: evs) asm_idle).
Proof.
  intros Hall Hlen Hio. destruct ys as [|y ys].
  - destruct evs; [|discriminate]. apply completes_last. reflexivity.
  - cbn [all01 forallb] in Hall. apply andb_true_iff in Hall. destruct Hall as [Hy Hall].
    apply (completes_cons _ _ _ (running y (yields01 ys))); [reflexivity|].
    rewrite <- (app_nil_r (yields01 ys)).
    apply (drive running [] EConnect); try assumption.
    + intros y0 y1 g c Hy0 _ Hc. rewrite io_call_running by assumption. reflexivity.
    + intros y0 c Hy0 Hc. rewrite io_call_running by assumption. reflexivity.
Qed.

(* a READ operation, including one that has to write (yields 1); it ends with the first value
   that is not 0/1 *)
Lemma asm_read_completes ys evs v :
  all01 ys = true -> is01 v = false -> length evs = length ys -> forallb is_io evs = true ->
  completes (ERead v) (asm_trace (InRead (yields01 ys ++ [GY v]) :: evs) asm_idle).
Proof.
  intros Hall Hv Hlen Hio. destruct ys as [|y ys].
  - destruct evs; [|discriminate]. apply completes_last. cbn. rewrite Hv. reflexivity.
  - cbn [all01 forallb] in Hall. apply andb_true_iff in Hall. destruct Hall as [Hy Hall].
    apply (completes_cons _ _ _ (running_rd y (yields01 ys ++ [GY v]))); [cbn; rewrite Hy; reflexivity|].
    apply (drive running_rd [GY v] (ERead v)); try assumption.
    + intros y0 y1 g c Hy0 Hy1 Hc. rewrite io_call_running_rd by assumption.
      cbn [do_read]. rewrite Hy1. reflexivity.
    + intros y0 c Hy0 Hc. rewrite io_call_running_rd by assumption.
      cbn [do_read]. rewrite Hv. reflexivity.
Qed.

Lemma active_ops_nonneg m : 0 <= active_ops m.
Proof. unfold active_ops. destruct (a_hs m), (a_cl m), (a_rd m), (a_wr m); cbn; lia. Qed.

Lemma busy_refuses m : 0 < active_ops m -> check_assert 0 m = false.
Proof.
  intros H. unfold check_assert.
  destruct (active_ops m <=? 0) eqn:E; [lia|]. apply andb_false_r.
Qed.
