(* C10: finite-field Diffie-Hellman and the X25519/X448 all-zero check. *)
From Coq Require Import ZArith List Bool Lia.
From TV Require Import Base.Prelude Base.PreludeFacts Model.C10_RsaMath Model.C10_RsaSig Model.C10_Dh Proofs.C10_BytesP Proofs.C10_MathP.
Import ListNotations.
Open Scope Z_scope.

Lemma ffdh_pow_agree g a b p : 0 < p -> 0 <= a -> 0 <= b ->
  powmod (powmod g a p) b p = powmod (powmod g b p) a p.
Proof.
  intros Hp Ha Hb. rewrite !powmod_spec by assumption. rewrite !pow_mod_l by assumption.
  rewrite <- !Z.pow_mul_r by assumption. rewrite Z.mul_comm. reflexivity.
Qed.

Definition share_of (v : dhval) : share :=
  match v with ValInt y => ShareInt y | ValBytes b => ShareBytes b end.

Lemma ffdh_public_value tls13 g p x v : 0 < p ->
  ffdh_calc_public tls13 g p x = Ok v ->
  ffdh_normalise p (share_of v) = Ok (powmod g x p) /\ powmod g x p <> 1 /\ powmod g x p <> p - 1.
Proof.
  intros Hp. unfold ffdh_calc_public.
  destruct ((powmod g x p =? 1) || (powmod g x p =? p - 1)) eqn:E; [discriminate|].
  apply orb_false_iff in E. destruct E as [E1 E2]. apply Z.eqb_neq in E1, E2.
  destruct tls13; intros H; injection H as <-; cbn [share_of ffdh_normalise]; (split; [|split; assumption]).
  - pose proof (numBytes_pos p Hp). rewrite n2b_zlen by lia. rewrite Z.eqb_refl. cbn [negb].
    f_equal. apply b2n_n2b; [lia|].
    pose proof (numBytes_spec p Hp). pose proof (powmod_range g x p Hp). lia.
  - reflexivity.
Qed.

Lemma ffdh_shared_ok_iff tls13 p x s r :
  ffdh_calc_shared tls13 p x s = Ok r <->
  exists y, ffdh_normalise p s = Ok y /\ 2 <= y < p - 1 /\ powmod y x p <> 1 /\ powmod y x p <> p - 1 /\
            r = (if tls13 then numberToByteArray (powmod y x p) (numBytes p)
                 else numberToByteArray_min (powmod y x p)).
Proof.
  unfold ffdh_calc_shared. split.
  - destruct (ffdh_normalise p s) as [y|ex]; cbn [bind]; [|discriminate].
    destruct ((2 <=? y) && (y <? p - 1)) eqn:E1; cbn [negb]; [|discriminate].
    destruct ((powmod y x p =? 1) || (powmod y x p =? p - 1)) eqn:E2; [discriminate|].
    intros H. exists y. repeat split; try lia. destruct tls13; injection H as <-; reflexivity.
  - intros (y & N & R & N1 & N2 & ->). rewrite N. cbn [bind].
    replace ((2 <=? y) && (y <? p - 1)) with true by lia.
    replace ((powmod y x p =? 1) || (powmod y x p =? p - 1)) with false by lia.
    destruct tls13; reflexivity.
Qed.

(* every failure is TLSIllegalParameter, so a share is refused as soon as no y can pass the checks:
   out-of-range values (0, 1, p-1, everything >= p, negatives), a byte share whose length differs from
   that of the prime (TLS 1.3), a shared secret in the subgroup of order 1 or 2 *)
Lemma ffdh_rejects_unless tls13 p x s :
  (forall y, ffdh_normalise p s = Ok y ->
             ~ (2 <= y < p - 1 /\ powmod y x p <> 1 /\ powmod y x p <> p - 1)) ->
  ffdh_calc_shared tls13 p x s = Err TLSIllegalParameter.
Proof.
  intros H. unfold ffdh_calc_shared. destruct (ffdh_normalise p s) as [y|ex] eqn:N; cbn [bind].
  - specialize (H y eq_refl).
    destruct ((2 <=? y) && (y <? p - 1)) eqn:E1; cbn [negb]; [|reflexivity].
    destruct ((powmod y x p =? 1) || (powmod y x p =? p - 1)) eqn:E2; [reflexivity|lia].
  - destruct s as [y|b]; cbn [ffdh_normalise] in N; [discriminate|].
    destruct (negb (numBytes p =? zlen b)); [|discriminate]. injection N as <-. reflexivity.
Qed.

Theorem ffdh_agree tls13 g p xa xb va vb ka kb :
  0 < p -> 0 <= xa -> 0 <= xb ->
  ffdh_calc_public tls13 g p xa = Ok va -> ffdh_calc_public tls13 g p xb = Ok vb ->
  ffdh_calc_shared tls13 p xa (share_of vb) = Ok ka ->
  ffdh_calc_shared tls13 p xb (share_of va) = Ok kb ->
  ka = kb.
Proof.
  intros Hp Ha Hb Pa Pb Sa Sb.
  destruct (ffdh_public_value _ _ _ _ _ Hp Pa) as [Na _].
  destruct (ffdh_public_value _ _ _ _ _ Hp Pb) as [Nb _].
  apply ffdh_shared_ok_iff in Sa. apply ffdh_shared_ok_iff in Sb.
  destruct Sa as (ya & Ea & _ & _ & _ & ->). destruct Sb as (yb & Eb & _ & _ & _ & ->).
  rewrite Nb in Ea. rewrite Na in Eb. injection Ea as <-. injection Eb as <-.
  rewrite (ffdh_pow_agree g xb xa p) by assumption. reflexivity.
Qed.

Lemma ffdh_complete tls13 p x s y : ffdh_normalise p s = Ok y -> 2 <= y < p - 1 ->
  powmod y x p <> 1 -> powmod y x p <> p - 1 -> exists r, ffdh_calc_shared tls13 p x s = Ok r.
Proof.
  intros Hn Hy N1 N2. eexists. apply ffdh_shared_ok_iff. exists y. repeat split; try eassumption; lia.
Qed.

Lemma lor_fold_nonneg v : forall a, 0 <= a -> Forall (fun b => 0 <= b) v -> 0 <= fold_left Z.lor v a.
Proof.
  induction v as [|x v IH]; intros a Ha Hv; cbn [fold_left]; [exact Ha|].
  inversion Hv; subst. apply IH; [|assumption]. apply Z.lor_nonneg. lia.
Qed.

Lemma lor_fold_zero v a : fold_left Z.lor v a = 0 <-> a = 0 /\ Forall (fun b => b = 0) v.
Proof. rewrite Forall_forall. apply (fold_zero_iff Z.lor (fun b => b = 0)), Z.lor_eq_0_iff. Qed.

Lemma non_zero_check_spec v :
  (non_zero_check v = Err TLSIllegalParameter <-> Forall (fun b => b = 0) v) /\
  (non_zero_check v = Ok tt <-> ~ Forall (fun b => b = 0) v).
Proof.
  unfold non_zero_check. pose proof (lor_fold_zero v 0) as Z0.
  destruct (Z.eqb_spec (fold_left Z.lor v 0) 0) as [E|E]; rewrite Z0 in E.
  - destruct E as [_ E]. intuition discriminate.
  - assert (N : ~ Forall (fun b => b = 0) v) by tauto. intuition discriminate.
Qed.

Lemma x_calc_shared_ok is448 priv peer S : x_calc_shared is448 priv peer = Ok S ->
  zlen peer = (if is448 then 56 else 32) /\
  S = (if is448 then x448 priv peer else x25519 priv peer) /\ non_zero_check S = Ok tt.
Proof.
  unfold x_calc_shared. destruct (zlen peer =? (if is448 then 56 else 32)) eqn:E; cbn [negb]; [|discriminate].
  apply Z.eqb_eq in E.
  set (R := if is448 then x448 priv peer else x25519 priv peer).
  destruct (non_zero_check R) as [u|ex] eqn:N; cbn [bind]; [|discriminate].
  destruct u. intros H. injection H as <-. auto.
Qed.

Lemma x_calc_shared_len (is448 : bool) priv peer : zlen peer <> (if is448 then 56 else 32) ->
  x_calc_shared is448 priv peer = Err TLSIllegalParameter.
Proof.
  intros H. unfold x_calc_shared. destruct (zlen peer =? (if is448 then 56 else 32)) eqn:E; [apply Z.eqb_eq in E; contradiction|].
  reflexivity.
Qed.

Lemma x_calc_shared_zero (is448 : bool) priv peer :
  Forall (fun b => b = 0) (if is448 then x448 priv peer else x25519 priv peer) ->
  exists ex, x_calc_shared is448 priv peer = Err ex.
Proof.
  intros H. unfold x_calc_shared. destruct (negb (zlen peer =? (if is448 then 56 else 32))); [eexists; reflexivity|].
  destruct (non_zero_check_spec (if is448 then x448 priv peer else x25519 priv peer)) as [[_ A] _].
  rewrite (A H). cbn [bind]. eexists. reflexivity.
Qed.
