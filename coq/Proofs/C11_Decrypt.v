(* C11 -- the regenerated RSAKey.decrypt (Gen/C11_RsaDecrypt.v) equals the direct
   specification Spec/C11_Pkcs1Dec.v, for every key size, every ciphertext and every state of the
   key-hash cache. *)
From Coq Require Import String ZArith List Bool Lia.
From TV Require Import Base.Prelude Base.PreludeFacts Base.C11_Lib Proofs.CtOps
  Gen.C11_RsaDecrypt Spec.C11_Pkcs1Dec Proofs.C11_LibFacts Proofs.C11_Top Proofs.C11_SpecFacts.
Import ListNotations.
Open Scope Z_scope.

(* The two constant-time loops, each for any step function F that, on words in range, selects as
   the specification does: the goals stay free of the generated step text. *)
Lemma synth_fold (F : Z -> Z * Z -> Z) k lr : all_bytes lr = true ->
  (forall s h l, 0 <= s < 65536 -> 0 <= h < 256 -> 0 <= l < 256 ->
     F s (h, l) = if Z.land (h * 256 + l) (cand_mask k) <? k - 10
                  then Z.land (h * 256 + l) (cand_mask k) else s) ->
  fold_left F (pairs_of lr) 0 = synth_len k lr.
Proof.
  intros Hlr HF. unfold synth_len, candidates, max_sep_offset.
  pose proof (pairs_of_forall (fun x => 0 <= x < 256) lr (proj2 (Forall_forall _ _) (proj1 (all_bytes_In lr) Hlr))) as Hl.
  (* from any selected value s on: a candidate below the bound replaces s, and is then the default of `last` *)
  enough (G : forall s, 0 <= s < 65536 ->
            fold_left F (pairs_of lr) s =
            last (filter (fun c => c <? k - 10) (map (fun hl => Z.land (fst hl * 256 + snd hl) (cand_mask k)) (pairs_of lr))) s)
    by (apply G; lia).
  induction Hl as [|[h l] t [Hh Hl] _ IH]; intros s Hs; cbn [fold_left map filter fst snd] in *; [reflexivity|].
  rewrite HF by assumption. pose proof (cand_bounds k h l Hh Hl).
  destruct (_ <? _); [rewrite IH by assumption; symmetry; apply last_cons_default|apply IH, Hs].
Qed.

Lemma scan_fold (F : Z * Z -> Z * Z -> Z * Z) l : forall p e ms,
  0 <= p -> p + zlen l <= 65535 -> all_bytes l = true -> 0 <= ms < 65536 ->
  (forall e ms pos val, 0 <= ms < 65536 -> 0 <= pos < 65535 -> 0 <= val < 256 ->
     F (Z.b2z e, ms) (pos, val) =
     (Z.b2z (e || ((pos <? 10) && (val =? 0))),
      if (negb (pos <? 10) && (val =? 0)) && (ms =? 0) then pos + 1 else ms)) ->
  fold_left F (enumerate_from p l) (Z.b2z e, ms) =
  (Z.b2z (e || early p l), if ms =? 0 then late p l else ms).
Proof.
  induction l as [|x t IH]; intros p e ms Hp Hlen Hl Hms HF; cbn [enumerate_from fold_left early late].
  - rewrite orb_false_r. destruct (Z.eqb_spec ms 0) as [->|]; reflexivity.
  - rewrite zlen_cons in Hlen. pose proof (zlen_nonneg t).
    rewrite all_bytes_cons in Hl. apply andb_prop in Hl. destruct Hl as [Hx Ht]. apply is_byte_iff in Hx.
    rewrite HF by lia. set (z := negb (p <? 10) && (x =? 0)).
    rewrite IH by (try assumption; destruct (z && (ms =? 0)); lia).
    rewrite orb_assoc. f_equal.
    destruct z, (ms =? 0) eqn:M; cbn [andb]; rewrite ?M; try reflexivity.
    destruct (Z.eqb_spec (p + 1) 0); [lia|reflexivity].
Qed.

(* the value decrypt uses as key hash *)
Definition cached_hash (hash : list Z -> list Z) (cache : option (list Z)) (x : list Z) : list Z :=
  if opt_falsy cache then hash x else match cache with Some h => h | None => [] end.

Lemma cached_hash_ok hash n d cache : cache_ok hash n d cache ->
  cached_hash hash cache (be_bytes (Z.to_nat (numBytes n)) d) = hash (be_bytes (Z.to_nat (numBytes n)) d).
Proof.
  intros [->|[->| ->]]; try reflexivity. unfold cached_hash. destruct (opt_falsy _); reflexivity.
Qed.

Section Decrypt.
Variable hash : list Z -> list Z.
Variable hmac : list Z -> list Z -> list Z.
Variable raw : Z -> Z.
Hypothesis Hhmac : hmac_ok hmac.

Lemma prf_stream_snoc key label L m : 0 <= m ->
  prf_stream hmac key label L (m + 1) =
  prf_stream hmac key label L m ++ hmac key (be_bytes 2 m ++ label ++ be_bytes 2 L).
Proof.
  intros Hm. unfold prf_stream. rewrite zrange_snoc by lia. rewrite flat_map_app.
  cbn [flat_map]. rewrite app_nil_r. reflexivity.
Qed.

Lemma prf_stream_zlen key label L m : 0 <= m -> zlen (prf_stream hmac key label L m) = 32 * m.
Proof.
  intros Hm. unfold prf_stream. rewrite flat_map_concat_map, (zlen_concat_map _ 32) by (intros; apply (proj1 Hhmac)).
  unfold zlen. rewrite zrange_length. lia.
Qed.

(* the number of 32-byte blocks that cover L / 8 bytes *)
Lemma blocks_bound L : 32 * ((L / 8 + 31) / 32) - 32 < L / 8 <= 32 * ((L / 8 + 31) / 32).
Proof. pose proof (ceil_bounds (L / 8) 32 eq_refl) as C. replace (L / 8 + 32 - 1) with (L / 8 + 31) in C by lia. exact C. Qed.

Lemma prf_spec_facts key label L : 0 <= L ->
  zlen (prf_spec hmac key label L) = L / 8 /\ all_bytes (prf_spec hmac key label L) = true.
Proof.
  intros HL. unfold prf_spec, prf_stream. rewrite flat_map_concat_map.
  apply (stream_prefix _ 32); [intros; apply (proj1 Hhmac)|intros; apply (proj2 Hhmac)|].
  pose proof (Z.div_pos L 8 HL ltac:(lia)). pose proof (blocks_bound L). unfold zlen. rewrite zrange_length. lia.
Qed.

(* the loop of _dec_prf, for any guard and body that act as the code's do: the state is
   (blocks so far, counter) *)
Lemma prf_loop (cond : list Z * Z -> res bool) (body : list Z * Z -> res (list Z * Z)) key label L :
  0 <= L ->
  (forall out it, cond (out, it) = Ok (zlen out <? L / 8)) ->
  (forall out it, 0 <= it ->
     body (out, it) = Ok (out ++ hmac key ((be_bytes 2 it ++ label) ++ be_bytes 2 L), it + 1)) ->
  forall fuel it, 0 <= it <= (L / 8 + 31) / 32 -> (Z.to_nat ((L / 8 + 31) / 32 - it) < fuel)%nat ->
  while_fuel fuel cond body (prf_stream hmac key label L it, it) =
    Ok (prf_stream hmac key label L ((L / 8 + 31) / 32), (L / 8 + 31) / 32).
Proof.
  intros HL Hc Hb. pose proof (blocks_bound L) as HB. set (B := (L / 8 + 31) / 32) in *.
  induction fuel as [|fuel IH]; intros it Hit Hf; [lia|].
  cbn [while_fuel]. rewrite Hc, prf_stream_zlen by lia. cbn [bind].
  destruct (Z.ltb_spec (32 * it) (L / 8)).
  - rewrite Hb, <- app_assoc, <- prf_stream_snoc by lia. cbn [bind]. apply IH; lia.
  - replace it with B by lia. reflexivity.
Qed.

Lemma dec_prf_spec key label L : 0 <= L -> L mod 8 = 0 ->
  dec_prf hmac key label L = Ok (prf_spec hmac key label L).
Proof.
  intros HL Hmod. unfold dec_prf.
  change (py_mod L 8) with (Ok (L mod 8)). cbn [bind]. rewrite Hmod.
  change (negb (0 =? 0)) with false. cbv iota.
  erewrite prf_loop with (key := key) (label := label) (L := L) (it := 0).
  - cbn [bind]. change (py_div L 8) with (Ok (L / 8)). cbn [bind].
    rewrite py_slice_to by (apply Z.div_pos; lia). reflexivity.
  - exact HL.
  - intros out it. change (py_div L 8) with (Ok (L / 8)). reflexivity.
  - intros out it Hit. rewrite !numberToByteArray_ok by lia. cbn [bind].
    change (Z.to_nat 2) with 2%nat. reflexivity.
  - pose proof (blocks_bound L). pose proof (Z.div_pos L 8 HL). lia.
  - pose proof (blocks_bound L). pose proof (Z.mul_div_le L 8). lia.
Qed.

Lemma raw_bytes_spec n enc : 0 <= numBytes n -> 0 <= raw (bytesToNumber enc) ->
  raw_private_key_op_bytes raw n enc =
  if (zlen enc =? numBytes n) && (bytesToNumber enc <? n)
  then Ok (be_bytes (Z.to_nat (numBytes n)) (raw (bytesToNumber enc))) else Err ValueError.
Proof.
  intros Hk Hraw. unfold raw_private_key_op_bytes. cbv zeta.
  destruct (zlen enc =? numBytes n); cbn [negb andb]; [|reflexivity].
  rewrite Z.geb_leb, Z.ltb_antisym. destruct (n <=? bytesToNumber enc); cbn [negb]; [reflexivity|].
  rewrite numberToByteArray_ok by assumption. reflexivity.
Qed.

Lemma key_hash_lookup k d cache : 0 <= d -> 0 <= k ->
  (if opt_falsy cache then t2_ <- numberToByteArray d k ;; Ok (hash t2_) else opt_get cache)
  = Ok (cached_hash hash cache (be_bytes (Z.to_nat k) d)).
Proof.
  intros Hd Hk. unfold cached_hash. rewrite numberToByteArray_ok by assumption.
  destruct cache as [[|x c]|]; reflexivity.
Qed.

Theorem decrypt_eq_spec_any n d cache enc :
  key_size_ok n -> 0 <= d -> 0 <= raw (bytesToNumber enc) ->
  decrypt hash hmac raw true n d "rsa"%string cache enc =
  Ok (spec_decrypt (cached_hash hash cache) hmac raw n d enc).
Proof.
  unfold key_size_ok. intros Hk Hd Hraw. unfold decrypt, spec_decrypt.
  change (negb true) with false. change (String.eqb "rsa" "rsa") with true. change (negb true) with false.
  cbv beta iota zeta.
  rewrite raw_bytes_spec by (assumption || lia).
  set (k := numBytes n) in *.
  destruct ((zlen enc =? k) && (bytesToNumber enc <? n)); cbv beta iota; [|reflexivity].
  rewrite key_hash_lookup by lia. cbn [bind].
  set (dec := be_bytes (Z.to_nat k) (raw (bytesToNumber enc))).
  set (kdk := hmac (cached_hash hash cache (be_bytes (Z.to_nat k) d)) enc).
  change (Z.mul (Z.mul 128 2) 8) with 2048.
  rewrite (dec_prf_spec kdk _ 2048) by (try reflexivity; lia). cbn [bind].
  rewrite (dec_prf_spec kdk _ (k * 8)) by (try apply Z.mod_mul; lia). cbn [bind].
  fold label_length label_message.
  set (lr := prf_spec hmac kdk label_length 2048).
  set (mr := prf_spec hmac kdk label_message (k * 8)).
  destruct (prf_spec_facts kdk label_length 2048 ltac:(lia)) as [_ Hlr2].
  destruct (prf_spec_facts kdk label_message (k * 8) ltac:(lia)) as [Hmr1 Hmr2].
  rewrite Z.div_mul in Hmr1 by lia. fold lr in Hlr2. fold mr in Hmr1, Hmr2.
  rewrite (synth_fold _ k lr Hlr2).
  2:{ intros s h l Hs Hh Hl. cbv beta iota.
      rewrite Z.shiftl_mul_pow2 by lia. rewrite Z.shiftl_1_l. change (2 ^ 8) with 256.
      change (2 ^ numBits (k - 10) - 1) with (cand_mask k).
      pose proof (cand_bounds k h l Hh Hl) as Hc.
      rewrite ct_lt_u32_spec by (unfold u32; lia). rewrite sel16 by lia. reflexivity. }
  pose proof (synth_len_bound k lr ltac:(lia) Hlr2) as HS.
  set (sl := synth_len k lr) in *.
  (* the decrypted block: two bytes, then the scan *)
  assert (Hdl : zlen dec = k) by (unfold dec; rewrite be_bytes_zlen; lia).
  assert (Hdb : all_bytes dec = true) by apply be_bytes_all_bytes.
  unfold spec_decrypt_em.
  clearbody dec. destruct dec as [|b0 [|b1 rest]]; autorewrite with zlen in Hdl; [lia|lia|].
  pose proof Hdb as Hdb'. rewrite !all_bytes_cons in Hdb'.
  apply andb_prop in Hdb'. destruct Hdb' as [Hb0 Hdb']. apply andb_prop in Hdb'. destruct Hdb' as [Hb1 Hrest].
  apply is_byte_iff in Hb0, Hb1.
  change (enumerate_from 0 (b0 :: b1 :: rest)) with ((0, b0) :: (1, b1) :: enumerate_from 2 rest).
  cbn [py_next bind]. cbv beta iota.
  rewrite (ct_isnonzero_u32_spec b0), (ct_neq_u32_spec b1 2) by (unfold u32; lia).
  rewrite Z.lor_0_l, b2z_lor.
  rewrite (scan_fold _ rest 2 _ 0 ltac:(lia) ltac:(lia) Hrest ltac:(lia)).
  2:{ intros e ms pos val Hms Hpos Hval. cbv beta iota.
      rewrite (ct_lt_u32_spec pos 10), (ct_isnonzero_u32_spec val), (ct_isnonzero_u32_spec ms) by (unfold u32; lia).
      rewrite !b2z_lxor1, !b2z_land, b2z_lor, !negb_involutive.
      rewrite sel16 by lia. reflexivity. }
  change (0 =? 0) with true. cbv beta iota. cbn [bind]. cbv beta iota.
  pose proof (late_bound rest 2 ltac:(lia)) as Hlate.
  rewrite (ct_isnonzero_u32_spec (late 2 rest)) by (unfold u32; lia).
  rewrite b2z_lxor1, negb_involutive, b2z_lor.
  (* E: some defect was seen; r: where the returned bytes start *)
  set (E := negb (b0 =? 0) || negb (b1 =? 2) || early 2 rest || (late 2 rest =? 0)).
  rewrite sel16 by lia. fold sl.
  set (r := if E then k - sl else late 2 rest).
  assert (Hr : 0 <= r <= k) by (unfold r; destruct E; lia).
  rewrite !py_slice_from by lia.
  rewrite (map_combine_sel E).
  2:{ rewrite !skipn_length. cbn [length]. unfold zlen in *. lia. }
  2:{ intros x y Hx Hy.
      apply sel8; [apply (proj1 (all_bytes_In _) (all_bytes_skipn (Z.to_nat r) _ Hdb) x Hx)
                  |apply (proj1 (all_bytes_In _) (all_bytes_skipn (Z.to_nat r) _ Hmr2) y Hy)]. }
  rewrite mk_bytes_ok by (destruct E; apply all_bytes_skipn; assumption). cbn [bind].
  rewrite unpad_scan. fold E. unfold r. destruct E; reflexivity.
Qed.

Theorem decrypt_eq_spec_all n d cache enc :
  key_size_ok n -> 0 <= d -> cache_ok hash n d cache -> 0 <= raw (bytesToNumber enc) ->
  decrypt hash hmac raw true n d "rsa"%string cache enc = Ok (spec_decrypt hash hmac raw n d enc).
Proof.
  intros Hk Hd Hc Hraw. rewrite decrypt_eq_spec_any by assumption.
  unfold spec_decrypt. rewrite (cached_hash_ok hash n d cache Hc). reflexivity.
Qed.

(* what the specification returns: None exactly for the publicly invalid ciphertexts; otherwise a short
   byte string, of the synthetic length when the decrypted block is not of the format *)
Lemma spec_decrypt_cases n d enc : key_size_ok n ->
  match spec_decrypt hash hmac raw n d enc with
  | Some m => (zlen enc = numBytes n /\ bytesToNumber enc < n) /\ all_bytes m = true /\ zlen m <= numBytes n - 11 /\
      (pkcs1_unpad (be_bytes (Z.to_nat (numBytes n)) (raw (bytesToNumber enc))) = None ->
       zlen m = synth_len (numBytes n)
                  (prf_spec hmac (hmac (hash (be_bytes (Z.to_nat (numBytes n)) d)) enc) label_length 2048))
  | None => ~ (zlen enc = numBytes n /\ bytesToNumber enc < n)
  end.
Proof.
  unfold key_size_ok, spec_decrypt. intros Hk. set (k := numBytes n) in *.
  destruct (Z.eqb_spec (zlen enc) k) as [A|A], (Z.ltb_spec (bytesToNumber enc) n) as [B|B]; cbn [andb]; try tauto; [|lia].
  cbv zeta. set (em := be_bytes (Z.to_nat k) (raw (bytesToNumber enc))).
  set (kdk := hmac (hash (be_bytes (Z.to_nat k) d)) enc).
  destruct (prf_spec_facts kdk label_message (k * 8) ltac:(lia)) as [Hmr1 Hmr2].
  rewrite Z.div_mul in Hmr1 by lia.
  destruct (prf_spec_facts kdk label_length 2048 ltac:(lia)) as [_ Hlr2].
  pose proof (synth_len_bound k _ ltac:(lia) Hlr2) as HS.
  split; [tauto|]. unfold spec_decrypt_em. destruct (pkcs1_unpad em) as [m|] eqn:U.
  - destruct (unpad_some_facts em m U (be_bytes_all_bytes _ _)) as [F1 F2].
    unfold em in F2. rewrite be_bytes_zlen in F2. split; [exact F1|]. split; [lia|discriminate].
  - rewrite skipn_zlen by lia. split; [apply all_bytes_skipn; exact Hmr2|]. split; [|intros _]; lia.
Qed.

End Decrypt.
