(* The lock discipline of the step lists extracted from /repo (Gen/Locks.v), decided by
   computation: every access to an attribute that some analysed method of the class writes
   lies between acquire and release of the class's single lock, and every method has at
   most one critical section. *)
From Coq Require Import List Arith.
From TV Require Import Model.C18_Conc Model.C18_LockSteps Gen.Locks.
Import ListNotations.

(* On the code before commit d3942bb, "BaseDB.keys() must copy the key view while holding the
   lock", this fails for VerifierDB.keys, which iterated a live view of self.db after releasing
   the lock. *)
Lemma extracted_methods_ok : all_methods_ok all_methods = true.
Proof. vm_compute. reflexivity. Qed.

(* about a variable list: on all_methods itself the checker decides that all_methods_ok unfolds to
   this forallb by evaluating it a second time *)
Lemma all_methods_ok_each ms : all_methods_ok ms = true -> forall m, In m ms -> method_ok ms m = true.
Proof. intros H. apply forallb_forall. exact H. Qed.

Lemma extracted_each : forall m, In m all_methods -> method_ok all_methods m = true.
Proof. exact (all_methods_ok_each all_methods extracted_methods_ok). Qed.

Lemma extracted_shape_ok m : In m all_methods ->
  well_locked_shape (shapes all_methods m) = true /\ (count_acq_shape (shapes all_methods m) <= 1)%nat.
Proof.
  intros Hin. pose proof (extracted_each m Hin) as H. unfold method_ok in H.
  apply andb_prop in H. destruct H as [H Hc]. apply andb_prop in H.
  split; [exact (proj1 H)|apply Nat.leb_le; exact Hc].
Qed.

Lemma in_all_methods c n ps p : In (c, n, ps) all_method_paths -> In p ps -> In (c, n, p) all_methods.
Proof. intros He Hp. apply in_flat_map. exists (c, n, ps). split; [exact He|apply in_map; exact Hp]. Qed.
