(* C04 -- what a completed run of Model/C04_Tamper.v entails.  A run is a chain of checks, each of which
   ends it or lets it go on; it is walked check by check (step_opt .. step_verdict) ONCE per flow, under the observation
   "somebody completed" (done), up to the point where the first endpoint is done; the few ways the rest can go
   are then looked at directly.  This gives for each flow what either endpoint holds if it completed.  That the
   two ends agree needs one argument about the last Finished (last_finished_agree, closes_agree), whatever the
   flow; what Props/C04.v says of both TLS <= 1.2 flows is proved once, over what the two have in common
   (legacy_ends). *)
From Coq Require Import ZArith List Bool Lia.
From TV Require Import Model.C04_Tamper.
From TV Require Export Proofs.C04_Eqb Proofs.C04_Hrr.
Import ListNotations.
Open Scope Z_scope.

Lemma get_fin_flight_app l : forall b v, get_fin_flight l = Some (b, v) -> l = b ++ [MFin v].
Proof.
  induction l as [|m r IH]; intros b v H; [discriminate|].
  cbn [get_fin_flight] in H.
  destruct r as [|m' r'].
  - destruct m; try discriminate. injection H as <- <-. reflexivity.
  - destruct (get_fin_flight (m' :: r')) as [[b' v']|] eqn:E.
    + assert (Hm : Some (m :: b', v') = Some (b, v)) by (destruct m; exact H).
      injection Hm as <- <-. cbn [app]. f_equal. apply IH. reflexivity.
    + destruct m; discriminate.
Qed.

Lemma get_fin_flight_in l b v : get_fin_flight l = Some (b, v) -> In (MFin v) l.
Proof. intros H. apply get_fin_flight_app in H. subst. apply in_or_app. right. left. reflexivity. Qed.

Lemma scsv_on_wire ver rand fsid real b session exts :
  memZ FALLBACK_SCSV (ch_suites (client_first_hello ver rand fsid real b session exts)) = memZ FALLBACK_SCSV real || b.
Proof.
  unfold client_first_hello, client_hello_suites, memZ. cbn [ch_suites existsb]. rewrite existsb_app.
  destruct b; cbn [existsb]; rewrite ?orb_false_r; reflexivity.
Qed.

(* the observation under which a run is walked once for both endpoints: silent exactly when neither holds a
   state, which is the case on every early way out *)
Definition done (o : outcome) : option outcome :=
  match o_c o, o_s o with None, None => None | _, _ => Some o end.

(* Until the first endpoint completes every check of a run ends it by stop or lets it go on with k.  A proof about
   a completed run applies one of these per check, in the order of the model's text. *)
Lemma step_opt {B} (e : option B) w a (k : B -> outcome) x :
  done (match e with Some p => k p | None => stop w a end) = Some x -> exists p, e = Some p /\ done (k p) = Some x.
Proof. destruct e as [p|]; [exists p; split; [reflexivity|assumption]|discriminate]. Qed.

Lemma step_if (b : bool) w a (k : outcome) x : done (if b then stop w a else k) = Some x -> b = false /\ done k = Some x.
Proof. destruct b; [discriminate|split; [reflexivity|assumption]]. Qed.

Lemma step_ifn (b : bool) w a (k : outcome) x : done (if negb b then stop w a else k) = Some x -> b = true /\ done k = Some x.
Proof. destruct b; [split; [reflexivity|assumption]|discriminate]. Qed.

Lemma step_sel (e : sel) w (k : Z -> outcome) x :
  done (match e with SelErr a => stop w a | SelOk v => k v end) = Some x -> exists v, e = SelOk v /\ done (k v) = Some x.
Proof. destruct e as [a|v]; [discriminate|exists v; split; [reflexivity|assumption]]. Qed.

Lemma step_verdict (e : verdict) w (k : outcome) x :
  done (match e with VOk => k | VAbort a => stop w a end) = Some x -> e = VOk /\ done k = Some x.
Proof. destruct e; [split; [reflexivity|assumption]|discriminate]. Qed.

(* One check of a run.  The lets at the head of the run in H become local definitions under the names the
   model gives them, so that a transcript that the model binds once is not copied into every later term; the
   step lemma L is applied. *)
Ltac lets H :=
  repeat match type of H with
         | ?f (let x := ?e in @?B x) = ?y =>
             let x' := fresh x in pose (x' := e); change (f (B x') = y) in H; cbv beta in H
         end.
Tactic Notation "step" uconstr(L) "in" hyp(H) "as" simple_intropattern(p) :=
  lets H; apply L in H as p.

Lemma done_c o c : o_c o = Some c -> done o = Some o.
Proof. unfold done. intros ->. reflexivity. Qed.

Lemma done_s o s : o_s o = Some s -> done o = Some o.
Proof. unfold done. intros ->. destruct (o_c o); reflexivity. Qed.

(* the hellos at the head of a transcript, without a HelloRetryRequest or after one *)
Definition hellos_of (t : transcript) : option (chello * shello) :=
  match t with
  | MCH c :: MSH s :: _ | MHash _ :: MSH _ :: MCH c :: MSH s :: _ => Some (c, s)
  | _ => None
  end.
Definition reads (e : endst) : Prop := hellos_of (e_tr e) = Some (e_ch e, e_sh e).

Section Ideal.
  Variable hash : Z -> transcript -> list Z.
  Variable fin : Z -> Z -> list Z -> list Z.
  Variable prf_of : Z -> Z -> Z.
  Variable suite_ok : Z -> Z -> bool.
  Variables cmin cmax smin smax : Z.
  Variable c_hello : chello.
  Variable s_ch_ok : chello -> bool.
  Variable s_reply12 : Z -> chello -> option (shello * list msg).
  Variable c_extra_ok : chello -> shello -> bool.
  Variable c_flight12 : transcript -> list msg.
  Variable s_flight_ok : transcript -> list msg -> bool.
  Variable c_flight_ok : transcript -> list msg -> bool.
  Variable s_nst : transcript -> list msg.
  Variable c_key s_key : transcript -> Z.
  Variable s_resume : Z -> chello -> option (shello * Z).
  Variable c_sess_key : Z.
  Variable s_hrr : chello -> option (shello * option (list Z) * Z).
  Variable c_hello2 : chello -> shello -> option chello.
  Variable s_reply13 : transcript -> chello -> option (shello * list msg * option (nat * Z)).
  Variable c_psk_keys : list Z.
  Variable c_flight13 : transcript -> list msg.
  Variable psk_alg : Z -> Z.

  (* H-ideal-hash: the transcript hash is collision free (also across algorithms) *)
  Hypothesis H_ideal_hash : forall a t a' t', hash a t = hash a' t' -> a = a' /\ t = t'.
  (* H-ideal-PRF: verify_data determines key, label and digest *)
  Hypothesis H_ideal_prf : forall k l d k' l' d', fin k l d = fin k' l' d' -> k = k' /\ l = l' /\ d = d'.

  Notation R12 := (run12 hash fin prf_of suite_ok cmin cmax smin smax c_hello s_ch_ok s_reply12 c_extra_ok
                         c_flight12 s_flight_ok c_flight_ok s_nst c_key s_key).
  Notation R12r := (run12r hash fin prf_of suite_ok cmin cmax smin smax c_hello s_ch_ok c_extra_ok
                           s_resume c_sess_key).
  Notation R13 := (run13 hash fin prf_of suite_ok cmin cmax smin smax c_hello s_ch_ok c_extra_ok
                         s_flight_ok c_flight_ok c_key s_key s_hrr c_hello2 s_reply13 c_psk_keys c_flight13 psk_alg).
  Notation M13 := (run13_main hash fin prf_of suite_ok cmin cmax c_extra_ok s_flight_ok c_flight_ok c_key s_key
                              s_reply13 c_flight13 psk_alg).
  Notation UNF := (unforgeable fin).
  Notation accepts := (client_accepts suite_ok cmin cmax c_extra_ok).
  Notation front := (server_front smin smax s_ch_ok).
  Notation binders := (binders_for hash fin c_psk_keys psk_alg).
  Notation CH1 := (set_binders c_hello (binders [] c_hello)).

  Lemma server_front_ok c v :
    front c = SelOk v -> sel_version smin smax c = SelOk v /\ scsv_hit smax v c = false.
  Proof.
    unfold server_front. destruct (sel_version smin smax c) as [a|w]; [discriminate|].
    destruct (scsv_hit smax w c) eqn:E; [discriminate|].
    destruct (s_ch_ok c); [|discriminate]. intros H. injection H as <-. split; [reflexivity|exact E].
  Qed.

  Lemma fallback_hello_refused c v v' :
    memZ FALLBACK_SCSV (ch_suites c) = true -> sel_version smin smax c = SelOk v -> v < smax -> front c <> SelOk v'.
  Proof.
    intros Hc Hsel Hv F. apply server_front_ok in F as (A & B). rewrite Hsel in A. injection A as <-.
    unfold scsv_hit in B. rewrite Hc, andb_true_r in B. apply Z.ltb_ge in B. lia.
  Qed.

  Lemma client_accepts_sentinel {c s} :
    accepts c s = VOk -> sentinel_hit cmax (sh_version s) (sh_tail s) = false.
  Proof.
    unfold client_accepts, client_sh_check. cbv zeta.
    destruct (sentinel_hit cmax (sh_version s) (sh_tail s)); [|reflexivity].
    repeat match goal with |- context [if ?b then _ else _] => destruct b end; discriminate.
  Qed.

  Lemma sentinel_for_spec v d :
    (v < TLS12 -> smax >= TLS12 -> sentinel_for smax v d = 1) /\
    (v = TLS12 -> smax > TLS12 -> sentinel_for smax v d = 2) /\
    (~ (v < TLS12 /\ smax >= TLS12) -> ~ (v = TLS12 /\ smax > TLS12) -> sentinel_for smax v d = d).
  Proof.
    unfold sentinel_for, TLS12.
    destruct (v <? 771) eqn:E1; destruct (smax >=? 771) eqn:E2; destruct (v =? 771) eqn:E3;
      destruct (smax >? 771) eqn:E4; cbn [andb]; repeat split; intros; try reflexivity; lia.
  Qed.

  (* client_sees12 / client_sees12r are the first checks of run12 / run12r, in the same order *)
  Lemma sees12_stops a1 a2 a3 a4 sh' a :
    client_sees12 smin smax c_hello s_ch_ok s_reply12 a1 a2 = Some sh' -> accepts c_hello sh' = VAbort a ->
    R12 a1 a2 a3 a4 = stop 1 a.
  Proof.
    unfold client_sees12, run12. cbv zeta.
    destruct (get_ch (a1 [MCH c_hello])) as [ch'|]; [|discriminate].
    destruct (front ch') as [|v]; [discriminate|].
    destruct (v >=? TLS13); [discriminate|]. destruct (s_reply12 v ch') as [[sh0 rest]|]; [|discriminate].
    destruct (get_sh_flight _) as [[sh rest']|]; [|discriminate]. intros [= ->] Ha. rewrite Ha. reflexivity.
  Qed.

  Lemma sees12r_stops a1 a2 a3 sh' a :
    client_sees12r hash fin prf_of smin smax c_hello s_ch_ok s_resume a1 a2 = Some sh' -> accepts c_hello sh' = VAbort a ->
    R12r a1 a2 a3 = stop 1 a.
  Proof.
    unfold client_sees12r, run12r. cbv zeta.
    destruct (get_ch (a1 [MCH c_hello])) as [ch'|]; [|discriminate].
    destruct (front ch') as [|v]; [discriminate|].
    destruct (v >=? TLS13); [discriminate|]. destruct (s_resume v ch') as [[sh0 ks]|]; [|discriminate].
    destruct (get_sh_flight _) as [[sh rest']|]; [|discriminate]. intros [= ->] Ha. rewrite Ha. reflexivity.
  Qed.

  Definition last_fin (L : Z) (e : endst) (T : transcript) : list Z :=
    fin (e_key e) L (hash (alg_of prf_of (e_sh e)) T).
  Definition closing (L : Z) (e : endst) (T : transcript) : Prop := e_tr e = T ++ [MFin (last_fin L e T)].
  Definition other_label (L : Z) (w : list Z) : Prop := exists k l d, w = fin k l d /\ l <> L.
  (* x checked its last Finished value on a Finished that was delivered to it, under an honest key; y computed
     its own, and every other value emitted in the run carries another label *)
  Definition verified (dl : list msg) (ks : list Z) (L : Z) (x : endst) (T : transcript) : Prop :=
    closing L x T /\ In (MFin (last_fin L x T)) dl /\ In (e_key x) ks.
  Definition sent (em : list (list Z)) (L : Z) (y : endst) (T : transcript) : Prop :=
    closing L y T /\ forall w, In w em -> w = last_fin L y T \/ other_label L w.

  (* The verifier's value is one that was emitted, hence the sender's: keys and transcripts coincide, and
     the hellos are read off the transcript.  This is the whole argument for every flow. *)
  Theorem last_finished_agree {o L x y Tx Ty} :
    UNF o -> verified (o_dlv o) (o_keys o) L x Tx -> sent (o_emit o) L y Ty -> reads x -> reads y -> x = y.
  Proof.
    intros Hu (Cx & Hd & Hk) (Cy & He) Rx Ry.
    destruct (He _ (Hu _ _ _ _ Hd Hk eq_refl)) as [E|(k & l & d & E & Hl)].
    - assert (Et : e_tr x = e_tr y).
      { rewrite Cx, Cy, E. apply H_ideal_prf in E as (_ & _ & E). apply H_ideal_hash in E as (_ & ->). reflexivity. }
      apply H_ideal_prf in E as (Ek & _). unfold reads in Rx. rewrite Et, Ry in Rx. injection Rx as Ec Es.
      destruct x, y. cbn in Et, Ek, Ec, Es. subst. reflexivity.
    - apply H_ideal_prf in E as (_ & El & _). symmetry in El. contradiction.
  Qed.


  (* what agreement needs of a run, whatever the flow *)
  Definition closes (o : outcome) : Prop :=
    forall c s, o_c o = Some c -> o_s o = Some s -> reads c /\ reads s /\
      exists L T T', verified (o_dlv o) (o_keys o) L c T /\ sent (o_emit o) L s T' \/
                     verified (o_dlv o) (o_keys o) L s T /\ sent (o_emit o) L c T'.

  Theorem closes_agree {o c s} : closes o -> o_c o = Some c -> o_s o = Some s -> UNF o -> c = s.
  Proof.
    intros E Hc Hs Hu. destruct (E c s Hc Hs) as (Rc & Rs & L & T & T' & [(V & S)|(V & S)]);
      [exact (last_finished_agree Hu V S Rc Rs)|symmetry; exact (last_finished_agree Hu V S Rs Rc)].
  Qed.

  Lemma closes_none o : o_c o = None \/ o_s o = None -> closes o.
  Proof. intros [N|N] c s Hc Hs; congruence. Qed.

  Lemma in_binders v pre c0 : In v (binders pre c0) -> other_label L_CLIENT v.
  Proof.
    unfold binders_for. intros H. apply in_map_iff in H as (k & <- & _).
    eexists _, _, _. split; [reflexivity|discriminate].
  Qed.

  (* T is an endpoint's transcript up to its last ClientHello chx, its first hello having been ch1: after a
     HelloRetryRequest the first hello is represented by its digest *)
  Definition heads (ch1 chx : chello) (T : transcript) : Prop :=
    T = [MCH chx] /\ chx = ch1 \/ exists a h, T = [MHash (hash a [MCH ch1]); MSH h; MCH chx].

  Definition began (ch1 : chello) (e : endst) : Prop :=
    exists T U, heads ch1 (e_ch e) T /\ e_tr e = T ++ MSH (e_sh e) :: U.

  Lemma began_reads ch1 e : began ch1 e -> reads e.
  Proof. unfold reads. intros (T & U & [(-> & _)|(a & h & ->)] & ->); reflexivity. Qed.

  Lemma began_first {ch1 ch1' e} : began ch1 e -> began ch1' e -> ch1 = ch1'.
  Proof.
    intros (T & U & H & E) (T' & U' & H' & E'). rewrite E in E'.
    destruct H as [(-> & <-)|(a & h & ->)], H' as [(-> & <-)|(a' & h' & ->)]; try discriminate E'; [reflexivity|].
    injection E' as E' _. apply H_ideal_hash in E' as (_ & E'). injection E' as ->. reflexivity.
  Qed.

  (* how a completed server of TLS <= 1.2 came by its hellos; x is the rest of what reply gave *)
  Set Implicit Arguments.
  Record answered X (reply : Z -> chello -> option (shello * X)) (a1 : list msg -> list msg) (s : endst)
                  (v : Z) (sh0 : shello) (x : X) : Prop := {
    an_hello : get_ch (a1 [MCH c_hello]) = Some (e_ch s);
    an_front : front (e_ch s) = SelOk v;
    an_reply : reply v (e_ch s) = Some (sh0, x);
    an_tail : e_sh s = set_tail sh0 (sentinel_for smax v (sh_tail sh0)) }.

  (* what run12 and run12r have in common: reply is s_reply12 or s_resume *)
  Record legacy_ends X (reply : Z -> chello -> option (shello * X)) (a1 : list msg -> list msg) (o : outcome)
    : Prop := {
    le_closes : closes o;
    le_server : forall s, o_s o = Some s -> exists v sh0 x, answered reply a1 s v sh0 x;
    le_client : forall c, o_c o = Some c -> e_ch c = c_hello /\ accepts c_hello (e_sh c) = VOk }.
  Unset Implicit Arguments.

  (* nothing is said of a run that nobody completed *)
  Lemma legacy_by_done X (reply : Z -> chello -> option (shello * X)) a1 o :
    (forall o', done o = Some o' -> legacy_ends reply a1 o') -> legacy_ends reply a1 o.
  Proof.
    intros D. destruct (o_c o) as [c|] eqn:C; [exact (D o (done_c _ _ C))|].
    destruct (o_s o) as [s|] eqn:S; [exact (D o (done_s _ _ S))|].
    constructor; [exact (closes_none o (or_introl C))|intros s|intros c]; rewrite ?C, ?S; discriminate.
  Qed.

  (* TLS <= 1.2, full handshake: the server's Finished is the last one *)
  Lemma run12_ends a1 a2 a3 a4 : legacy_ends s_reply12 a1 (R12 a1 a2 a3 a4).
  Proof.
    apply legacy_by_done. cbv beta delta [run12]. intros o H.
    step step_opt in H as (ch' & E1 & H).
    step step_sel in H as (v & E2 & H).
    step step_if in H as (_ & H).
    step step_opt in H as ([sh0 rest] & E3 & H).
    step step_opt in H as ([sh' rest'] & _ & H).
    step step_verdict in H as (E4 & H).
    step step_if in H as (_ & H).
    step step_if in H as (_ & H).
    step step_opt in H as ([body3 v3] & _ & H).
    step step_if in H as (_ & H).
    step step_ifn in H as (_ & H). lets H.
    (* the server is done; the client's handling of the last flight has three ways to go *)
    assert (S : forall s, sdone = Some s -> exists v sh0 rest, answered s_reply12 a1 s v sh0 rest).
    { intros s [= <-]. exists v, sh0, rest. constructor; [exact E1|exact E2|exact E3|reflexivity]. }
    assert (F : forall em ks dl st, legacy_ends s_reply12 a1 (mkOut None sdone em ks dl st))
      by (intros; constructor; [apply closes_none; left; reflexivity|exact S|discriminate]).
    destruct (get_fin_flight d4) as [[body4 v4]|] eqn:E5; [|injection H as <-; apply F].
    lets H. destruct (zl_eqb v4 _) eqn:E6 in H; cbn [negb] in H; lets H; injection H as <-; [|apply F].
    apply zl_eqb_sound in E6. subst v4. constructor; [|exact S|].
    - intros c s [= <-] [= <-]. split; [reflexivity|]. split; [reflexivity|]. exists L_SERVER, Tc4, Ts4. left. split.
      + split; [reflexivity|]. split; [|left; reflexivity].
        repeat (apply in_or_app; right). exact (get_fin_flight_in _ _ _ E5).
      + split; [reflexivity|].
        intros w [<-|[<-|[]]]; [right; eexists _, _, _; split; [reflexivity|discriminate]|left; reflexivity].
    - intros c [= <-]. split; [reflexivity|exact E4].
  Qed.

  (* TLS <= 1.2, abbreviated handshake: the client's Finished is the last one *)
  Lemma run12r_ends a1 a2 a3 : legacy_ends s_resume a1 (R12r a1 a2 a3).
  Proof.
    apply legacy_by_done. cbv beta delta [run12r]. intros o H.
    step step_opt in H as (ch' & E1 & H).
    step step_sel in H as (v & E2 & H).
    step step_if in H as (_ & H).
    step step_opt in H as ([sh0 k] & E3 & H).
    step step_opt in H as ([sh' rest'] & _ & H).
    step step_verdict in H as (E4 & H).
    step step_if in H as (_ & H).
    step step_opt in H as ([body2 v2] & _ & H).
    step step_ifn in H as (_ & H). lets H.
    (* the client is done *)
    assert (C : forall c, cdone = Some c -> e_ch c = c_hello /\ accepts c_hello (e_sh c) = VOk).
    { intros c [= <-]. split; [reflexivity|exact E4]. }
    assert (F : forall em ks dl st, legacy_ends s_resume a1 (mkOut cdone None em ks dl st))
      by (intros; constructor; [apply closes_none; right; reflexivity|discriminate|exact C]).
    destruct (get_fin_flight d3) as [[body3 v3]|] eqn:E5; [|injection H as <-; apply F].
    lets H. destruct (zl_eqb v3 _) eqn:E6 in H; cbn [negb] in H; injection H as <-; [|apply F].
    apply zl_eqb_sound in E6. subst v3. constructor; [| |exact C].
    - intros c s [= <-] [= <-]. split; [reflexivity|]. split; [reflexivity|]. exists L_CLIENT, Ts3, Tc2. right. split.
      + split; [reflexivity|]. split; [|left; reflexivity].
        repeat (apply in_or_app; right). exact (get_fin_flight_in _ _ _ E5).
      + split; [reflexivity|].
        intros w [<-|[<-|[]]]; [right; eexists _, _, _; split; [reflexivity|discriminate]|left; reflexivity].
    - intros s [= <-]. exists v, sh0, k. constructor; [exact E1|exact E2|exact E3|reflexivity].
  Qed.

  (* what either end of run13 holds if it completed; the version and SCSV decision was taken on ch1', the FIRST
     hello the server received *)
  Record ends13 (ch1' : chello) (o : outcome) : Prop := {
    t_client : forall c, o_c o = Some c ->
      accepts (e_ch c) (e_sh c) = VOk /\ began CH1 c /\ exists T, sent (o_emit o) L_CLIENT c T;
    t_server : forall s, o_s o = Some s ->
      ch_fixed_part ch1' = ch_fixed_part (e_ch s) /\ began ch1' s /\
      exists T, verified (o_dlv o) (o_keys o) L_CLIENT s T }.

  (* TLS 1.3: the client's Finished is the last one.  chc and chs are the last hellos of the two ends, Tc and Ts
     their transcripts up to these, ch1' the first hello the server received, em0 what has been emitted *)
  Lemma main13_ends {a4 a5 hs Tc Ts pre ch1' chc chs em0 dl0 o} :
    heads CH1 chc Tc -> heads ch1' chs Ts -> ch_fixed_part ch1' = ch_fixed_part chs ->
    (forall w, In w em0 -> other_label L_CLIENT w) ->
    done (M13 a4 a5 hs Tc Ts pre chc chs em0 dl0) = Some o -> ends13 ch1' o.
  Proof.
    cbv beta delta [run13_main]. intros Pc Ps P2 Pe H.
    step step_opt in H as ([[sh fl] psk] & _ & H).
    step step_if in H as (_ & H).
    step step_opt in H as ([sh' rest'] & _ & H).
    step step_if in H as (_ & H).
    step step_if in H as (_ & H).
    step step_verdict in H as (E1 & H).
    step step_if in H as (_ & H).
    step step_opt in H as ([body4 v4] & _ & H).
    step step_if in H as (_ & H).
    step step_if in H as (_ & H). lets H.
    (* the client is done; the server's handling of the last flight has four ways to go *)
    assert (C : forall c, cdone = Some c ->
              accepts (e_ch c) (e_sh c) = VOk /\ began CH1 c /\ exists T, sent em L_CLIENT c T).
    { intros c [= <-]. split; [exact E1|]. split.
      - exists Tc. eexists. split; [exact Pc|]. cbn [e_tr e_sh]. unfold Tc4, Tc3, Tc2, Tc1, Tch. rewrite <- !app_assoc. reflexivity.
      - exists Tc3. split; [reflexivity|]. intros w Hw.
        apply in_app_or in Hw as [Hw|[<-|[<-|[]]]]; [right; exact (Pe w Hw)| |left; reflexivity].
        right. eexists _, _, _. split; [reflexivity|discriminate]. }
    destruct (get_fin_flight d5) as [[body5 v5]|] eqn:E2; [|injection H as <-; split; [exact C|discriminate]].
    lets H. destruct (s_flight_ok Ts2 body5); cbn [negb] in H; [|injection H as <-; split; [exact C|discriminate]].
    destruct (zl_eqb v5 _) eqn:E3 in H; cbn [negb] in H; injection H as <-; (split; [exact C|]); [|discriminate].
    intros s [= <-]. apply zl_eqb_sound in E3. subst v5. split; [exact P2|]. split.
    - exists Ts. eexists. split; [exact Ps|]. cbn [e_tr e_sh]. unfold Ts3, Ts2, Ts1, Tsh. rewrite <- !app_assoc. reflexivity.
    - exists Ts3. split; [reflexivity|]. split; [|left; reflexivity].
      repeat (apply in_or_app; right). exact (get_fin_flight_in _ _ _ E2).
  Qed.

  Lemma run13_ends {a1 a2 a3 a4 a5 o} :
    done (R13 a1 a2 a3 a4 a5) = Some o ->
    exists ch1', get_ch (a1 [MCH CH1]) = Some ch1' /\ front ch1' = SelOk TLS13 /\ ends13 ch1' o.
  Proof.
    cbv beta delta [run13]. intros H.
    step step_opt in H as (ch1' & E1 & H).
    step step_sel in H as (v & E2 & H).
    step step_ifn in H as (E3 & H). apply Z.eqb_eq in E3. subst v.
    step step_ifn in H as (E3 & H).
    exists ch1'. split; [exact E1|]. split; [exact E2|].
    revert H. destruct (s_hrr ch1') as [[[hrr cookie] group]|]; intros H.
    - step step_opt in H as (hrr' & _ & H).
      step step_ifn in H as (_ & H).
      step step_opt in H as (ch2_0 & _ & H).
      step step_opt in H as (ch2' & _ & H).
      step step_ifn in H as (E4 & H). lets H.
      refine (main13_ends _ _ _ _ H).
      + right. eexists _, _. reflexivity.
      + right. eexists _, _. reflexivity.
      + exact (proj1 (hrr_second_ok_fixed cookie group _ _ (or_introl E3) E4)).
      + intros w Hw. apply in_app_or in Hw as [Hw|Hw]; exact (in_binders _ _ _ Hw).
    - refine (main13_ends _ _ _ _ H).
      + left. split; reflexivity.
      + left. split; reflexivity.
      + reflexivity.
      + intros w Hw. exact (in_binders _ _ _ Hw).
  Qed.

  Lemma run13_closes a1 a2 a3 a4 a5 : closes (R13 a1 a2 a3 a4 a5).
  Proof.
    intros c s Hc Hs. destruct (run13_ends (done_c _ _ Hc)) as (ch1' & _ & _ & C & S).
    destruct (C c Hc) as (_ & Bc & T' & Sc). destruct (S s Hs) as (_ & Bs & T & Vs).
    split; [exact (began_reads _ _ Bc)|]. split; [exact (began_reads _ _ Bs)|].
    exists L_CLIENT, T, T'. right. exact (conj Vs Sc).
  Qed.

  Lemma legacy_no_downgrade {X reply a1 o} (E : @legacy_ends X reply a1 o) {c s} :
    o_c o = Some c -> o_s o = Some s -> UNF o ->
    exists v sh0 x, sel_version smin smax c_hello = SelOk v /\ scsv_hit smax v c_hello = false /\
      reply v c_hello = Some (sh0, x) /\
      e_sh c = set_tail sh0 (sentinel_for smax v (sh_tail sh0)) /\ e_sh s = e_sh c /\ e_ch s = c_hello.
  Proof.
    intros Hc Hs Hu. destruct (closes_agree (le_closes E) Hc Hs Hu). destruct (le_client E Hc) as (Ec & _).
    destruct (le_server E Hs) as (v & sh0 & x & [_ F Er Es]).
    rewrite Ec in *. apply server_front_ok in F as (A & B). exists v, sh0, x. repeat split; assumption.
  Qed.

  Lemma legacy_scsv_enforced {X reply a1 o} (E : @legacy_ends X reply a1 o) s :
    o_s o = Some s -> exists v, sel_version smin smax (e_ch s) = SelOk v /\ scsv_hit smax v (e_ch s) = false.
  Proof.
    intros Hs. destruct (le_server E Hs) as (v & sh0 & x & An). exact (ex_intro _ v (server_front_ok _ _ (an_front An))).
  Qed.

  Lemma legacy_sentinel_written {X reply a1 o} (E : @legacy_ends X reply a1 o) s :
    o_s o = Some s ->
    exists v, sel_version smin smax (e_ch s) = SelOk v /\
      (v < TLS12 -> smax >= TLS12 -> sh_tail (e_sh s) = 1) /\
      (v = TLS12 -> smax > TLS12 -> sh_tail (e_sh s) = 2).
  Proof.
    intros Hs. destruct (le_server E Hs) as (v & sh0 & x & An). rewrite (an_tail An).
    destruct (server_front_ok _ _ (an_front An)) as (A & _).
    destruct (sentinel_for_spec v (sh_tail sh0)) as (P & Q & _). exact (ex_intro _ v (conj A (conj P Q))).
  Qed.

  Lemma legacy_fallback_refused {X reply a1 o} (E : @legacy_ends X reply a1 o) v :
    memZ FALLBACK_SCSV (ch_suites c_hello) = true -> sel_version smin smax c_hello = SelOk v -> v < smax ->
    get_ch (a1 [MCH c_hello]) = Some c_hello -> o_s o = None.
  Proof.
    intros Hc Hsel Hv G. destruct (o_s o) as [s|] eqn:Hs; [exfalso|reflexivity].
    destruct (le_server E Hs) as (v' & sh0 & x & An). pose proof (an_hello An) as G'. pose proof (an_front An) as F.
    rewrite G in G'. injection G' as G'. rewrite <- G' in F. exact (fallback_hello_refused _ _ _ Hc Hsel Hv F).
  Qed.

  Lemma legacy_fallback_refused_ideal {X reply a1 o} (E : @legacy_ends X reply a1 o) v c s :
    memZ FALLBACK_SCSV (ch_suites c_hello) = true -> sel_version smin smax c_hello = SelOk v -> v < smax ->
    o_c o = Some c -> o_s o = Some s -> UNF o -> False.
  Proof.
    intros Hc Hsel Hv H H0 H1. destruct (closes_agree (le_closes E) H H0 H1).
    destruct (le_client E H) as (Ec & _). destruct (le_server E H0) as (v' & sh0 & x & An).
    pose proof (an_front An) as F. rewrite Ec in F. exact (fallback_hello_refused _ _ _ Hc Hsel Hv F).
  Qed.

  Lemma fallback_refused_ideal ver rand fsid real session exts v :
    c_hello = client_first_hello ver rand fsid real true session exts ->
    sel_version smin smax c_hello = SelOk v -> v < smax ->
    (forall a1 a2 a3 a4 c s, o_c (R12 a1 a2 a3 a4) = Some c -> o_s (R12 a1 a2 a3 a4) = Some s ->
       UNF (R12 a1 a2 a3 a4) -> False) /\
    (forall a1 a2 a3 c s, o_c (R12r a1 a2 a3) = Some c -> o_s (R12r a1 a2 a3) = Some s ->
       UNF (R12r a1 a2 a3) -> False).
  Proof.
    intros Hc Hsel Hv. assert (S : memZ FALLBACK_SCSV (ch_suites c_hello) = true) by (rewrite Hc, scsv_on_wire; apply orb_true_r).
    split; intros *; [exact (legacy_fallback_refused_ideal (run12_ends _ _ _ _) v c s S Hsel Hv)
                     |exact (legacy_fallback_refused_ideal (run12r_ends _ _ _) v c s S Hsel Hv)].
  Qed.

  (* what else the checks and accessors of the model give; nothing uses these six (one here, five after the section) *)
  Lemma client_accepts_checks c s :
    client_accepts suite_ok cmin cmax c_extra_ok c s = VOk ->
    cmin <= sh_version s /\ In (sh_suite s) (ch_suites c) /\ suite_ok (sh_version s) (sh_suite s) = true /\
    (sh_version s > TLS12 -> sh_sid s = ch_sid c).
  Proof.
    unfold client_accepts, client_sh_check. cbv zeta.
    destruct (sh_version s <? cmin) eqn:Ev; [discriminate|]. destruct (_ && negb (memZ _ _)); [discriminate|].
    destruct (_ && negb (sh_sid s =? ch_sid c)) eqn:Ei; [discriminate|].
    destruct (memZ (sh_suite s) (ch_suites c)) eqn:Em; [|discriminate].
    destruct (suite_ok (sh_version s) (sh_suite s)); [|discriminate]. intros _.
    apply Z.ltb_ge in Ev. apply existsb_exists in Em as (y & Hy & E). apply Z.eqb_eq in E. subst y.
    split; [exact Ev|]. split; [exact Hy|]. split; [reflexivity|]. intros Hv.
    apply andb_false_iff in Ei as [Ei|Ei]; [lia|]. apply negb_false_iff in Ei. apply Z.eqb_eq. exact Ei.
  Qed.
End Ideal.

Arguments closes_agree {hash fin prf_of} _ _ {o c s}.
Arguments began_first {hash} _ {ch1 ch1' e}.
Arguments client_accepts_sentinel {suite_ok cmin cmax c_extra_ok c s}.
Arguments legacy_no_downgrade {hash fin prf_of suite_ok cmin cmax smin smax c_hello s_ch_ok c_extra_ok} _ _ {X reply a1 o} E {c s}.

Lemma zl_eqb_refl a : zl_eqb a a = true.
Proof. apply lists_eqb_refl. apply Z.eqb_refl. Qed.

Lemma get_ch_eq l c : get_ch l = Some c -> l = [MCH c].
Proof.
  destruct l as [|m [|m' r]]; cbn; try discriminate; destruct m; try discriminate.
  intros H. injection H as <-. reflexivity.
Qed.

Lemma get_sh_flight_eq l s r : get_sh_flight l = Some (s, r) -> l = MSH s :: r.
Proof.
  destruct l as [|m r']; cbn; try discriminate. destruct m; try discriminate.
  intros H. injection H as <- <-. reflexivity.
Qed.

Lemma app_inj_tail_msg (a b : list msg) x y : a ++ [x] = b ++ [y] -> a = b /\ x = y.
Proof. apply app_inj_tail. Qed.

Lemma hrr_second_ok_fixed_nopsk cookie group c1 c2 :
  find_ext X_PSK (ch_exts c2) = None ->
  hrr_second_ok cookie group c1 c2 = true ->
  ch_fixed_part c1 = ch_fixed_part c2 /\
  exists share, find_ext X_KEYSHARE (ch_exts c2) = Some [group; share].
Proof. intros Hn. exact (hrr_second_ok_fixed cookie group c1 c2 (or_intror Hn)). Qed.
