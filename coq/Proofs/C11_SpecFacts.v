(* C11 -- facts about the specification Spec/C11_Pkcs1Dec.v alone: the validity test is the PKCS#1
   v1.5 type-2 format; the rule for the synthetic length; and the padding test rephrased through
   the two list scans (`early`, `late`) that the constant-time loop of the code computes. *)
From Coq Require Import ZArith List Bool Lia.
From TV Require Import Base.Prelude Base.PreludeFacts Base.C11_Lib Spec.C11_Pkcs1Dec Proofs.C11_LibFacts.
Import ListNotations.
Open Scope Z_scope.

Lemma last_cons_default {A} (l : list A) : forall a d, last (a :: l) d = last l a.
Proof.
  induction l as [|b l IH]; intros a d; [reflexivity|].
  change (last (a :: b :: l) d) with (last (b :: l) d). rewrite !IH. reflexivity.
Qed.

Lemma last_in {A} (l : list A) d : l <> [] -> In (last l d) l.
Proof.
  induction l as [|x r IH]; intros H; [congruence|]. destruct r as [|y r'].
  - left. reflexivity.
  - right. apply IH. discriminate.
Qed.

Lemma last_filter_cases {A} (p : A -> bool) l d :
  last (filter p l) d = d \/ (In (last (filter p l) d) l /\ p (last (filter p l) d) = true).
Proof.
  destruct (filter p l) as [|x F] eqn:EF; [left; reflexivity|right].
  apply filter_In. rewrite EF. apply last_in. discriminate.
Qed.

Lemma first_zero_cases l : forall p,
  first_zero p l = None \/ exists ps t, l = ps ++ 0 :: t /\ Forall (fun b => b <> 0) ps.
Proof.
  induction l as [|x l IH]; intros p; cbn [first_zero]; [left; reflexivity|].
  destruct (Z.eqb_spec x 0) as [->|N]; [right; exists [], l; split; [reflexivity|constructor]|].
  destruct (IH (p + 1)) as [E|(ps & t & -> & F)]; [left; exact E|right].
  exists (x :: ps), t. split; [reflexivity|constructor; assumption].
Qed.

Lemma first_zero_of_split ps t : forall p, Forall (fun b => b <> 0) ps ->
  first_zero p (ps ++ 0 :: t) = Some (p + zlen ps).
Proof.
  induction ps as [|x ps IH]; intros p F; cbn [app first_zero].
  - change (0 =? 0) with true. cbv iota. f_equal. unfold zlen. cbn [length]. lia.
  - inversion F as [|? ? Hx F']; subst. destruct (x =? 0) eqn:E; [lia|].
    rewrite IH by exact F'. rewrite zlen_cons. f_equal. lia.
Qed.

Lemma unpad_split b0 b1 ps t : Forall (fun b => b <> 0) ps ->
  pkcs1_unpad (b0 :: b1 :: ps ++ 0 :: t) = if (b0 =? 0) && (b1 =? 2) && (8 <=? zlen ps) then Some t else None.
Proof.
  intros F. unfold pkcs1_unpad. rewrite first_zero_of_split by exact F.
  destruct ((b0 =? 0) && (b1 =? 2)); [|reflexivity].
  destruct (Z.leb_spec 10 (2 + zlen ps)), (Z.leb_spec 8 (zlen ps)); try lia; [|reflexivity].
  replace (Z.to_nat (2 + zlen ps + 1)) with (S (S (length ps + 1)))%nat by (unfold zlen; lia).
  cbn [skipn andb]. rewrite <- skipn_add, skipn_app_exact. reflexivity.
Qed.

Lemma unpad_iff_format em m : pkcs1_unpad em = Some m <-> pkcs1_format em m.
Proof.
  unfold pkcs1_format. split.
  - destruct em as [|b0 [|b1 rest]]; try discriminate.
    destruct (first_zero_cases rest 2) as [E|(ps & t & -> & F)].
    + unfold pkcs1_unpad. rewrite E. destruct (_ && _); discriminate.
    + rewrite unpad_split by exact F.
      destruct (Z.eqb_spec b0 0) as [->|], (Z.eqb_spec b1 2) as [->|], (Z.leb_spec 8 (zlen ps)); try discriminate.
      intros U. injection U as <-. exists ps. auto.
  - intros [ps [-> [L F]]]. rewrite unpad_split by exact F.
    destruct (Z.leb_spec 8 (zlen ps)); [reflexivity|lia].
Qed.

Lemma unpad_some_facts em m : pkcs1_unpad em = Some m -> all_bytes em = true ->
  all_bytes m = true /\ zlen m <= zlen em - 11.
Proof.
  intros U Hb. apply unpad_iff_format in U. destruct U as [ps [-> [L F]]].
  replace (0 :: 2 :: ps ++ 0 :: m) with ((0 :: 2 :: ps ++ [0]) ++ m) in *
    by (cbn [app]; rewrite <- app_assoc; reflexivity).
  rewrite all_bytes_app in Hb. apply andb_prop in Hb. split; [apply Hb|].
  autorewrite with zlen. lia.
Qed.

(* cand_mask k is 2 ^ numBits (k - 10) - 1 by definition *)
Lemma cand_mask_minimal k : 11 <= k ->
  k - 10 <= cand_mask k /\ forall t', 0 <= t' -> k - 10 <= 2 ^ t' - 1 -> cand_mask k <= 2 ^ t' - 1.
Proof.
  intros Hk. unfold cand_mask, max_sep_offset, numBits.
  rewrite Z.abs_eq by lia. destruct (k - 10 =? 0) eqn:E; [lia|].
  pose proof (Z.log2_nonneg (k - 10)) as L0.
  pose proof (Z.log2_spec (k - 10) ltac:(lia)) as [L1 L2].
  replace (Z.succ (Z.log2 (k - 10))) with (Z.log2 (k - 10) + 1) in L2 by lia.
  split; [lia|].
  intros t' Ht' Hb'.
  assert (Z.log2 (k - 10) + 1 <= t'); [|assert (2 ^ (Z.log2 (k - 10) + 1) <= 2 ^ t') by (apply Z.pow_le_mono_r; lia); lia].
  destruct (Z_lt_le_dec t' (Z.log2 (k - 10) + 1)) as [Hlt|]; [|assumption].
  assert (2 ^ t' <= 2 ^ Z.log2 (k - 10)) by (apply Z.pow_le_mono_r; lia). lia.
Qed.

(* whatever the key size: the mask is 2^t - 1, and masking a 16-bit word leaves at most that word *)
Lemma cand_bounds k h l : 0 <= h < 256 -> 0 <= l < 256 ->
  0 <= Z.land (h * 256 + l) (cand_mask k) < 65536.
Proof.
  intros Hh Hl. unfold cand_mask. set (t := numBits _). pose proof (numBits_nonneg (max_sep_offset k)) as Ht. fold t in Ht.
  change (2 ^ t - 1) with (Z.pred (2 ^ t)). rewrite <- Z.ones_equiv, Z.land_ones by exact Ht.
  assert (0 < 2 ^ t) by (apply Z.pow_pos_nonneg; lia).
  pose proof (Z.mod_pos_bound (h * 256 + l) _ H).
  pose proof (Z.mod_le (h * 256 + l) _ ltac:(lia) H). lia.
Qed.

Lemma candidates_bounds k lr c : all_bytes lr = true -> In c (candidates k lr) -> 0 <= c < 65536.
Proof.
  intros Hlr Hc. apply in_map_iff in Hc. destruct Hc as [[h l] [<- Hin]].
  pose proof (pairs_of_forall (fun x => 0 <= x < 256) lr) as HP.
  rewrite !Forall_forall in HP. destruct (HP (proj1 (all_bytes_In lr) Hlr) _ Hin) as [Hh Hl].
  apply cand_bounds; assumption.
Qed.

Lemma synth_len_bound k lr : 11 <= k -> all_bytes lr = true -> 0 <= synth_len k lr < k - 10.
Proof.
  intros Hk Hlr. unfold synth_len, max_sep_offset.
  destruct (last_filter_cases (fun c => c <? k - 10) (candidates k lr) 0) as [->|[Hin Hp]]; [lia|].
  apply candidates_bounds in Hin; [|assumption]. apply Z.ltb_lt in Hp. lia.
Qed.

(* The padding test as two scans of the block from position p on.
   early: a zero byte among the first 8 padding bytes (absolute positions 2..9) *)
Fixpoint early (p : Z) (l : list Z) : bool :=
  match l with
  | [] => false
  | x :: t => ((p <? 10) && (x =? 0)) || early (p + 1) t
  end.
(* 1 + position of the first zero byte at a position >= 10; 0 if there is none *)
Fixpoint late (p : Z) (l : list Z) : Z :=
  match l with
  | [] => 0
  | x :: t => if negb (p <? 10) && (x =? 0) then p + 1 else late (p + 1) t
  end.
Lemma early_past_10 l : forall p, 10 <= p -> early p l = false.
Proof.
  induction l as [|x t IH]; intros p Hp; cbn [early]; [reflexivity|].
  rewrite IH by lia. destruct (p <? 10) eqn:E; [lia|]. reflexivity.
Qed.

Lemma first_zero_scan l : forall p,
  match first_zero p l with
  | Some s => if 10 <=? s then early p l = false /\ late p l = s + 1 else early p l = true
  | None => early p l = false /\ late p l = 0
  end.
Proof.
  induction l as [|x t IH]; intros p; cbn [first_zero early late]; [split; reflexivity|].
  destruct (x =? 0) eqn:X.
  - destruct (10 <=? p) eqn:E.
    + destruct (p <? 10) eqn:E'; [lia|]. cbn [andb negb orb]. split; [apply early_past_10; lia|reflexivity].
    + destruct (p <? 10) eqn:E'; [|lia]. reflexivity.
  - rewrite !andb_false_r. cbn [orb]. apply IH.
Qed.

Lemma late_bound l : forall p, 0 <= p -> 0 <= late p l <= p + zlen l.
Proof.
  induction l as [|x t IH]; intros p Hp; cbn [late]; [unfold zlen; cbn [length]; lia|].
  rewrite zlen_cons. pose proof (zlen_nonneg t). specialize (IH (p + 1) ltac:(lia)).
  destruct (negb (p <? 10) && (x =? 0)); lia.
Qed.

Lemma unpad_scan b0 b1 rest :
  pkcs1_unpad (b0 :: b1 :: rest) =
  if negb (b0 =? 0) || negb (b1 =? 2) || early 2 rest || (late 2 rest =? 0) then None
  else Some (skipn (Z.to_nat (late 2 rest)) (b0 :: b1 :: rest)).
Proof.
  unfold pkcs1_unpad. pose proof (first_zero_scan rest 2) as FZ.
  destruct (b0 =? 0), (b1 =? 2); cbn [negb orb andb]; try reflexivity.
  destruct (first_zero 2 rest) as [s|].
  - destruct (10 <=? s) eqn:E.
    + destruct FZ as [-> ->]. destruct (Z.eqb_spec (s + 1) 0); [lia|]. reflexivity.
    + rewrite FZ. reflexivity.
  - destruct FZ as [-> ->]. reflexivity.
Qed.
