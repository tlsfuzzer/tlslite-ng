(* C15 -- every format term of Model/C15_Messages.v is well-formed, so the generic
   theorems apply to it; and the value of an SSLv2 record header (rh2_val_spec). *)
From Coq Require Import ZArith List Bool Lia.
From TV Require Import Model.C15_Fmt Model.C15_Messages.
Open Scope Z_scope.

Lemma sel_of_all (P : fmt -> Prop) tbl d :
  Forall (fun p => P (snd p)) tbl -> P d -> forall t, P (sel_of tbl d t).
Proof.
  intros H Hd t. induction tbl as [|[k f] tl IH]; cbn [sel_of]; [exact Hd|].
  inversion H as [|? ? H1 H2]; subst. destruct (t =? k); [exact H1|apply IH; exact H2].
Qed.

(* [wf_fmt] of a given term evaluates to a conjunction of comparisons (between numerals: by
   computation; with a variable bounded by a hypothesis or by a test inside the term: lia), of
   [nonempty _ = true], and of facts about the extension formats, which stay folded and come
   from the hints.  HRR_RANDOM stays folded because cbn would compute the number. *)
Create HintDb c15_wf.
Ltac wf_step :=
  match goal with
  | |- _ /\ _ => split
  | |- True => exact I
  | |- _ = true => reflexivity
  | |- _ <= _ => first [discriminate | lia]
  | |- _ < _ => reflexivity
  | |- forall _, _ => intro
  | |- Forall _ _ => constructor
  | |- context [if ?c then _ else _] => destruct c eqn:?
  | |- _ => solve [auto with c15_wf nocore]
  | |- _ => progress cbn -[Ext ExtList ExtListU CertificateEntry HRR_RANDOM]
  end.
Ltac wf_tac := repeat wf_step.

Lemma wf_ext_table c : Forall (fun p => wf_fmt (snd p)) (ext_table c).
Proof.
  assert (Forall (fun p => wf_fmt (snd p)) ext_universal) as U by (unfold ext_universal; wf_tac).
  destruct c; cbn [ext_table]; [exact U|apply Forall_app; split; [|exact U]..];
    unfold ext_server_only, ext_hrr_only, ext_cert_only; wf_tac.
Qed.

Lemma wf_Ext c : wf_fmt (Ext c).
Proof.
  unfold Ext. cbn [wf_fmt]. split; [lia|]. intros t. split; [lia|].
  apply sel_of_all; [apply wf_ext_table|exact I].
Qed.
Lemma delim_Ext c : delim (Ext c).
Proof. intros t. exact I. Qed.
#[global] Hint Resolve wf_Ext delim_Ext : c15_wf.

Lemma wf_ExtList c : wf_fmt (ExtList c).
Proof. unfold ExtList. wf_tac. Qed.
Lemma wf_ExtListU c : wf_fmt (ExtListU c).
Proof. unfold ExtListU. wf_tac. Qed.
#[global] Hint Resolve wf_ExtList wf_ExtListU : c15_wf.

Lemma wf_CertificateEntry : wf_fmt CertificateEntry.
Proof. unfold CertificateEntry. wf_tac. Qed.
Lemma delim_CertificateEntry : delim CertificateEntry.
Proof. exact (conj I I). Qed.
#[global] Hint Resolve wf_CertificateEntry delim_CertificateEntry : c15_wf.

Lemma wf_RecordHeader3 : wf_fmt fmt_RecordHeader3. Proof. wf_tac. Qed.
Lemma wf_Alert : wf_fmt fmt_Alert. Proof. wf_tac. Qed.
Lemma wf_ChangeCipherSpec : wf_fmt fmt_ChangeCipherSpec. Proof. wf_tac. Qed.
Lemma wf_Heartbeat : wf_fmt fmt_Heartbeat. Proof. wf_tac. Qed.
Lemma wf_KeyUpdate : wf_fmt fmt_KeyUpdate. Proof. wf_tac. Qed.
Lemma wf_HelloRequest : wf_fmt fmt_HelloRequest. Proof. wf_tac. Qed.
Lemma wf_ServerHelloDone : wf_fmt fmt_ServerHelloDone. Proof. wf_tac. Qed.
Lemma wf_ClientHello : wf_fmt fmt_ClientHello. Proof. wf_tac. Qed.
Lemma wf_ServerHello : wf_fmt fmt_ServerHello. Proof. wf_tac. Qed.
Lemma wf_EncryptedExtensions : wf_fmt fmt_EncryptedExtensions. Proof. wf_tac. Qed.
Lemma wf_Certificate12 : wf_fmt fmt_Certificate12. Proof. wf_tac. Qed.
Lemma wf_Certificate13 : wf_fmt fmt_Certificate13. Proof. wf_tac. Qed.
Lemma wf_CertificateRequest b : wf_fmt (fmt_CertificateRequest b). Proof. destruct b; wf_tac. Qed.
Lemma wf_CertificateRequest13 : wf_fmt fmt_CertificateRequest13. Proof. wf_tac. Qed.
Lemma wf_CertificateVerify b : wf_fmt (fmt_CertificateVerify b). Proof. destruct b; wf_tac. Qed.
Lemma wf_CertificateStatus : wf_fmt fmt_CertificateStatus. Proof. wf_tac. Qed.
Lemma wf_ServerKeyExchange k s : wf_fmt (fmt_ServerKeyExchange k s). Proof. destruct k, s; wf_tac. Qed.
Lemma wf_ClientKeyExchange k b : wf_fmt (fmt_ClientKeyExchange k b). Proof. destruct k, b; wf_tac. Qed.
Lemma wf_Finished n : 0 <= n -> wf_fmt (fmt_Finished n). Proof. wf_tac. Qed.
Lemma wf_NextProtocol : wf_fmt fmt_NextProtocol. Proof. wf_tac. Qed.
Lemma wf_NewSessionTicket13 : wf_fmt fmt_NewSessionTicket13. Proof. wf_tac. Qed.
Lemma wf_NewSessionTicket10 : wf_fmt fmt_NewSessionTicket10. Proof. wf_tac. Qed.
Lemma wf_SessionTicketPayload : wf_fmt fmt_SessionTicketPayload. Proof. wf_tac. Qed.
Lemma wf_CompressedCertificate : wf_fmt fmt_CompressedCertificate. Proof. wf_tac. Qed.
Lemma wf_RecordHeader2 : wf_fmt fmt_RecordHeader2. Proof. wf_tac. Qed.
Lemma wf_ClientHelloSSL2 : wf_fmt fmt_ClientHelloSSL2. Proof. wf_tac. Qed.
#[global] Hint Resolve wf_RecordHeader3 wf_Alert wf_ChangeCipherSpec wf_Heartbeat wf_KeyUpdate
  wf_HelloRequest wf_ServerHelloDone wf_ClientHello wf_ServerHello wf_EncryptedExtensions
  wf_Certificate12 wf_Certificate13 wf_CertificateRequest wf_CertificateRequest13
  wf_CertificateVerify wf_CertificateStatus wf_ServerKeyExchange wf_ClientKeyExchange wf_Finished
  wf_NextProtocol wf_NewSessionTicket13 wf_NewSessionTicket10 wf_SessionTicketPayload
  wf_CompressedCertificate wf_RecordHeader2 wf_ClientHelloSSL2 : c15_wf.

Lemma rh2_val_spec len pad esc :
  match rh2_val len pad esc with
  | Some v => wf_val fmt_RecordHeader2 v /\ rh2_fields v = Some (len, pad, esc)
  | None => True
  end.
Proof.
  unfold rh2_val. pose proof (Z.div_mod len 256 ltac:(lia)). pose proof (Z.mod_pos_bound len 256 ltac:(lia)).
  destruct (rh2_short pad esc) eqn:S.
  - destruct ((0 <=? len) && (len <? 32768)) eqn:E; [|exact I].
    apply andb_true_iff in S. destruct S as [S1 S2]. apply Z.eqb_eq in S1. apply negb_true_iff in S2. subst pad esc.
    assert (0 <= len / 256 < 128) by (split; [apply Z.div_pos; lia|apply Z.div_lt_upper_bound; lia]).
    assert (128 <=? 128 + len / 256 = true) as G by lia. split.
    + unfold fmt_RecordHeader2. cbn [wf_val]. rewrite G. cbn [wf_val]. rewrite !Z.pow_1_r. lia.
    + cbn [rh2_fields]. rewrite G. do 3 f_equal. lia.
  - destruct ((0 <=? len) && (len <? 16384) && (0 <=? pad) && (pad <? 256)) eqn:E; [|exact I].
    assert (0 <= len / 256 < 64) by (split; [apply Z.div_pos; lia|apply Z.div_lt_upper_bound; lia]).
    set (b0 := (if esc then 64 else 0) + len / 256).
    assert (0 <= b0 < 128 /\ b0 mod 64 = len / 256 /\ (64 <=? b0) = esc) as [B [M Q]].
    { unfold b0. destruct esc; (split; [lia|]; split; [|lia]).
      - symmetry. apply (Z.mod_unique_pos _ 64 1); lia.
      - apply Z.mod_small. lia. }
    assert (128 <=? b0 = false) as G1 by lia. assert (b0 <? 128 = true) as G2 by lia. split.
    + unfold fmt_RecordHeader2. cbn [wf_val]. rewrite G1. cbn [wf_val]. rewrite !Z.pow_1_r. lia.
    + cbn [rh2_fields]. rewrite G2, M, Q. do 3 f_equal. lia.
Qed.
