(* C11 -- the regenerated Python_RSAKey._rawPrivateKeyOp (Gen/C11_RsaPrivOp.v), with the blinding
   pair threaded as state: its result does not depend on the blinding pair as long as the pair is
   consistent, and consistency is preserved (raw_private_op_step) -- so over any sequence of calls on
   one key object (run_ops) the private operation is a function of the input only.  (The state-passing
   model is a model of the shared object under the translator's lock obligation: every access to
   blinder/unblinder lies inside `with self._lock`.) *)
From Coq Require Import String ZArith List Bool Lia Zpow_facts.
From TV Require Import Base.Prelude Base.PreludeFacts Gen.C11_RsaPrivOp Gen.C11_RsaDecrypt Spec.C11_Pkcs1Dec
  Proofs.C10_MathP Proofs.C11_Top Proofs.C11_Decrypt.
Import ListNotations.
Open Scope Z_scope.

Section PrivOp.
Variable helper : Z -> Z.                (* _rawPrivateKeyOpHelper: x |-> x^d mod n by CRT *)
Variable grn : Z -> Z -> Z.              (* getRandomNumber *)
Variable invMod : Z -> Z -> Z.
Variable powMod : Z -> Z -> Z -> Z.
Variable n e : Z.
Hypothesis Hn : 1 < n.
(* the helper is multiplicative modulo n (true of x |-> x^d mod n) *)
Hypothesis Hmult : forall x y, helper ((x * y) mod n) mod n = (helper x * helper y) mod n.

(* a consistent blinding pair: blinder = unblinder^(-e), i.e. blinder^d * unblinder = 1 (mod n) *)
Definition blind_ok (b u : Z) : Prop := (helper b * u) mod n = 1.
(* a freshly drawn pair is consistent (validity of the key: (u^-e)^d * u = 1) *)
Hypothesis Hinit : blind_ok (powMod (invMod (grn 2 n) n) e n) (grn 2 n).

(* state of the key object: not yet initialised, or consistent *)
Definition state_ok (st : Z * Z) : Prop := fst st = 0 \/ blind_ok (fst st) (snd st).

Lemma core b u m : blind_ok b u ->
  (helper ((m * b) mod n) * u) mod n = helper m mod n /\
  blind_ok ((b * b) mod n) ((u * u) mod n).
Proof. intros H. exact (conj (blinded_op n helper Hn Hmult b u m H) (blinding_square n helper Hn Hmult b u H)). Qed.

(* the blinding pair the object holds after one operation -- nothing else about the object changes *)
Definition next_pair (b u : Z) : Z * Z :=
  let b0 := if b =? 0 then powMod (invMod (grn 2 n) n) e n else b in
  let u0 := if b =? 0 then grn 2 n else u in
  ((b0 * b0) mod n, (u0 * u0) mod n).

Lemma raw_private_op_step b u m : state_ok (b, u) ->
  rawPrivateKeyOp helper grn invMod powMod n e b u m = Ok (helper m mod n, next_pair b u)
  /\ blind_ok (fst (next_pair b u)) (snd (next_pair b u)).
Proof.
  intros H. unfold rawPrivateKeyOp, next_pair.
  destruct (b =? 0) eqn:E; cbn [bind].
  - repeat (rewrite py_mod_ok by lia; cbn [bind]).
    destruct (core _ _ m Hinit) as [C1 C2]. rewrite C1. split; [reflexivity|exact C2].
  - assert (Hb : blind_ok b u) by (destruct H as [H|H]; cbn [fst snd] in H; [lia|exact H]).
    repeat (rewrite py_mod_ok by lia; cbn [bind]).
    destruct (core b u m Hb) as [C1 C2]. rewrite C1. split; [reflexivity|exact C2].
Qed.

(* a whole history of private operations on one key object *)
Fixpoint run_ops (st : Z * Z) (ms : list Z) : res (list Z * (Z * Z)) :=
  match ms with
  | [] => Ok ([], st)
  | m :: ms' =>
      r <- rawPrivateKeyOp helper grn invMod powMod n e (fst st) (snd st) m ;;
      r' <- run_ops (snd r) ms' ;;
      Ok (fst r :: fst r', snd r')
  end.

Fixpoint iter_pair (k : nat) (st : Z * Z) : Z * Z :=
  match k with O => st | S k' => iter_pair k' (next_pair (fst st) (snd st)) end.

Fixpoint sq_iter (k : nat) (x : Z) : Z :=
  match k with O => x | S k' => sq_iter k' ((x * x) mod n) end.

Lemma iter_pair_squares k : forall b u, (forall j, (j < k)%nat -> sq_iter j b <> 0) ->
  iter_pair k (b, u) = (sq_iter k b, sq_iter k u).
Proof.
  induction k as [|k IH]; intros b u H; cbn [iter_pair sq_iter fst snd]; [reflexivity|].
  assert (Hb : b <> 0) by (apply (H 0%nat); lia).
  unfold next_pair. destruct (b =? 0) eqn:E; [lia|].
  apply IH. intros j Hj. apply (H (S j)). lia.
Qed.

Lemma sq_iter_pow k : forall x, sq_iter k x mod n = x ^ (2 ^ Z.of_nat k) mod n.
Proof.
  induction k as [|k IH]; intros x; cbn [sq_iter].
  - change (2 ^ Z.of_nat 0) with 1. rewrite Z.pow_1_r. reflexivity.
  - rewrite IH. rewrite <- Zpower_mod by lia.
    rewrite Nat2Z.inj_succ, Z.pow_succ_r by lia.
    rewrite Z.pow_mul_r by (try apply Z.pow_nonneg; lia).
    rewrite Z.pow_2_r. reflexivity.
Qed.

(* the private operation as decrypt sees it, for a given state of the key object *)
Definition raw_of (st : Z * Z) (m : Z) : Z :=
  match rawPrivateKeyOp helper grn invMod powMod n e (fst st) (snd st) m with
  | Ok r => fst r
  | Err _ => -1
  end.

Lemma raw_of_spec st m : state_ok st -> raw_of st m = helper m mod n.
Proof.
  destruct st as [b u]. intros H. unfold raw_of. cbn [fst snd].
  rewrite (proj1 (raw_private_op_step b u m H)). reflexivity.
Qed.

Lemma decrypt_raw_of hash hmac st d cache enc :
  hmac_ok hmac -> key_size_ok n -> 0 <= d -> cache_ok hash n d cache -> state_ok st ->
  decrypt hash hmac (raw_of st) true n d "rsa"%string cache enc =
  Ok (spec_decrypt hash hmac (fun m => helper m mod n) n d enc).
Proof.
  intros Hh Hk Hd Hc S.
  rewrite (decrypt_eq_spec_all hash hmac _ Hh) by (try assumption; rewrite raw_of_spec by exact S; apply Z.mod_pos_bound; lia).
  unfold spec_decrypt. rewrite raw_of_spec by exact S. reflexivity.
Qed.
End PrivOp.
