(* C10: powmod is Z.pow mod; RSA exponents cancel (Chinese remainders and the order of the units);
   the CRT private operation and its blinding compute m^d mod n, a right inverse of the public operation on [0, n). *)
From Coq Require Import ZArith List Bool Lia Znumtheory Zpow_facts.
From TV Require Import Base.Prelude Model.C10_RsaMath.
Import ListNotations.
Open Scope Z_scope.

Lemma powmod_pos_spec b e n : 0 < n -> powmod_pos b e n = b ^ Zpos e mod n.
Proof.
  intros Hn. induction e as [e IH|e IH|].
  - cbn [powmod_pos]. rewrite IH.
    replace (Zpos e~1) with (Zpos e + Zpos e + 1) by lia.
    rewrite !Z.pow_add_r by lia. rewrite Z.pow_1_r.
    rewrite <- (Z.mul_mod_idemp_l (b ^ Z.pos e * b ^ Z.pos e)) by lia.
    rewrite (Z.mul_mod (b ^ Z.pos e) (b ^ Z.pos e)) by lia. reflexivity.
  - cbn [powmod_pos]. rewrite IH.
    replace (Zpos e~0) with (Zpos e + Zpos e) by lia.
    rewrite Z.pow_add_r by lia. rewrite <- Z.mul_mod by lia. reflexivity.
  - cbn [powmod_pos]. rewrite Z.pow_1_r. reflexivity.
Qed.

Lemma powmod_spec b e n : 0 < n -> 0 <= e -> powmod b e n = b ^ e mod n.
Proof.
  intros Hn He. destruct e as [|e|e]; cbn [powmod].
  - reflexivity.
  - apply powmod_pos_spec. exact Hn.
  - lia.
Qed.

(* also for the negative exponents the model maps to 0 *)
Lemma powmod_range b e n : 0 < n -> 0 <= powmod b e n < n.
Proof.
  intros Hn. destruct e as [|e|e]; cbn [powmod]; [apply Z.mod_pos_bound; exact Hn| |lia].
  rewrite powmod_pos_spec by exact Hn. apply Z.mod_pos_bound. exact Hn.
Qed.

Lemma pow_mod_l a b n : 0 < n -> (a mod n) ^ b mod n = a ^ b mod n.
Proof. intros Hn. symmetry. apply Zpower_mod. lia. Qed.

Lemma pow_eq_lift p a b : 0 < p -> (forall x, 0 <= x < p -> x ^ a mod p = x ^ b mod p) ->
  forall m, m ^ a mod p = m ^ b mod p.
Proof.
  intros Hp H m. rewrite <- (pow_mod_l m a), <- (pow_mod_l m b) by exact Hp.
  apply H. apply Z.mod_pos_bound. exact Hp.
Qed.

Lemma pow_exp_mod g p q a : 1 < p -> 0 < q -> 0 <= a -> g ^ q mod p = 1 ->
  g ^ a mod p = g ^ (a mod q) mod p.
Proof.
  intros Hp Hq Ha Hg.
  pose proof (Z.div_mod a q ltac:(lia)) as D. pose proof (Z.mod_pos_bound a q Hq) as M.
  assert (Hd : 0 <= a / q) by (apply Z.div_pos; lia).
  rewrite D at 1. rewrite Z.pow_add_r by nia. rewrite Z.pow_mul_r by lia.
  rewrite <- Z.mul_mod_idemp_l by lia. rewrite <- pow_mod_l by lia. rewrite Hg.
  rewrite Z.pow_1_l by lia. rewrite Z.mod_1_l by lia. rewrite Z.mul_1_l. reflexivity.
Qed.

(* every unit modulo p has an order dividing m: what Fermat's theorem gives for a prime p and
   m = p - 1. *)
Definition unit_order (p m : Z) : Prop := forall x, 0 < x < p -> x ^ m mod p = 1.

Lemma unit_order_check p m : 0 < p -> 0 <= m ->
  forallb (fun x => powmod x m p =? 1) (zrange 1 p) = true -> unit_order p m.
Proof.
  intros Hp Hm H x Hx. rewrite <- powmod_spec by assumption. apply Z.eqb_eq.
  apply (proj1 (forallb_forall _ _) H). apply in_zrange. lia.
Qed.

Lemma pow_exp_congr p m a b x : 1 < p -> 0 < m -> unit_order p m ->
  0 < a -> 0 < b -> a mod m = b mod m -> x ^ a mod p = x ^ b mod p.
Proof.
  intros Hp Hm Ho Ha Hb E.
  rewrite <- (pow_mod_l x a), <- (pow_mod_l x b) by lia.
  pose proof (Z.mod_pos_bound x p ltac:(lia)) as Hr.
  destruct (Z.eq_dec (x mod p) 0) as [->|Hr0].
  - rewrite !Z.pow_0_l by lia. reflexivity.
  - rewrite (pow_exp_mod _ p m a), (pow_exp_mod _ p m b) by (try lia; apply Ho; lia).
    rewrite E. reflexivity.
Qed.

Lemma crt_mod_eq p q a b :
  0 < p -> 0 < q -> rel_prime p q ->
  a mod p = b mod p -> a mod q = b mod q -> a mod (p * q) = b mod (p * q).
Proof.
  intros Hp Hq Hrel Ep Eq.
  assert (D : forall m, 0 < m -> a mod m = b mod m -> (m | a - b)).
  { intros m Hm E. apply Z.mod_divide; [lia|]. rewrite Zminus_mod, E, Z.sub_diag. apply Z.mod_0_l. lia. }
  destruct (D q Hq Eq) as [t Ht].
  assert (Dt : (p | t)).
  { apply Gauss with q; [|exact Hrel]. rewrite Z.mul_comm, <- Ht. exact (D p Hp Ep). }
  destruct Dt as [s ->].
  replace a with (b + s * (p * q)) by lia. apply Z_mod_plus_full.
Qed.

Lemma rel_prime_of_inverse p q qi : 1 < p -> (q * qi) mod p = 1 -> rel_prime p q.
Proof.
  intros Hp H. apply bezout_rel_prime.
  pose proof (Z.div_mod (q * qi) p ltac:(lia)) as D. rewrite H in D.
  apply Bezout_intro with (u := - ((q * qi) / p)) (v := qi). lia.
Qed.

(* Garner's recombination, as _rawPrivateKeyOpHelper does it *)
Lemma garner p q qi X : 1 < p -> 1 < q -> (q * qi) mod p = 1 ->
  X mod q + q * (((X mod p - X mod q) * qi) mod p) = X mod (p * q).
Proof.
  intros Hp Hq Hinv.
  set (s1 := X mod p). set (s2 := X mod q). set (h := ((s1 - s2) * qi) mod p).
  assert (Bs2 : 0 <= s2 < q) by (apply Z.mod_pos_bound; lia).
  assert (Bh : 0 <= h < p) by (apply Z.mod_pos_bound; lia).
  rewrite <- (Z.mod_small (s2 + q * h) (p * q)) by nia.
  apply crt_mod_eq; try lia.
  - apply rel_prime_of_inverse with qi; assumption.
  - (* modulo p, q * qi = 1 *)
    unfold h. rewrite Z.add_mod, Z.mul_mod_idemp_r, <- Z.add_mod by lia.
    replace (q * ((s1 - s2) * qi)) with ((q * qi) * (s1 - s2)) by ring.
    rewrite <- Z.add_mod_idemp_r, <- Z.mul_mod_idemp_l by lia. rewrite Hinv.
    rewrite Z.mul_1_l, Z.add_mod_idemp_r by lia.
    replace (s2 + (s1 - s2)) with s1 by ring. apply Z.mod_mod. lia.
  - rewrite (Z.mul_comm q h), Z_mod_plus_full. apply Z.mod_mod. lia.
Qed.

Theorem rsa_exponent_cancels p q mp mq t x :
  1 < p -> 1 < q -> rel_prime p q -> 0 < mp -> 0 < mq -> unit_order p mp -> unit_order q mq ->
  0 < t -> t mod mp = 1 mod mp -> t mod mq = 1 mod mq -> x ^ t mod (p * q) = x mod (p * q).
Proof.
  intros Hp Hq Hrel Hmp Hmq Op Oq Ht Ep Eq.
  rewrite <- (Z.pow_1_r x) at 2.
  apply crt_mod_eq; try lia; try assumption.
  - apply (pow_exp_congr p mp); try assumption; lia.
  - apply (pow_exp_congr q mq); try assumption; lia.
Qed.

(* Blinding, for any map h that is multiplicative modulo n (as x |-> x^d mod n is).  The hand-written model of
   Python_RSAKey._rawPrivateKeyOp (Model/C10_RsaMath.v) and the generated one (Gen/C11_RsaPrivOp.v,
   Proofs/C11_PrivOp.v) differ in how they hold the pair, not in this argument. *)
Section Blinding.
  Variable n : Z.
  Variable h : Z -> Z.
  Hypothesis Hn : 1 < n.
  Hypothesis Hmult : forall x y, h ((x * y) mod n) mod n = (h x * h y) mod n.

  Lemma h_mul_mod x y z : (h ((x * y) mod n) * z) mod n = (h x * h y * z) mod n.
  Proof. rewrite Z.mul_mod, Hmult, <- Z.mul_mod by lia. reflexivity. Qed.

  Lemma blinded_op b u m : (h b * u) mod n = 1 -> (h ((m * b) mod n) * u) mod n = h m mod n.
  Proof.
    intros H. rewrite h_mul_mod, <- Z.mul_assoc, Z.mul_mod, H, Z.mul_1_r by lia.
    apply Z.mod_mod. lia.
  Qed.

  Lemma blinding_square b u : (h b * u) mod n = 1 -> (h ((b * b) mod n) * ((u * u) mod n)) mod n = 1.
  Proof.
    intros H. rewrite h_mul_mod, Z.mul_mod_idemp_r by lia.
    replace (h b * h b * (u * u)) with ((h b * u) * (h b * u)) by ring.
    rewrite Z.mul_mod, H by lia. apply Z.mod_small. lia.
  Qed.
End Blinding.

Lemma pow_mult n d : 1 < n -> forall x y, ((x * y) mod n) ^ d mod n mod n = (x ^ d mod n * (y ^ d mod n)) mod n.
Proof. intros Hn x y. rewrite Z.mod_mod, pow_mod_l, Z.pow_mul_l, <- Z.mul_mod by lia. reflexivity. Qed.

(* h = x |-> x^d mod n, with the pair kept in the form the code establishes: b * u^e = 1 *)
Section PowBlinding.
  Variables n e d : Z.
  Hypothesis Hn : 1 < n.
  Hypothesis He : 0 <= e.
  Hypothesis Hd : 0 <= d.

  (* read from the other side, (u, b) is a blinding pair of x |-> x^e mod n *)
  Lemma blind_pair_square b u : (b * u ^ e) mod n = 1 -> ((b * b) mod n * ((u * u) mod n) ^ e) mod n = 1.
  Proof.
    intros H. rewrite Z.mul_comm, <- Z.mul_mod_idemp_l by lia.
    apply (blinding_square n (fun x => x ^ e mod n) Hn (pow_mult n e Hn)).
    rewrite Z.mul_mod_idemp_l, Z.mul_comm by lia. exact H.
  Qed.

  Lemma blind_pair_first u ui : (u * ui) mod n = 1 -> (ui ^ e mod n * u ^ e) mod n = 1.
  Proof.
    intros H. rewrite Z.mul_mod_idemp_l, <- Z.pow_mul_l, <- pow_mod_l, (Z.mul_comm ui), H, Z.pow_1_l by lia.
    apply Z.mod_small. lia.
  Qed.

  Hypothesis Hed : forall x, x ^ (e * d) mod n = x mod n.

  (* raise b * u^e = 1 to the power d *)
  Lemma blind_pair_unblinds b u : (b * u ^ e) mod n = 1 -> (b ^ d mod n * u) mod n = 1.
  Proof.
    intros H.
    rewrite Z.mul_mod_idemp_l, <- Z.mul_mod_idemp_r, <- (Hed u), Z.mul_mod_idemp_r, Z.pow_mul_r, <- Z.pow_mul_l by lia.
    rewrite <- pow_mod_l, H, Z.pow_1_l by lia. apply Z.mod_small. lia.
  Qed.

  Lemma blinded_pow b u m : (b * u ^ e) mod n = 1 -> (((m * b) mod n) ^ d mod n * u) mod n = m ^ d mod n.
  Proof.
    intros H. rewrite (blinded_op n (fun x => x ^ d mod n) Hn (pow_mult n d Hn) b u m (blind_pair_unblinds b u H)).
    apply Z.mod_mod. lia.
  Qed.
End PowBlinding.

(* what crt_shape_ok tests, one field per test *)
Set Implicit Arguments.
Record crt_shape (k : rsa_priv) : Prop := {
  shape_p : 1 < rk_p k;
  shape_q : 1 < rk_q k;
  shape_n : rk_n k = rk_p k * rk_q k;
  shape_qInv : (rk_q k * rk_qInv k) mod rk_p k = 1;
  shape_dP : 0 <= rk_dP k;
  shape_dQ : 0 <= rk_dQ k;
  shape_d : 0 <= rk_d k;
  shape_e : 0 <= rk_e k }.
Unset Implicit Arguments.

Section Key.
  Variable k : rsa_priv.
  Hypothesis Hshape : crt_shape_ok k = true.
  Hypothesis Hed : forall x, 0 <= x < rk_n k -> (x ^ rk_e k) ^ rk_d k mod rk_n k = x.
  Hypothesis HdP : forall x, 0 <= x < rk_p k -> x ^ rk_dP k mod rk_p k = x ^ rk_d k mod rk_p k.
  Hypothesis HdQ : forall x, 0 <= x < rk_q k -> x ^ rk_dQ k mod rk_q k = x ^ rk_d k mod rk_q k.

  Lemma shape_facts : crt_shape k.
  Proof.
    pose proof Hshape as H. unfold crt_shape_ok in H.
    rewrite !andb_true_iff, !Z.ltb_lt, !Z.leb_le, !Z.eqb_eq in H. split; tauto.
  Qed.

  Lemma n_pos : 1 < rk_n k.
  Proof.
    rewrite (shape_n shape_facts). pose proof (shape_p shape_facts). pose proof (shape_q shape_facts). nia.
  Qed.

  Lemma key_pos : 1 < rk_n k /\ 0 <= rk_d k /\ 0 <= rk_e k.
  Proof. exact (conj n_pos (conj (shape_d shape_facts) (shape_e shape_facts))). Qed.

  (* python_rsakey.py _rawPrivateKeyOpHelper computes m^d mod n *)
  Lemma crt_helper_correct m : raw_private_helper k m = m ^ rk_d k mod rk_n k.
  Proof.
    pose proof shape_facts as S. pose proof (shape_p S) as Hp. pose proof (shape_q S) as Hq.
    pose proof (shape_dP S). pose proof (shape_dQ S).
    unfold raw_private_helper.
    rewrite !powmod_spec by lia.
    rewrite (pow_eq_lift (rk_p k) _ _ ltac:(lia) HdP), (pow_eq_lift (rk_q k) _ _ ltac:(lia) HdQ), (shape_n S).
    apply garner; [exact Hp|exact Hq|exact (shape_qInv S)].
  Qed.

  Lemma rsa_pub_injective x y :
    0 <= x < rk_n k -> 0 <= y < rk_n k ->
    powmod x (rk_e k) (rk_n k) = powmod y (rk_e k) (rk_n k) -> x = y.
  Proof.
    intros Hx Hy E. destruct key_pos as (Hn & Hd0 & He0).
    rewrite !powmod_spec in E by lia.
    rewrite <- (Hed x Hx), <- (Hed y Hy).
    rewrite <- (pow_mod_l (x ^ rk_e k)), <- (pow_mod_l (y ^ rk_e k)) by lia. rewrite E. reflexivity.
  Qed.

  Definition blind_inv (b : blind) : Prop :=
    (bl_blinder b * bl_unblinder b ^ rk_e k) mod rk_n k = 1.

  Lemma ed_total x : x ^ (rk_e k * rk_d k) mod rk_n k = x mod rk_n k.
  Proof.
    destruct key_pos as (Hn & Hd0 & He0).
    rewrite Z.pow_mul_r, <- pow_mod_l, <- (pow_mod_l x), pow_mod_l by lia. apply Hed, Z.mod_pos_bound. lia.
  Qed.

  Lemma blind_update_inv b : blind_inv b -> blind_inv (blind_update k b).
  Proof. exact (blind_pair_square (rk_n k) (rk_e k) n_pos _ _). Qed.

  (* first use: unblinder u random, blinder = invMod(u, n)^e mod n, provided u is invertible *)
  Lemma blind_create_inv u ui : (u * ui) mod rk_n k = 1 -> blind_inv (blind_create k u ui).
  Proof.
    destruct key_pos as (Hn & _ & He0). intros H. unfold blind_inv, blind_create. cbn [bl_blinder bl_unblinder].
    rewrite powmod_spec by lia. exact (blind_pair_first (rk_n k) (rk_e k) Hn He0 u ui H).
  Qed.

  Lemma raw_private_op_correct b m :
    blind_inv b ->
    fst (raw_private_op k b m) = m ^ rk_d k mod rk_n k /\ blind_inv (snd (raw_private_op k b m)).
  Proof.
    intros Hb. split; [|apply blind_update_inv; exact Hb]. destruct key_pos as (Hn & Hd0 & He0).
    unfold raw_private_op. cbn [fst]. rewrite crt_helper_correct.
    exact (blinded_pow (rk_n k) (rk_e k) (rk_d k) Hn He0 Hd0 ed_total _ _ m Hb).
  Qed.

  (* so it is a right inverse of the public operation on [0, n): what sign-then-verify needs of a private operation
     (C10_Pkcs1P Section Sign, C10_PssP Section PssRsa); exponents commute, the signing direction of H-rsa-key *)
  Lemma raw_private_op_inverts b : blind_inv b -> forall x, 0 <= x < rk_n k ->
    0 <= fst (raw_private_op k b x) < rk_n k /\ powmod (fst (raw_private_op k b x)) (rk_e k) (rk_n k) = x.
  Proof.
    intros Hb x Hx. destruct key_pos as (Hn & Hd0 & He0). destruct (raw_private_op_correct b x Hb) as [-> _].
    split; [apply Z.mod_pos_bound; lia|].
    rewrite powmod_spec, pow_mod_l by lia.
    rewrite <- Z.pow_mul_r, Z.mul_comm, Z.pow_mul_r by lia. apply Hed. exact Hx.
  Qed.
End Key.

(* the hypotheses are satisfiable: a small real key *)
Definition toy_key : rsa_priv :=
  {| rk_n := 3233; rk_e := 17; rk_d := 2753; rk_p := 61; rk_q := 53; rk_dP := 53; rk_dQ := 49; rk_qInv := 38 |}.

Lemma toy_order_p : unit_order 61 60.
Proof. apply unit_order_check; [lia|lia|vm_compute; reflexivity]. Qed.

Lemma toy_order_q : unit_order 53 52.
Proof. apply unit_order_check; [lia|lia|vm_compute; reflexivity]. Qed.

(* what a thread computes from a blinder and an unblinder read separately is the locked operation on
   that pair: correct when the two satisfy the invariant, wrong when another thread's update falls
   between the two reads (Props/C10.v atomic_pair_read_is_necessary) *)
Lemma torn_is_op k b m : raw_private_op_torn k (bl_blinder b) (bl_unblinder b) m = fst (raw_private_op k b m).
Proof. reflexivity. Qed.
