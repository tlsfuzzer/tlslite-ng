(* The generated ct_check_cbc_mac_and_pad equals Spec.CbcCheck.well_formed.
   The monadic loops are total by index safety and become plain folds (check_norm); the result
   word is an OR of masked differences, zero iff every contribution is zero; a mask is 0 or 255,
   so a contribution vanishes iff its mask is off or the two bytes agree. *)
From Coq Require Import ZArith List Bool Lia.
From TV Require Import Base.Prelude Base.PreludeFacts Gen.ConstantTime Spec.CbcCheck Proofs.CtOps.
From TV Require Import Proofs.C12_Lemmas.
Import ListNotations.
Open Scope Z_scope.

Section Check.
Variables (data : list Z) (mac : HMac) (seq : list Z) (ty : Z) (ver : Z*Z) (bs : Z).
Hypothesis Hver : In ver [(3,0);(3,1);(3,2);(3,3)].
Hypothesis Hdata : all_bytes data = true.
Hypothesis Hlen : zlen data < 65536.
Hypothesis Hty : byte ty.
Hypothesis Hmbs : 0 < mac_bs mac.
Hypothesis Hmac : forall m, zlen (mac_fn mac m) = mac_ds mac /\ all_bytes (mac_fn mac m) = true.
Hypothesis Hbs : u32 bs.

Let n := zlen data.
Let ds := mac_ds mac.
Let p := nthZ data (n - 1).
Let ps := Z.max 0 (n - p - 1).
Let ms := Z.max 0 (ps - ds).
Let sp := Z.max 0 (n - (256 + ds)) / mac_bs mac * mac_bs mac.
Let r0 := Z.lor 0 (ct_lsb_prop_u8 (ct_lt_u32 n (p + 1 + ds))).
Let vb := if is_ssl3 ver then [] else [fst ver; snd ver].

(* what position i of the scanned window adds to the result word *)
Definition pad_term (i : Z) : Z := Z.land (Z.lxor (nthZ data i) p) (ct_lsb_prop_u8 (ct_le_u32 ps i)).

Definition padR : Z :=
  if is_ssl3 ver then Z.lor r0 (ct_lsb_prop_u8 (ct_lt_u32 bs p))
  else fold_left (fun r i => Z.lor r (pad_term i)) (zrange (Z.max 0 (n - 256)) n) r0.

Definition dig (i : Z) : list Z :=
  mac_fn mac (mac_acc mac ++ seq ++ [ty] ++ vb ++ [Z.shiftr ms 8] ++ [Z.land ms 255]
              ++ py_slice data None (Some sp) ++ py_slice data (Some sp) (Some i)).

(* what byte j of the candidate MAC position i adds to the result word *)
Definition mac_term (i j : Z) : Z :=
  Z.land (Z.lxor (nthZ data (i + j)) (nthZ (dig i) j)) (ct_lsb_prop_u8 (ct_eq_u32 i ms)).

Definition macR : Z :=
  fold_left (fun r i => fold_left (fun r j => Z.lor r (mac_term i j)) (zrange 0 ds) r)
    (zrange sp (n - ds)) padR.

Lemma ds_nonneg : 0 <= ds.
Proof. destruct (Hmac []) as [H _]. unfold ds, zlen in *. lia. Qed.

Lemma p_byte : byte p.
Proof. apply all_bytes_nth, Hdata. Qed.

Lemma sp_bounds : 0 <= sp <= Z.max 0 (n - (256 + ds)).
Proof.
  unfold sp. set (x := Z.max 0 (n - (256 + ds))). assert (0 <= x) by lia.
  pose proof (Z.mul_div_le x (mac_bs mac) Hmbs).
  pose proof (Z.div_pos x (mac_bs mac) H Hmbs). nia.
Qed.

Lemma ms_bounds : ds + 1 <= n -> 0 <= ms < n - ds /\ Z.max 0 (n - (256 + ds)) <= ms.
Proof.
  intros H. pose proof p_byte as Hp. pose proof ds_nonneg. unfold byte in Hp. unfold ms, ps. lia.
Qed.

Lemma dig_len i : zlen (dig i) = ds.
Proof. apply Hmac. Qed.

Lemma version_ok : existsb (pairZ_eqb ver) [(3, 0); (3, 1); (3, 2); (3, 3)] = true.
Proof. apply existsb_exists. exists ver. split; [exact Hver|]. apply pairZ_eqb_spec. reflexivity. Qed.

Lemma check_norm :
  ct_check_cbc_mac_and_pad data mac seq ty ver bs = Ok (if n <? ds + 1 then false else macR =? 0).
Proof.
  unfold ct_check_cbc_mac_and_pad. rewrite version_ok. cbv zeta. fold n ds.
  rewrite Z.gtb_ltb. destruct (Z.ltb_spec n (ds + 1)) as [|Hn]; [reflexivity|].
  pose proof ds_nonneg as Hds. pose proof p_byte as Hp.
  pose proof sp_bounds as Hsp. pose proof (ms_bounds Hn) as Hms.
  rewrite py_index_ok by (fold n; lia). cbn [bind]. fold p. fold ps. fold ms. fold r0.
  match goal with |- bind ?m _ = _ => assert (Hpad : m = Ok padR) end.
  { unfold padR, is_ssl3. destruct (pairZ_eqb ver (3, 0)); [reflexivity|].
    rewrite (foldM_ok_ext _ (fun r i => Z.lor r (pad_term i))).
    - reflexivity.
    - intros a x Hx. apply in_zrange in Hx. rewrite py_index_ok by (fold n; lia). reflexivity. }
  rewrite Hpad. cbn [bind].
  rewrite py_div_ok by lia. cbn [bind]. fold sp.
  rewrite (mk_byte_ok ty Hty). cbn [bind].
  match goal with |- bind ?m _ = _ => assert (Hhdr : m = Ok (mac_update (mac_update (mac_update mac seq) [ty]) vb)) end.
  { unfold vb, is_ssl3.
    destruct Hver as [<-|[<-|[<-|[<-|[]]]]]; cbn; unfold mac_update; cbn;
      rewrite <- ?app_assoc; cbn; rewrite ?app_nil_r; reflexivity. }
  rewrite Hhdr. cbn [bind].
  rewrite (mk_byte_ok (Z.shiftr ms 8)).
  2:{ rewrite Z.shiftr_div_pow2 by lia. split; [apply Z.div_pos; lia|apply Z.div_lt_upper_bound; lia]. }
  cbn [bind].
  rewrite (mk_byte_ok (Z.land ms 255)).
  2:{ rewrite land_255. apply Z.mod_pos_bound. lia. }
  cbn [bind].
  rewrite (foldM_ok_ext _ (fun r i => fold_left (fun r j => Z.lor r (mac_term i j)) (zrange 0 ds) r)).
  - reflexivity.
  - intros a i Hi. apply in_zrange in Hi.
    rewrite (foldM_ok_ext _ (fun r j => Z.lor r (mac_term i j))).
    + reflexivity.
    + intros b j Hj. apply in_zrange in Hj.
      rewrite py_index_ok by (fold n; lia). cbn [bind].
      match goal with |- context [mac_digest ?m] => assert (Hd : mac_digest m = dig i) end.
      { unfold dig, mac_digest, mac_update. cbn [mac_fn mac_acc]. rewrite <- !app_assoc. reflexivity. }
      rewrite Hd.
      rewrite py_index_ok by (rewrite dig_len; lia).
      reflexivity.
Qed.

Lemma lor_mask_zero x (c : bool) : byte x ->
  (Z.land x (ct_lsb_prop_u8 (if c then 1 else 0)) = 0 <-> (c = true -> x = 0)).
Proof.
  intros Hx. change (if c then 1 else 0) with (Z.b2z c). rewrite ct_lsb_prop_u8_b2z. destruct c.
  - rewrite land_255, Z.mod_small by exact Hx. split; [intros H _; exact H|intros H; apply H; reflexivity].
  - rewrite Z.land_0_r. split; [intros _ H; discriminate|reflexivity].
Qed.

Lemma xor_mask_zero a b (c : bool) : byte a -> byte b ->
  (Z.land (Z.lxor a b) (ct_lsb_prop_u8 (Z.b2z c)) = 0 <-> (c = true -> a = b)).
Proof.
  intros Ha Hb. unfold Z.b2z. rewrite (lor_mask_zero _ c (lxor_byte a b Ha Hb)), Z.lxor_eq_0_iff.
  reflexivity.
Qed.

Lemma mac_term_zero i j : 0 <= i < n ->
  (mac_term i j = 0 <-> (i = ms -> nthZ data (i + j) = nthZ (dig i) j)).
Proof.
  intros Hi. pose proof p_byte as Hp. pose proof ds_nonneg. unfold byte in Hp. unfold mac_term.
  rewrite ct_eq_u32_spec by (unfold u32, ms, ps; fold n in Hlen; lia).
  rewrite xor_mask_zero, Z.eqb_eq by (apply all_bytes_nth; exact Hdata || apply Hmac). reflexivity.
Qed.

Lemma pad_term_zero i : 0 <= i < n ->
  (pad_term i = 0 <-> (ps <= i -> nthZ data i = p)).
Proof.
  intros Hi. pose proof p_byte as Hp. unfold byte in Hp. unfold pad_term.
  rewrite ct_le_u32_spec by (unfold u32, ps; fold n in Hlen; lia).
  rewrite xor_mask_zero, Z.leb_le by (exact Hp || apply all_bytes_nth, Hdata). reflexivity.
Qed.

Lemma macR_zero_iff : ds + 1 <= n ->
  (macR = 0 <-> padR = 0 /\ forall j, 0 <= j < ds -> nthZ data (ms + j) = nthZ (dig ms) j).
Proof.
  intros Hn. pose proof ds_nonneg as Hds. pose proof (ms_bounds Hn) as Hms. pose proof sp_bounds as Hsp.
  unfold macR.
  rewrite (fold_zero_iff _ (fun i => forall j, In j (zrange 0 ds) -> mac_term i j = 0))
    by (intros r i; apply (fold_zero_iff _ (fun j => mac_term i j = 0)); intros; apply Z.lor_eq_0_iff).
  split; intros [H1 H2]; (split; [exact H1|]).
  - intros j Hj. apply (mac_term_zero ms j); [lia| |reflexivity]. apply H2; apply in_zrange; lia.
  - intros i Hi j Hj. apply in_zrange in Hi, Hj. apply mac_term_zero; [lia|]. intros ->. apply H2, Hj.
Qed.

Definition pad_spec : bool :=
  if is_ssl3 ver then p <=? bs
  else forallb (fun i => nthZ data i =? p) (zrange (n - 1 - p) (n - 1)).

Lemma padR_zero_iff : ds + 1 <= n -> (padR = 0 <-> p + 1 + ds <= n /\ pad_spec = true).
Proof.
  intros Hn. pose proof p_byte as Hp. pose proof ds_nonneg as Hds. unfold byte in Hp.
  (* the first contribution: MAC, padding and its length byte fit *)
  assert (Hr0 : r0 = 0 <-> p + 1 + ds <= n).
  { unfold r0. rewrite Z.lor_0_l, ct_lt_u32_spec, mask8_zero by (unfold u32; lia). apply Z.ltb_ge. }
  unfold padR, pad_spec. destruct (is_ssl3 ver).
  - rewrite Z.lor_eq_0_iff, Hr0, ct_lt_u32_spec, mask8_zero, Z.ltb_ge, Z.leb_le by (unfold u32 in *; lia). reflexivity.
  - rewrite (fold_zero_iff _ (fun i => pad_term i = 0)), Hr0 by (intros; apply Z.lor_eq_0_iff).
    split; intros [H1 H2]; (split; [exact H1|]).
    + apply forallb_forall. intros i Hi. apply in_zrange in Hi. apply Z.eqb_eq.
      apply pad_term_zero; [lia| |unfold ps; lia]. apply H2. apply in_zrange. lia.
    + rewrite forallb_forall in H2. intros i Hi. apply in_zrange in Hi.
      apply pad_term_zero; [lia|]. unfold ps. intros E.
      destruct (Z.eq_dec i (n - 1)) as [->|Hne]; [reflexivity|].
      apply Z.eqb_eq. apply H2. apply in_zrange. lia.
Qed.

Theorem check_eq_spec_sec :
  ct_check_cbc_mac_and_pad data mac seq ty ver bs = Ok (well_formed ver bs mac seq ty data).
Proof.
  rewrite check_norm. f_equal. unfold well_formed. cbv zeta. fold n ds p.
  destruct (Z.ltb_spec n (ds + 1)) as [|Hn]; [reflexivity|].
  pose proof (macR_zero_iff Hn) as HM. pose proof (padR_zero_iff Hn) as HP.
  destruct (Z.ltb_spec n (p + 1 + ds)) as [Hov|Hfit].
  - (* MAC and padding overlap *)
    apply Z.eqb_neq. intros H0. apply HM in H0. destruct H0 as [H0 _]. apply HP in H0. lia.
  - pose proof p_byte as Hp. pose proof sp_bounds as Hsp. pose proof ds_nonneg as Hds. unfold byte in Hp.
    replace (n - p - 1 - ds) with ms by (unfold ms, ps; lia).
    replace (mac_fn mac (mac_acc mac ++ mac_header seq ty ver ms ++ firstn (Z.to_nat ms) data)) with (dig ms).
    2:{ unfold dig. rewrite (slices_join data sp ms) by (unfold ms, ps; lia).
        rewrite Z.shiftr_div_pow2, land_255 by lia. unfold mac_header. fold vb.
        rewrite <- !app_assoc. reflexivity. }
    fold pad_spec. apply Bool.eq_iff_eq_true.
    rewrite Z.eqb_eq, andb_true_iff, list_eqb_spec, HM, HP.
    rewrite (window_eq_pointwise data (dig ms) ms ds) by (try apply dig_len; unfold ms, ps; fold n; lia).
    tauto.
Qed.
End Check.
