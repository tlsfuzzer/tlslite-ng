(* RSA blinding under concurrency: the squaring update preserves
   blinder * unblinder^e = 1 (mod n), and every call returns m^d mod n in every interleaving.
   The concurrent statement is Proofs.C18_Lin.object_invariant for the key as an object whose one
   operation is a whole call (rsa_mstep); what is shown here is that operation alone (rsa_mstep_ok),
   with the arithmetic of blinding taken from C10_MathP (Section PowBlinding). *)
From Coq Require Import ZArith List Lia.
From TV Require Import Proofs.C10_MathP.
From TV Require Import Model.C18_Conc Model.C18_Rsa Proofs.C18_Lin.
Import ListNotations.
Open Scope Z_scope.

Section RsaProofs.
  Variables n e d : Z.
  Variable invmod : Z -> Z.
  Variable helper : Z -> Z.
  (* key validity (H-rsa-key): the user's key is a working RSA key *)
  Hypothesis Hn : 1 < n.
  Hypothesis He : 0 <= e.
  Hypothesis Hd : 0 <= d.
  Hypothesis Hhelper : forall x, 0 <= x < n -> helper x = (x ^ d) mod n.
  Hypothesis Hed : forall x, (x ^ (e * d)) mod n = x mod n.

  (* the random unblinder drawn on the first pass is invertible mod n and invMod finds the inverse *)
  Definition unit_ok (r : Z) : Prop := (invmod r * r) mod n = 1.

  Notation binv := (binv n e).
  Notation pair_ok := (pair_ok n e).
  Notation rsa_prog := (rsa_prog n e invmod helper).

  Lemma binv_nonzero b u : binv b u -> b <> 0.
  Proof.
    unfold binv. intros H E. subst b. rewrite Z.mul_0_l, Z.mod_0_l in H by lia. discriminate.
  Qed.

  Lemma unblind_correct b u m : binv b u ->
    (helper ((m * b) mod n) * u) mod n = (m ^ d) mod n.
  Proof.
    intros H. rewrite Hhelper by (apply Z.mod_pos_bound; lia). exact (blinded_pow n e d Hn He Hd Hed b u m H).
  Qed.

  (* the pair a call works with: the stored one, or the one it creates on the first pass *)
  Definition used_u (st : store Z) (rnd : Z) : Z := if st v_blinder =? 0 then rnd else st v_unblinder.
  Definition used_b (st : store Z) (rnd : Z) : Z :=
    if st v_blinder =? 0 then powmod n (invmod (used_u st rnd)) e else st v_blinder.

  Lemma used_pair_ok st rnd : pair_ok st -> unit_ok rnd -> binv (used_b st rnd) (used_u st rnd).
  Proof.
    unfold used_b, used_u. intros [Hz|Hb] Hu.
    - rewrite Hz. apply (blind_pair_first n e Hn He). rewrite Z.mul_comm. exact Hu.
    - rewrite (proj2 (Z.eqb_neq _ _) (binv_nonzero _ _ Hb)). exact Hb.
  Qed.

  Definition rsa_mstep (st : store Z) (mr : Z * Z) : store Z * Z :=
    let r := run_all st (rlo_init (fst mr) (snd mr)) rsa_prog in (fst r, l_c (snd r)).

  (* the fourteen steps of rsa_prog, run *)
  Lemma rsa_mstep_eq (st : store Z) m rnd :
    fst (rsa_mstep st (m, rnd)) v_blinder = (used_b st rnd * used_b st rnd) mod n /\
    fst (rsa_mstep st (m, rnd)) v_unblinder = (used_u st rnd * used_u st rnd) mod n /\
    snd (rsa_mstep st (m, rnd)) = (helper ((m * used_b st rnd) mod n) * used_u st rnd) mod n.
  Proof. split; [|split]; reflexivity. Qed.

  Lemma rsa_mstep_ok (st : store Z) mr : pair_ok st -> unit_ok (snd mr) ->
    pair_ok (fst (rsa_mstep st mr)) /\ snd (rsa_mstep st mr) = (fst mr ^ d) mod n.
  Proof.
    destruct mr as [m rnd]. intros Hp Hu. pose proof (used_pair_ok st rnd Hp Hu) as Hb.
    destruct (rsa_mstep_eq st m rnd) as (Eb & Eu & Ec). unfold Model.C18_Rsa.pair_ok. rewrite Eb, Eu, Ec.
    split; [right; exact (blind_pair_square n e Hn _ _ Hb)|apply unblind_correct; exact Hb].
  Qed.

  Lemma concurrent_private_ops_correct_all : forall calls b0 u0 sched cf,
    (b0 = 0 \/ binv b0 u0) ->
    (forall mr, In mr calls -> unit_ok (snd mr)) ->
    run_sched (rsa_config n e invmod helper b0 u0 calls) sched = Some cf -> terminal cf ->
    Forall2 (fun mr t => l_c (t_lo t) = (fst mr ^ d) mod n) calls (g_threads cf) /\
    pair_ok (g_store cf).
  Proof.
    intros calls b0 u0 sched cf H0 Hu Hrun Hterm. apply and_comm.
    (* rsa_config .. calls is the obj_config of these arguments, by unfolding *)
    apply object_invariant with (mstep := rsa_mstep) (sem := fun _ => rsa_prog) (absS := fun st => st)
      (res := fun lo => Some (l_c lo)) (lo_of := fun mr => rlo_init (fst mr) (snd mr))
      (I := pair_ok) (Post := fun mr c => c = (fst mr ^ d) mod n)
      (st0 := fun x => if x =? v_blinder then b0 else u0) (sched := sched).
    - (* rsa_prog keeps the lock discipline *) reflexivity.
    - (* ... with one critical section *) intros. apply le_n.
    - (* ... and is not empty *) discriminate.
    - (* a call alone is rsa_mstep, by definition *) intros. split; reflexivity.
    - intros st mr Hin Hp. exact (rsa_mstep_ok st mr Hp (Hu mr Hin)).
    - exact H0.
    - exact Hrun.
    - exact Hterm.
  Qed.
End RsaProofs.

(* the hypotheses are satisfiable: a small real key *)
Lemma order_mod_11 : unit_order 11 10.
Proof. apply unit_order_check; [lia|lia|vm_compute; reflexivity]. Qed.

Lemma order_mod_23 : unit_order 23 22.
Proof. apply unit_order_check; [lia|lia|vm_compute; reflexivity]. Qed.

(* dP = 7 = d modulo 10, dQ = 15 = d modulo 22, qInv = 1 *)
Lemma toy_key_helper : forall x, 0 <= x < toy_n -> toy_helper x = (x ^ toy_d) mod toy_n.
Proof.
  intros x _. unfold toy_helper, toy_d, toy_n. cbv zeta.
  rewrite (pow_exp_congr 11 10 7 37 x), (pow_exp_congr 23 22 15 37 x)
    by (try lia; try reflexivity; auto using order_mod_11, order_mod_23).
  apply (garner 11 23 1); [lia|lia|reflexivity].
Qed.

(* e * d = 111 = 1 modulo 10 and modulo 22 *)
Lemma toy_key_ed : forall x, (x ^ (toy_e * toy_d)) mod toy_n = x mod toy_n.
Proof.
  intros x. apply (rsa_exponent_cancels 11 23 10 22); try lia; try reflexivity.
  - apply rel_prime_of_inverse with 1; [lia|reflexivity].
  - exact order_mod_11.
  - exact order_mod_23.
Qed.

(* r^109 itself has some 700 bits; powmod reduces at every squaring *)
Lemma toy_invmod_powmod r : toy_invmod r = C10_RsaMath.powmod r 109 253.
Proof. symmetry. apply powmod_spec; lia. Qed.

Lemma toy_units : forallb (fun r => (toy_invmod r * r) mod toy_n =? 1) [2; 3; 100; 252] = true.
Proof.
  cbn [forallb].
  rewrite (toy_invmod_powmod 2), (toy_invmod_powmod 3), (toy_invmod_powmod 100), (toy_invmod_powmod 252).
  vm_compute. reflexivity.
Qed.
