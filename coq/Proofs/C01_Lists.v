(* Facts about the list helpers of Model/C01_RecordPipe.v. *)
From Coq Require Import ZArith List Lia.
From TV Require Import Base.Prelude Base.PreludeFacts Base.Bytes Model.C01_RecordPipe.
Import ListNotations.
Open Scope Z_scope.

Lemma zlen_zeros n : 0 <= n -> zlen (zeros n) = n.
Proof. intros H. unfold zeros. rewrite zlen_repeat. lia. Qed.

Lemma zlen_rev {A} (l : list A) : zlen (rev l) = zlen l.
Proof. unfold zlen. rewrite rev_length. reflexivity. Qed.

Lemma ztake_zdrop {A} n (l : list A) : ztake n l ++ zdrop n l = l.
Proof. apply firstn_skipn. Qed.

Lemma ztake_app_exact {A} n (a b : list A) : n = zlen a -> ztake n (a ++ b) = a.
Proof. intros ->. apply firstn_zlen_app. Qed.

Lemma zdrop_app_exact {A} n (a b : list A) : n = zlen a -> zdrop n (a ++ b) = b.
Proof. intros ->. apply skipn_zlen_app. Qed.

Lemma zlen_ztake_eq {A} n (l : list A) : zlen (ztake n l) = Z.max 0 (Z.min n (zlen l)).
Proof. unfold ztake, zlen. rewrite firstn_length. lia. Qed.

Lemma zlen_ztake {A} n (l : list A) : 0 <= n <= zlen l -> zlen (ztake n l) = n.
Proof. intros H. rewrite zlen_ztake_eq. lia. Qed.

Lemma zlen_zdrop {A} n (l : list A) : 0 <= n <= zlen l -> zlen (zdrop n l) = zlen l - n.
Proof. apply skipn_zlen. Qed.

Lemma ztake_all {A} n (l : list A) : zlen l <= n -> ztake n l = l.
Proof. intros H. unfold ztake, zlen in *. apply firstn_all2. lia. Qed.

Lemma zdrop_all {A} n (l : list A) : zlen l <= n -> zdrop n l = [].
Proof. intros H. unfold zdrop, zlen in *. apply skipn_all2. lia. Qed.

Lemma ztake_0 {A} (l : list A) : ztake 0 l = [].
Proof. reflexivity. Qed.

Lemma zdrop_0 {A} (l : list A) : zdrop 0 l = l.
Proof. reflexivity. Qed.

Lemma last_byte_snoc (a : list Z) x : last_byte (a ++ [x]) = x.
Proof.
  unfold last_byte. rewrite nthZ_app_r by (rewrite zlen_app, zlen_cons, zlen_nil; lia).
  rewrite zlen_app, zlen_cons, zlen_nil. replace (zlen a + (1 + 0) - 1 - zlen a) with 0 by lia. reflexivity.
Qed.

Lemma last_byte_app (a b : list Z) : b <> [] -> last_byte (a ++ b) = last_byte b.
Proof.
  intros Hb. destruct (exists_last Hb) as [b' [x ->]].
  rewrite app_assoc, !last_byte_snoc. reflexivity.
Qed.

(* Writer.add's encoding is the shared one: the lemmas of Base/Bytes.v about be apply to it as they stand *)
Lemma be_bytes_is_be : be_bytes = be.
Proof. reflexivity. Qed.

(* simpl and cbn would print the sequence number of next_seq_ok as eight nested quotients *)
Arguments be_bytes : simpl never.

Lemma be_bytes_bytes k n : all_bytes (be_bytes k n) = true.
Proof. exact (be_all_bytes k n). Qed.
