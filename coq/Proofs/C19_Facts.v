(* C19 -- what the check functions of validate() decide, as equations on is_ok, and the exception classes
   they can raise *)
From Coq Require Import ZArith List Bool.
From TV Require Import Base.Prelude Model.C19_Settings Spec.C19_Domain Proofs.C19_Frame.
Import ListNotations.
Open Scope Z_scope.

Lemma filter_idem {A} (p : A -> bool) l : filter p (filter p l) = filter p l.
Proof. rewrite filter_filter. apply filter_ext. intros a. destruct (p a); reflexivity. Qed.

Lemma forallb_filter_imp {A} (p q : A -> bool) l : (forall x, q x = true -> p x = true) -> forallb p (filter q l) = true.
Proof.
  intros Hpq. induction l as [|x xs IH]; cbn [filter forallb]; auto.
  destruct (q x) eqn:E; cbn [forallb]; [rewrite (Hpq x E)|]; auto.
Qed.

Lemma forallb_filter_self {A} (q : A -> bool) l : forallb q (filter q l) = true.
Proof. apply forallb_filter_imp. auto. Qed.

Lemma forallb_filter {A} (f g : A -> bool) l : forallb f l = true -> forallb f (filter g l) = true.
Proof.
  rewrite !forallb_forall. intros H x Hx. apply filter_In in Hx. apply H, Hx.
Qed.

Lemma forallb_ext {A} (p q : A -> bool) l : (forall x, p x = q x) -> forallb p l = forallb q l.
Proof. intros E. induction l as [|x xs IH]; cbn [forallb]; [reflexivity|]. rewrite E, IH. reflexivity. Qed.

Lemma forallb_andb {A} (p q : A -> bool) l : forallb (fun x => p x && q x) l = forallb p l && forallb q l.
Proof.
  induction l as [|x xs IH]; cbn [forallb]; [reflexivity|]. rewrite IH.
  destruct (p x), (q x), (forallb p xs); reflexivity.
Qed.

Lemma negb_existsb {A} (p : A -> bool) l : negb (existsb p l) = forallb (fun x => negb (p x)) l.
Proof. induction l as [|x xs IH]; cbn [existsb forallb]; [reflexivity|]. rewrite negb_orb, IH. reflexivity. Qed.

(* `if [x for x in l if not p(x)]: raise` *)
Lemma isnil_filter_negb {A} (p : A -> bool) l : isnil (filter (fun x => negb (p x)) l) = forallb p l.
Proof. induction l as [|x xs IH]; cbn [filter forallb]; [reflexivity|]. destruct (p x); [exact IH|reflexivity]. Qed.

Lemma nonempty_filter {A} (p : A -> bool) l :
  negb (isnil (filter p l)) = negb (isnil l) && negb (isnil (filter p l)).
Proof. destruct l; reflexivity. Qed.

(* what the checks decide: is_ok is a homomorphism from check chains to conjunctions *)
Lemma is_ok_then {A B} (m : res A) (k : res B) : is_ok (_ <- m ;; k) = is_ok m && is_ok k.
Proof. destruct m; reflexivity. Qed.

Lemma then_Ok {A B} (m : res A) (k : res B) y : (_ <- m ;; k) = Ok y -> k = Ok y.
Proof. destruct m; [auto|discriminate]. Qed.

Lemma is_ok_guard b : is_ok (guard b) = negb b.
Proof. destruct b; reflexivity. Qed.

Lemma is_ok_if {B} (b : bool) (m1 m2 : res B) : is_ok (if b then m1 else m2) = if b then is_ok m1 else is_ok m2.
Proof. destruct b; reflexivity. Qed.

Lemma is_ok_known l t : is_ok (all_known l t) = sub_tab l t.
Proof. unfold all_known, not_matching. rewrite is_ok_guard, negb_involutive. apply isnil_filter_negb. Qed.

Lemma is_ok_compression l t : is_ok (compression_check l t) = sub_tab l t.
Proof. unfold compression_check. destruct l; [reflexivity|apply is_ok_known]. Qed.

Lemma is_ok_vhosts l :
  is_ok (forM_ vhost_validate l) =
  forallb (fun x => match x with
                    | VHost keys => negb (isnil keys) && forallb (fun k => fst k && snd k) keys
                    | _ => false end) l.
Proof.
  induction l as [|x xs IH]; cbn [forM_ forallb]; [reflexivity|]. rewrite is_ok_then, IH. f_equal.
  destruct x; try reflexivity. cbn [vhost_validate]. rewrite is_ok_then, !is_ok_guard, negb_existsb. f_equal.
  apply forallb_ext. intros k. rewrite negb_orb, !negb_involutive. reflexivity.
Qed.

(* `if any(len(i) not in sieve for i in values): raise` *)
Lemma is_ok_len {B} l ns (k : res B) :
  is_ok (bad <- not_allowed_len l ns ;; _ <- guard bad ;; k) = forallb (fun x => has_len_in x ns) l && is_ok k.
Proof.
  induction l as [|x xs IH]; cbn [not_allowed_len forallb]; [reflexivity|].
  unfold has_len_in at 1. destruct (py_len x) as [n|]; cbn [bind]; [|reflexivity].
  destruct (existsb (Z.eqb n) ns); [exact IH|reflexivity].
Qed.

(* the clipping of `versions`: a list of 2-tuples is filtered, anything else raises TypeError *)
Definition pair_in_range (lo hi : Z * Z) (x : val) : bool :=
  match x with VPair a b => in_range lo hi a b | _ => false end.

Lemma filter_range_eq lo hi l :
  filter_range lo hi l = if forallb is_pair l then Ok (filter (pair_in_range lo hi) l) else Err TypeError.
Proof.
  induction l as [|x xs IH]; [reflexivity|]. destruct x; try reflexivity.
  cbn [filter_range forallb is_pair andb filter pair_in_range]. rewrite IH.
  destruct (forallb is_pair xs); [|reflexivity]. cbn [bind]. destruct (in_range lo hi a b); reflexivity.
Qed.

Lemma is_ok_filter_range lo hi l : is_ok (filter_range lo hi l) = forallb is_pair l.
Proof. rewrite filter_range_eq. destruct (forallb is_pair l); reflexivity. Qed.

Global Hint Rewrite @is_ok_len @is_ok_then is_ok_guard @is_ok_if is_ok_known is_ok_compression is_ok_vhosts : c19_ok.

(* H : a && b && ... = true becomes one hypothesis per conjunct *)
Ltac split_andb :=
  repeat match goal with H : _ && _ = true |- _ => apply andb_prop in H; destruct H end.

(* the two sides of the goal are conjunctions of the same atoms, in any order and bracketing; `autorewrite with c19_ok`
   leaves the conjuncts in the order and bracketing of the checks: close with `same_atoms` *)
Ltac same_atoms :=
  rewrite ?andb_true_r; apply eq_true_iff_eq; split; intros ?; split_andb; repeat (apply andb_true_intro; split); assumption.

Definition only_VE {A} (m : res A) : Prop := forall e, m = Err e -> e = ValueError.

Lemma only_ok {A} (x : A) : only_VE (Ok x).
Proof. intros e H. discriminate H. Qed.
Lemma only_guard b : only_VE (guard b).
Proof. intros e H. apply guard_err in H. apply H. Qed.
Lemma only_known l t : only_VE (all_known l t).
Proof. apply only_guard. Qed.
Lemma only_bind {A B} (m : res A) (f : A -> res B) : only_VE m -> (forall x, only_VE (f x)) -> only_VE (bind m f).
Proof. intros Hm Hf e H. destruct m as [x|e']; cbn [bind] in H; [apply (Hf x e H)|injection H as <-; apply Hm; reflexivity]. Qed.
Lemma only_if {A} (b : bool) (m1 m2 : res A) : only_VE m1 -> only_VE m2 -> only_VE (if b then m1 else m2).
Proof. destruct b; auto. Qed.
Lemma only_compression l t : only_VE (compression_check l t).
Proof. unfold compression_check. apply only_if; [apply only_ok|apply only_known]. Qed.
Lemma only_vhosts l : forallb is_host l = true -> only_VE (forM_ vhost_validate l).
Proof.
  induction l as [|x xs IH]; cbn [forallb forM_]; [intros _; apply only_ok|].
  intros H. apply andb_true_iff in H. destruct H as [H1 H2]. apply only_bind; [|intros _; apply IH; exact H2].
  destruct x; try discriminate H1. cbn [vhost_validate]. apply only_bind; [apply only_guard|intros _; apply only_guard].
Qed.
Lemma only_len (p : val -> bool) l ns :
  (forall x, p x = true -> is_ok (py_len x) = true) -> forallb p l = true -> only_VE (not_allowed_len l ns).
Proof.
  intros Hp. induction l as [|x xs IH]; cbn [forallb not_allowed_len]; [intros _; apply only_ok|].
  intros H. apply andb_true_iff in H. destruct H as [H1 H2]. apply Hp in H1.
  destruct (py_len x); [|discriminate H1]. cbn [bind]. apply only_if; [apply only_ok|apply IH; exact H2].
Qed.
Lemma only_filter_range lo hi l : forallb is_pair l = true -> only_VE (filter_range lo hi l).
Proof. intros H e E. rewrite <- (is_ok_filter_range lo hi), E in H. discriminate H. Qed.
