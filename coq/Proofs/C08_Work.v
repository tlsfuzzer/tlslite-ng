(* C08 (work / allocation part): proofs about Model/C08_Work.v.

   A parser step p : list Z -> PR A is  step P d cs ks ca ka  when, on every byte string bs,
     - if it succeeds with value v and remaining input rest, it consumed c = |bs|-|rest| >= d
       bytes, used <= cs*c + ks steps, allocated <= ca*c + ka, and P v c (the range of an
       integer read, the number of elements of a loop; `any` where there is nothing to say);
     - if it fails, the error is not OutOfFuel and steps <= cs*|bs| + ks,
       alloc <= ca*|bs| + ka.
   A function of a whole input f : list Z -> M A is  top cs ks ca ka  (Model) when it has the
   second kind of bound on every outcome: costs S C m  says that of one computation m, and
   top cs ks ca ka f  is  costs (cs*|bs| + ks) (ca*|bs| + ka) (f bs)  at every input bs.
   There is one lemma per primitive and one per way of combining parsers (sequence, loop,
   sub-parser on a copied payload, cost-free finish); where the cost of what follows depends on
   the value parsed (one step per extension for the duplicate test, one walk per child, the
   payload handed to a sub-parser) the rule is costs_bind; where it needs only a fact about that
   value (the range of a length field: getVarList's pre-allocation, the declared length of a
   compressed certificate) it is the P of the first step in step_bind / top_bind.
   The bound of a composed parser is computed from the bounds of its parts (slopes by
   Z.max, constants by +) and compared with the stated one once, by step_le / top_le.
   A loop is a step provided its body consumes at least one byte (d >= 1): this is the "every
   iteration strictly consumes input" argument, and it is what makes the fuel |bs|+1
   sufficient. *)
From Coq Require Import ZArith List Bool Lia.
From TV Require Import Base.Prelude Base.PreludeFacts Base.Bytes Model.C08_Work.
Import ListNotations.
Open Scope Z_scope.

(* closes the (in)equalities that the constructors of run_bound and the definition of top ask for; fin is lia,
   or nia where a slope is multiplied by a length *)
Ltac bounds fin := repeat split; try assumption; try discriminate; try congruence; fin.
(* compares the computed constants of a composition with the stated ones (closed numerals) *)
Ltac computed := vm_compute; repeat split; discriminate.

Lemma bytes_ok_app a b : bytes_ok a -> bytes_ok b -> bytes_ok (a ++ b).
Proof. unfold bytes_ok. intros. apply Forall_app. split; assumption. Qed.

Lemma be_int_range l : bytes_ok l -> 0 <= be_int l < 256 ^ zlen l.
Proof. intros H. apply (num_range l), all_bytes_Forall, H. Qed.

Lemma mbind_ok {A B} (x : A) s a (f : A -> M B) :
  mbind (Ok x, s, a) f = (fst (fst (f x)), s + snd (fst (f x)), a + snd (f x)).
Proof. unfold mbind. destruct (f x) as [[r s'] a']. reflexivity. Qed.
Lemma mbind_err {A B} e s a (f : A -> M B) : mbind (Err e, s, a) f = (Err e, s, a).
Proof. reflexivity. Qed.

Lemma mbind_out_ok {A B} (m : M A) (f : A -> M B) y :
  m_out (mbind m f) = Ok y -> exists x, m_out m = Ok x /\ m_out (f x) = Ok y.
Proof.
  destruct m as [[[x|e] s] a]; [rewrite mbind_ok|discriminate]. intros H. exists x. split; [reflexivity|exact H].
Qed.

Definition costs {A} (S C : Z) (m : M A) : Prop :=
  m_out m <> Err OutOfFuel /\ 0 <= m_steps m <= S /\ 0 <= m_alloc m <= C.

Lemma costs_le {A} S C S' C' (m : M A) : costs S C m -> S <= S' /\ C <= C' -> costs S' C' m.
Proof. intros (? & ? & ?) (? & ?). unfold costs. bounds lia. Qed.
Lemma costs_ret {A} (v : A) : costs 0 0 (mret v).
Proof. repeat split; cbn; (discriminate || lia). Qed.
Lemma costs_err {A} e S C : e <> OutOfFuel -> 0 <= S /\ 0 <= C -> costs S C (@merr A e).
Proof. intros He ?. repeat split; cbn; (congruence || lia). Qed.
Lemma costs_tick s a : 0 <= s -> 0 <= a -> costs s a (mtick s a).
Proof. intros. repeat split; cbn; (discriminate || lia). Qed.
(* a successful first part, as it comes out of the case analysis of a primitive *)
Lemma costs_ok {A} (v : A) s a : 0 <= s -> 0 <= a -> costs s a (Ok v, s, a).
Proof. intros. repeat split; cbn; (discriminate || lia). Qed.

Lemma costs_bind {A B} S2 C2 {S1 C1 S C} {m : M A} {f : A -> M B} :
  costs S1 C1 m -> (forall v, m_out m = Ok v -> costs S2 C2 (f v)) ->
  0 <= S2 /\ 0 <= C2 /\ S1 + S2 <= S /\ C1 + C2 <= C -> costs S C (mbind m f).
Proof.
  unfold costs, m_out, m_steps, m_alloc. destruct m as [[[v|e] s] a]; cbn [fst snd]; intros (H1 & H2 & H3) Hf (? & ? & ? & ?).
  - rewrite mbind_ok. cbn [fst snd]. destruct (Hf v eq_refl) as (F1 & F2 & F3). bounds lia.
  - rewrite mbind_err. cbn [fst snd]. bounds lia.
Qed.
Lemma costs_then {A B} {S C} {m : M A} {f : A -> M B} :
  costs S C m -> (forall v, costs 0 0 (f v)) -> costs S C (mbind m f).
Proof. intros H Hf. apply (costs_bind 0 0 H); [intros; apply Hf | lia]. Qed.

Lemma costs_end {A} (v : A) r : costs 0 0 (p_end v r).
Proof. destruct r; [apply costs_ret|apply costs_err; [discriminate | lia]]. Qed.
(* the stopLengthCheck test at the end of a message *)
Lemma costs_check {A} (c : bool) (v : A) : costs 0 0 (if c then mret v else merr DecodeError).
Proof. destruct c; [apply costs_ret|apply costs_err; [discriminate | lia]]. Qed.

Inductive run_bound {A} (P : A -> Z -> Prop) (d cs ks ca ka : Z) (bs : list Z) : PR A -> Prop :=
| run_ok v rest s a
    (rest_bytes : bytes_ok rest)
    (consumed_pos : 0 <= zlen bs - zlen rest) (consumed : d <= zlen bs - zlen rest)
    (steps : 0 <= s <= cs * (zlen bs - zlen rest) + ks)
    (alloc : 0 <= a <= ca * (zlen bs - zlen rest) + ka)
    (value : P v (zlen bs - zlen rest)) :
    run_bound P d cs ks ca ka bs (Ok (v, rest), s, a)
| run_err e s a
    (not_fuel : e <> OutOfFuel)
    (steps : 0 <= s <= cs * zlen bs + ks) (alloc : 0 <= a <= ca * zlen bs + ka) :
    run_bound P d cs ks ca ka bs (Err e, s, a).

Definition step {A} (P : A -> Z -> Prop) (d cs ks ca ka : Z) (p : list Z -> PR A) : Prop :=
  forall bs, bytes_ok bs -> run_bound P d cs ks ca ka bs (p bs).
Definition any {A} (_ : A) (_ : Z) : Prop := True.

(* step any as one match *)
Definition wf {A} (d cs ks ca ka : Z) (p : list Z -> PR A) : Prop :=
  forall bs, bytes_ok bs ->
    match p bs with
    | (Ok (_, rest), s, a) =>
        bytes_ok rest /\ 0 <= zlen bs - zlen rest /\ d <= zlen bs - zlen rest /\
        0 <= s <= cs * (zlen bs - zlen rest) + ks /\
        0 <= a <= ca * (zlen bs - zlen rest) + ka
    | (Err e, s, a) =>
        e <> OutOfFuel /\ 0 <= s <= cs * zlen bs + ks /\ 0 <= a <= ca * zlen bs + ka
    end.

Lemma wf_run {A d cs ks ca ka} {p : list Z -> PR A} : wf d cs ks ca ka p -> step any d cs ks ca ka p.
Proof.
  intros H bs Hb. specialize (H bs Hb). destruct (p bs) as [[[[v rest]|e] s] a].
  - destruct H as (Hrest & Hpos & Hd & Hs & Ha). constructor; (assumption || exact I).
  - destruct H as (He & Hs & Ha). constructor; assumption.
Qed.

Lemma step_wf {A P d cs ks ca ka} {p : list Z -> PR A} : step P d cs ks ca ka p -> wf d cs ks ca ka p.
Proof.
  intros H bs Hb. destruct (H bs Hb).
  - exact (conj rest_bytes (conj consumed_pos (conj consumed (conj steps alloc)))).
  - exact (conj not_fuel (conj steps alloc)).
Qed.

Lemma wf_ext {A} d cs ks ca ka (p q : list Z -> PR A) :
  (forall bs, p bs = q bs) -> wf d cs ks ca ka p -> wf d cs ks ca ka q.
Proof. intros E H bs Hb. rewrite <- E. apply H. exact Hb. Qed.

Lemma step_any {A P d cs ks ca ka} {p : list Z -> PR A} : step P d cs ks ca ka p -> step any d cs ks ca ka p.
Proof. intros H. exact (wf_run (step_wf H)). Qed.

Lemma step_ok {A P d cs ks ca ka} {p : list Z -> PR A} {bs v r} :
  step P d cs ks ca ka p -> bytes_ok bs -> m_out (p bs) = Ok (v, r) ->
  bytes_ok r /\ d <= zlen bs - zlen r /\ P v (zlen bs - zlen r).
Proof.
  intros H Hb. destruct (H bs Hb); intros E; [|discriminate].
  injection E as <- <-. exact (conj rest_bytes (conj consumed value)).
Qed.

Lemma step_le {A P} d cs ks ca ka d' cs' ks' ca' ka' (p : list Z -> PR A) :
  step P d cs ks ca ka p -> d' <= d /\ cs <= cs' /\ ks <= ks' /\ ca <= ca' /\ ka <= ka' ->
  step P d' cs' ks' ca' ka' p.
Proof.
  intros H (? & ? & ? & ? & ?) bs Hb. pose proof (zlen_nonneg bs).
  destruct (H bs Hb); constructor; bounds nia.
Qed.

Lemma step_nonneg {A P d cs ks ca ka} {p : list Z -> PR A} : step P d cs ks ca ka p -> 0 <= ks /\ 0 <= ka.
Proof.
  intros H. destruct (H [] (Forall_nil _)); change (zlen (@nil Z)) with 0 in *.
  - replace (0 - zlen rest) with 0 in * by (pose proof (zlen_nonneg rest); lia). lia.
  - lia.
Qed.

(* The continuation may mention the input of the whole (the stopLengthCheck
   tests compare against the length that remained when the check started) and may rely on
   what the first step says about its value.  Z.max 0: when p fails there is no v, hence
   no instance of the second premise from which ks2, ka2 >= 0 would follow.  The conclusion is
   `step any`: it forgets P and whatever the second step says, so a fact about the value of a
   composed step is read off a successful run with mbind_out_ok + step_ok, as in
   parse_compressed_cert_result. *)
Lemma step_bind {A B} (P : A -> Z -> Prop) d1 d2 cs1 cs2 ks1 ks2 ca1 ca2 ka1 ka2
      (p : list Z -> PR A) (q : list Z -> A -> list Z -> PR B) :
  step P d1 cs1 ks1 ca1 ka1 p ->
  (forall bs v c, P v c -> step any d2 cs2 ks2 ca2 ka2 (q bs v)) ->
  step any (d1 + d2) (Z.max cs1 cs2) (ks1 + Z.max 0 ks2) (Z.max ca1 ca2) (ka1 + Z.max 0 ka2)
     (fun bs => '(v, r) <~ p bs ;; q bs v r).
Proof.
  intros Hp Hq bs Hb. pose proof (zlen_nonneg bs).
  destruct (Hp bs Hb).
  - rewrite mbind_ok. pose proof (zlen_nonneg rest).
    destruct (Hq bs v _ value rest rest_bytes); cbn [fst snd]; constructor; bounds nia.
  - rewrite mbind_err. constructor; bounds nia.
Qed.

Lemma step_ret {A} (v : list Z -> A) : step any 0 0 0 0 0 (fun bs => mret (v bs, bs)).
Proof. intros bs Hb. constructor; bounds lia. Qed.

Lemma step_err {A P} e d cs ks ca ka : e <> OutOfFuel -> 0 <= cs /\ 0 <= ks /\ 0 <= ca /\ 0 <= ka ->
  step P d cs ks ca ka (fun bs : list Z => @merr (A * list Z) e).
Proof. intros He ? bs Hb. pose proof (zlen_nonneg bs). constructor; bounds lia. Qed.

Lemma step_tick {A P} s0 a0 d cs ks ca ka (p : list Z -> PR A) : 0 <= s0 -> 0 <= a0 ->
  step P d cs ks ca ka p -> step P d cs (s0 + ks) ca (a0 + ka) (fun bs => _ <~ mtick s0 a0 ;; p bs).
Proof.
  intros ? ? H bs Hb. unfold mtick. rewrite mbind_ok.
  destruct (H bs Hb); cbn [fst snd]; constructor; bounds lia.
Qed.

(* getFixBytes(n), n >= 0 (a length read by get, or a constant) *)
Inductive fix_run (n : Z) (bs : list Z) : PR (list Z) -> Prop :=
| fix_taken t rest
    (taken_bytes : bytes_ok t) (rest_bytes : bytes_ok rest) (split_at : bs = t ++ rest)
    (taken : zlen t = n) (consumed : zlen bs - zlen rest = n) :
    fix_run n bs (Ok (t, rest), 1, zlen t)
| fix_short (short : zlen bs < n) : fix_run n bs (Err DecodeError, 1, 0).

Lemma p_fix_spec n bs : bytes_ok bs -> 0 <= n -> fix_run n bs (p_fix n bs).
Proof.
  intros Hb Hn. unfold p_fix. destruct (zlen bs <? n) eqn:E; [constructor; lia|].
  apply fix_taken; [apply Forall_firstn, Hb | apply Forall_skipn, Hb | symmetry; apply firstn_skipn | apply firstn_zlen; lia | rewrite skipn_zlen by lia; lia].
Qed.

Lemma fix_step n : 0 <= n -> step any n 0 1 1 0 (p_fix n).
Proof.
  intros Hn bs Hb. pose proof (zlen_nonneg bs).
  destruct (p_fix_spec n bs Hb Hn); constructor; bounds lia.
Qed.

Inductive get_run (n : Z) (bs : list Z) : PR Z -> Prop :=
| get_value v rest
    (rest_bytes : bytes_ok rest) (consumed : zlen bs - zlen rest = n) (range : 0 <= v < 256 ^ n) :
    get_run n bs (Ok (v, rest), 1, n)
| get_short (short : zlen bs < n) : get_run n bs (Err DecodeError, 1, 0).

Lemma p_get_spec n bs : bytes_ok bs -> 0 <= n -> get_run n bs (p_get n bs).
Proof.
  intros Hb Hn. unfold p_get. destruct (p_fix_spec n bs Hb Hn).
  - rewrite mbind_ok. cbn [fst snd mret].
    pose proof (be_int_range t taken_bytes) as R. rewrite !Z.add_0_r, taken in *.
    constructor; assumption.
  - rewrite mbind_err. constructor. exact short.
Qed.

Lemma get_step n : 0 <= n -> step (fun v _ => 0 <= v < 256 ^ n) n 0 1 1 0 (p_get n).
Proof.
  intros Hn bs Hb. pose proof (zlen_nonneg bs).
  destruct (p_get_spec n bs Hb Hn); constructor; bounds lia.
Qed.

(* getVarBytes(ll): a failure is that of the length field (one step) or of the payload (two) *)
Inductive var_run (ll : Z) (bs : list Z) : PR (list Z) -> Prop :=
| var_taken t rest
    (taken_bytes : bytes_ok t) (rest_bytes : bytes_ok rest)
    (consumed : zlen bs - zlen rest = ll + zlen t) (fits : zlen t < 256 ^ ll) :
    var_run ll bs (Ok (t, rest), 2, ll + zlen t)
| var_short s a (steps : 1 <= s <= 2) (alloc : 0 <= a <= ll) (alloc_input : a <= zlen bs) :
    var_run ll bs (Err DecodeError, s, a).

Lemma p_var_spec ll bs : bytes_ok bs -> 0 <= ll -> var_run ll bs (p_var ll bs).
Proof.
  intros Hb Hl. unfold p_var. pose proof (zlen_nonneg bs).
  destruct (p_get_spec ll bs Hb Hl).
  - rewrite mbind_ok. pose proof (zlen_nonneg rest).
    destruct (p_fix_spec v rest rest_bytes ltac:(lia)); cbn [fst snd]; constructor; bounds lia.
  - rewrite mbind_err. constructor; bounds lia.
Qed.

Lemma var_step ll : 0 <= ll -> step any ll 0 2 1 0 (p_var ll).
Proof.
  intros Hl bs Hb. pose proof (zlen_nonneg bs).
  destruct (p_var_spec ll bs Hb Hl); [pose proof (zlen_nonneg t)|]; constructor; bounds lia.
Qed.

Inductive skip_run (n : Z) (bs : list Z) : PR unit -> Prop :=
| skip_done rest
    (rest_bytes : bytes_ok rest) (consumed : zlen bs - zlen rest = Z.max 0 n) (enough : n <= zlen bs) :
    skip_run n bs (Ok (tt, rest), 1, 0)
| skip_short : skip_run n bs (Err DecodeError, 1, 0).

Lemma p_skip_spec n bs : bytes_ok bs -> skip_run n bs (p_skip n bs).
Proof.
  intros Hb. unfold p_skip. destruct (zlen bs <? n) eqn:E; [constructor|].
  apply skip_done; [apply Forall_skipn, Hb | | lia].
  replace (Z.to_nat n) with (Z.to_nat (Z.max 0 n)) by lia. pose proof (zlen_nonneg bs). rewrite skipn_zlen by lia. lia.
Qed.

Lemma skip_step n d : d <= Z.max 0 n -> step any d 0 1 0 0 (p_skip n).
Proof.
  intros Hd bs Hb. pose proof (zlen_nonneg bs).
  destruct (p_skip_spec n bs Hb); constructor; bounds lia.
Qed.

Lemma loop_test_err k st bs e : loop_test k st bs = Err e -> e = DecodeError.
Proof.
  destruct k; cbn [loop_test]; try discriminate.
  destruct (st =? 0); [discriminate|]. destruct (st <? 0); [|discriminate].
  intros H. injection H as <-. reflexivity.
Qed.

(* the slope C of a loop absorbs the per-round overhead (k + 1: one test or one list cell
   more than the body's constant) of a body with slope c that consumes at least d bytes *)
Definition absorbs (d c k C : Z) : Prop := 0 <= c <= C /\ c * d + k + 1 <= C * d.

Definition counted {A} (k : loopkind) (st d : Z) (vs : list A) (c : Z) : Prop :=
  d * zlen vs <= c /\ (k = Count -> 0 < st -> 1 <= zlen vs).

Lemma gloop_wf {A P} (k : loopkind) (elem : list Z -> PR A) d cs ks ca ka Cs Ca :
  1 <= d -> absorbs d cs ks Cs -> absorbs d ca ka Ca -> step P d cs ks ca ka elem ->
  forall fuel st bs, bytes_ok bs -> (length bs < fuel)%nat ->
    run_bound (counted k st d) 0 Cs (ks + 1) Ca (ka + 1) bs (gloop k elem fuel st bs).
Proof.
  intros Hd (HCs & Hs) (HCa & Ha) Hwf. destruct (step_nonneg Hwf) as (Hks & Hka).
  induction fuel as [|f IH]; intros st bs Hb Hf; [lia|].
  cbn [gloop]. pose proof (zlen_nonneg bs) as Hn.
  destruct (loop_test k st bs) as [[|]|e] eqn:T.
  - unfold mtick. rewrite mbind_ok.
    destruct (Hwf bs Hb).
    + rewrite mbind_ok.
      assert (Hf' : (length rest < f)%nat) by (unfold zlen in *; lia).
      pose proof (zlen_nonneg rest).
      assert (cs * (zlen bs - zlen rest - d) <= Cs * (zlen bs - zlen rest - d)) by nia.
      assert (ca * (zlen bs - zlen rest - d) <= Ca * (zlen bs - zlen rest - d)) by nia.
      destruct (IH (loop_upd k st (zlen bs - zlen rest)) rest rest_bytes Hf')
        as [vs rest' ? ? ? ? ? ? ? [count _] | ? ? ? ? ? ?].
      * rewrite mbind_ok. cbn [fst snd mret]. pose proof (zlen_nonneg vs). constructor; unfold counted; rewrite ?zlen_cons; bounds lia.
      * rewrite mbind_err. cbn [fst snd]. constructor; bounds lia.
    + rewrite mbind_err. cbn [fst snd]. constructor; bounds nia.
  - assert (Hcount : counted k st d (@nil A) (zlen bs - zlen bs)).
    { unfold counted. rewrite Z.sub_diag. change (zlen (@nil A)) with 0. split; [lia|].
      intros -> ?. cbn in T. injection T. lia. }
    constructor; [.. | exact Hcount]; rewrite ?Z.sub_diag; bounds lia.
  - apply loop_test_err in T. subst e. constructor; bounds nia.
Qed.

Lemma loop_step {A P} (k : loopkind) Cs Ca {elem : list Z -> PR A} {d cs ks ca ka} st :
  step P d cs ks ca ka elem -> 1 <= d /\ absorbs d cs ks Cs /\ absorbs d ca ka Ca ->
  step (counted k st d) 0 Cs (ks + 1) Ca (ka + 1) (run_loop k elem st).
Proof.
  intros Hwf (Hd & Hs & Ha) bs Hb.
  exact (gloop_wf k elem d cs ks ca ka Cs Ca Hd Hs Ha Hwf (S (length bs)) st bs Hb (le_n _)).
Qed.

Lemma count_pos_step {A P} Cs Ca {elem : list Z -> PR A} {d cs ks ca ka} st :
  step P d cs ks ca ka elem -> 0 < st /\ 1 <= d /\ absorbs d cs ks Cs /\ absorbs d ca ka Ca ->
  step any d Cs (ks + 1) Ca (ka + 1) (run_loop Count elem st).
Proof.
  intros Hwf (Hst & Hl) bs Hb.
  destruct (loop_step Count Cs Ca st Hwf Hl bs Hb);
    [destruct value as [count ran]; specialize (ran eq_refl Hst)|]; constructor; bounds nia.
Qed.

Lemma lencheck_step {A P} Cs Ca {elem : list Z -> PR A} {d cs ks ca ka ll} :
  step P d cs ks ca ka elem -> 0 <= ll /\ 1 <= d /\ absorbs d cs ks Cs /\ absorbs d ca ka Ca ->
  step any ll Cs (ks + 2) Ca (ka + 1) (lencheck_loop elem ll).
Proof.
  intros Hwf (Hll & Hl). destruct (step_nonneg Hwf). pose proof Hl as (? & (? & _) & (? & ?)).
  eapply step_le; [eapply step_bind; [apply get_step; exact Hll | intros _ L _ _; exact (step_any (loop_step LenCheck Cs Ca L Hwf Hl))] | nia].
Qed.

Lemma top_le {A} cs ks ca ka cs' ks' ca' ka' (f : list Z -> M A) :
  top cs ks ca ka f -> cs <= cs' /\ ks <= ks' /\ ca <= ca' /\ ka <= ka' -> top cs' ks' ca' ka' f.
Proof.
  intros H (? & ? & ? & ?) bs Hb. destruct (H bs Hb) as (? & ? & ?). pose proof (zlen_nonneg bs). bounds nia.
Qed.

Lemma top_nonneg {A} cs ks ca ka (f : list Z -> M A) : top cs ks ca ka f -> 0 <= ks /\ 0 <= ka.
Proof. intros H. destruct (H [] (Forall_nil _)) as (_ & ? & ?). change (zlen (@nil Z)) with 0 in *. lia. Qed.

Lemma top_const {A} S C (f : list Z -> M A) : (forall bs, costs S C (f bs)) -> top 0 S 0 C f.
Proof. intros H bs Hb. exact (H bs). Qed.

Lemma top_bind {A B} (P : A -> Z -> Prop) d cs1 cs2 ks1 ks2 ca1 ca2 ka1 ka2
      (p : list Z -> PR A) (q : list Z -> A -> list Z -> M B) :
  step P d cs1 ks1 ca1 ka1 p ->
  (forall bs v c, P v c -> top cs2 ks2 ca2 ka2 (q bs v)) ->
  top (Z.max cs1 cs2) (ks1 + Z.max 0 ks2) (Z.max ca1 ca2) (ka1 + Z.max 0 ka2)
      (fun bs => '(v, r) <~ p bs ;; q bs v r).
Proof.
  intros Hp Hq bs Hb. pose proof (zlen_nonneg bs).
  destruct (Hp bs Hb).
  - rewrite mbind_ok.
    destruct (Hq bs v _ value rest rest_bytes) as (Q1 & Q2 & Q3). unfold m_out, m_steps, m_alloc in *.
    destruct (q bs v rest) as [[r2 s2] a2]. cbn [fst snd] in *. pose proof (zlen_nonneg rest). bounds nia.
  - rewrite mbind_err. unfold m_out, m_steps, m_alloc. cbn [fst snd]. bounds nia.
Qed.

Lemma top_finish {A B P} {d cs ks ca ka} {p : list Z -> PR A} (fin : list Z -> A -> list Z -> M B) :
  step P d cs ks ca ka p -> 0 <= cs /\ 0 <= ca -> (forall bs v r, costs 0 0 (fin bs v r)) ->
  top cs ks ca ka (fun bs => '(v, r) <~ p bs ;; fin bs v r).
Proof.
  intros Hp ? Hfin. eapply top_le; [eapply top_bind; [exact Hp | intros bs v _ _; apply (top_const 0 0), Hfin] | lia].
Qed.

Lemma step_top {A P d cs ks ca ka} {p : list Z -> PR A} :
  step P d cs ks ca ka p -> 0 <= cs /\ 0 <= ca -> top cs ks ca ka p.
Proof.
  intros H ? bs Hb. unfold m_out, m_steps, m_alloc. pose proof (zlen_nonneg bs).
  destruct (H bs Hb); cbn [fst snd]; [pose proof (zlen_nonneg rest)|]; bounds lia.
Qed.

Lemma top_then {A B} {cs ks ca ka} {f : list Z -> M A} (fin : A -> M B) :
  top cs ks ca ka f -> (forall v, costs 0 0 (fin v)) -> top cs ks ca ka (fun bs => v <~ f bs ;; fin v).
Proof.
  intros H Hfin bs Hb. exact (costs_then (H bs Hb) Hfin).
Qed.

Lemma top_nil_case {A} cs ks ca ka (v0 : A) (f : list Z -> M A) :
  top cs ks ca ka f ->
  top cs ks ca ka (fun bs => match bs with [] => mret v0 | _ :: _ => f bs end).
Proof.
  intros H bs Hb. pose proof (top_nonneg _ _ _ _ _ H). destruct bs as [|x l]; [|apply H; exact Hb].
  change (zlen (@nil Z)) with 0. cbn [mret m_out m_steps m_alloc fst snd]. bounds lia.
Qed.

Lemma loop_all_bound {A P} Cs Ca {elem : list Z -> PR A} {d cs ks ca ka} :
  step P d cs ks ca ka elem -> 1 <= d /\ absorbs d cs ks Cs /\ absorbs d ca ka Ca ->
  forall bs, bytes_ok bs ->
    costs (Cs * zlen bs + (ks + 1)) (Ca * zlen bs + (ka + 1)) (loop_all elem bs) /\
    forall vs, m_out (loop_all elem bs) = Ok vs -> 0 <= d * zlen vs <= zlen bs.
Proof.
  intros Hwf Hl bs Hb. pose proof Hl as (Hd & ((? & ?) & _) & ((? & ?) & _)).
  unfold costs, loop_all, m_out, m_steps, m_alloc. pose proof (zlen_nonneg bs).
  destruct (loop_step UntilEmpty Cs Ca 0 Hwf Hl bs Hb).
  - destruct value as [count _]. rewrite mbind_ok. cbn [mret fst snd]. pose proof (zlen_nonneg rest). pose proof (zlen_nonneg v).
    split; [split; [discriminate|]; split; nia|]. intros ? E. injection E as <-. nia.
  - rewrite mbind_err. cbn [fst snd]. bounds lia.
Qed.

Lemma top_loop_all {A P} Cs Ca {elem : list Z -> PR A} {d cs ks ca ka} :
  step P d cs ks ca ka elem -> 1 <= d /\ absorbs d cs ks Cs /\ absorbs d ca ka Ca ->
  top Cs (ks + 1) Ca (ka + 1) (loop_all elem).
Proof. intros Hwf Hl bs Hb. apply (loop_all_bound Cs Ca Hwf Hl bs Hb). Qed.

Lemma sni_elem_step : step any 3 0 3 1 0 sni_elem.
Proof.
  unfold sni_elem.
  eapply step_le; [eapply step_bind; [apply get_step; lia | intros _ t _ _; eapply step_bind; [apply var_step; lia | intros _ nm _ _; apply step_ret]] | computed].
Qed.

Lemma parse_sni_top : top 2 5 2 1 parse_sni.
Proof.
  unfold parse_sni. apply top_nil_case.
  eapply top_le; [eapply top_finish; [apply (lencheck_step 2 2 sni_elem_step); computed | lia | intros; apply costs_end] | computed].
Qed.

Lemma alpn_elem_step : step any 1 0 2 1 0 alpn_elem.
Proof. apply (var_step 1). lia. Qed.

Lemma parse_alpn_top : top 3 4 2 1 parse_alpn.
Proof.
  unfold parse_alpn.
  eapply top_le; [eapply top_finish; [apply (lencheck_step 3 2 alpn_elem_step); computed | lia | intros; apply costs_end] | computed].
Qed.

Lemma parse_npn_top : top 3 3 2 1 parse_npn.
Proof. apply (top_loop_all 3 2 (var_step 1 ltac:(lia))). computed. Qed.

Lemma key_share_elem_step : step any 4 0 3 1 0 key_share_elem.
Proof.
  unfold key_share_elem.
  eapply step_le; [eapply step_bind; [apply get_step; lia | intros _ g _ _; eapply step_bind; [apply var_step; lia | intros _ k _ _; apply step_ret]] | computed].
Qed.

Lemma parse_key_shares_top : top 1 5 2 1 parse_key_shares.
Proof.
  unfold parse_key_shares. apply top_nil_case.
  eapply top_le; [eapply top_finish; [apply (lencheck_step 1 2 key_share_elem_step); computed | lia | intros; apply costs_end] | computed].
Qed.

Lemma psk_identity_elem_step : step any 6 0 3 1 0 psk_identity_elem.
Proof.
  unfold psk_identity_elem.
  eapply step_le; [eapply step_bind; [apply var_step; lia | intros _ idn _ _; eapply step_bind; [apply get_step; lia | intros _ age _ _; apply step_ret]] | computed].
Qed.

Lemma parse_psk_top : top 3 9 2 2 parse_psk.
Proof.
  unfold parse_psk. apply top_nil_case.
  eapply top_le.
  - eapply top_bind; [apply (lencheck_step 3 2 psk_identity_elem_step); computed | intros _ ids _ _].
    eapply top_finish; [apply (lencheck_step 3 2 (var_step 1 ltac:(lia))); computed | lia | intros; apply costs_end].
  - computed.
Qed.

Lemma parse_status_request_top : top 2 7 2 1 parse_status_request.
Proof.
  unfold parse_status_request. apply top_nil_case.
  eapply top_le.
  - eapply top_bind; [apply get_step; lia | intros _ ty _ _].
    eapply top_bind; [apply (lencheck_step 2 2 (var_step 2 ltac:(lia))); computed | intros _ ids _ _].
    eapply top_finish; [apply var_step; lia | lia | intros; apply costs_end].
  - computed.
Qed.

(* a sub-parser run on a copied payload, Parser(p.getVarBytes(ll)): the payload is part of what
   the step consumed, so a function that is linear on the payload adds its slopes to those of p_var *)
Lemma var_sub_step {B C} ll (sub : list Z -> M B) (g : B -> C) ch kh cah kah :
  0 <= ll /\ 0 <= ch /\ 0 <= cah -> top ch kh cah kah sub ->
  step any ll ch (kh + 2) (cah + 1) kah
     (fun bs => '(pl, r) <~ p_var ll bs ;; v <~ sub pl ;; mret (g v, r)).
Proof.
  intros (Hl & Hch & Hcah) Hsub bs Hb.
  pose proof (zlen_nonneg bs) as Hn. destruct (top_nonneg _ _ _ _ _ Hsub).
  destruct (p_var_spec ll bs Hb Hl); [|rewrite mbind_err; constructor; bounds lia].
  rewrite mbind_ok.
  destruct (Hsub t taken_bytes) as (S1 & S2 & S3). unfold m_out, m_steps, m_alloc in *.
  pose proof (zlen_nonneg t). pose proof (zlen_nonneg rest).
  destruct (sub t) as [[[v|e] s2] a2]; cbn [fst snd] in *.
  - rewrite mbind_ok. cbn [mret fst snd]. constructor; bounds nia.
  - rewrite mbind_err. cbn [fst snd]. constructor; bounds nia.
Qed.

Lemma top_var_sub {B C} ll (sub : list Z -> M B) (fin : list Z -> B -> list Z -> M C) ch kh cah kah :
  0 <= ll /\ 0 <= ch /\ 0 <= cah -> top ch kh cah kah sub -> (forall bs v r, costs 0 0 (fin bs v r)) ->
  top ch (kh + 2) (cah + 1) kah (fun bs => '(pl, r) <~ p_var ll bs ;; v <~ sub pl ;; fin bs v r).
Proof.
  intros (Hl & Hch & Hcah) Hsub Hfin bs Hb. pose proof (zlen_nonneg bs).
  destruct (top_nonneg _ _ _ _ _ Hsub).
  destruct (p_var_spec ll bs Hb Hl); [|rewrite mbind_err; unfold costs; cbn; bounds lia].
  pose proof (zlen_nonneg t). pose proof (zlen_nonneg rest).
  apply (costs_bind (ch * zlen t + kh) (cah * zlen t + kah) (costs_ok _ 2 (ll + zlen t) ltac:(lia) ltac:(lia)));
    [intros [t' rest'] E; injection E as <- <-; exact (costs_then (Hsub t taken_bytes) (fun v => Hfin bs v rest)) | nia].
Qed.

Lemma ext_elem_step {B} (h : Z -> list Z -> M B) ch kh cah kah :
  0 <= ch /\ 0 <= cah -> (forall t, top ch kh cah kah (h t)) ->
  step any 4 ch (kh + 3) (cah + 1) kah (ext_elem h).
Proof.
  intros ? Hh. destruct (top_nonneg _ _ _ _ _ (Hh 0)). unfold ext_elem.
  eapply step_le; [eapply step_bind; [apply get_step; lia | intros _ t _ _; apply (var_sub_step 2 (h t) (pair t) ch kh cah kah); [lia | apply Hh]] | lia].
Qed.

Lemma h_raw_top t : top 0 0 0 0 (h_raw t).
Proof. apply (top_const 0 0). intros pl. apply costs_ret. Qed.

Lemma ext_elem_raw_step : step any 4 0 3 1 0 (ext_elem h_raw).
Proof. apply (ext_elem_step h_raw 0 0 0 0); [lia | exact h_raw_top]. Qed.

Lemma parse_ext_list_top : top 1 4 2 1 parse_ext_list.
Proof. apply (top_loop_all 1 2 ext_elem_raw_step). computed. Qed.

Lemma parse_ext_list_with_top {B} (h : Z -> list Z -> M B) ch kh cah kah Cs Ca :
  0 <= ch /\ 0 <= cah -> (forall t, top ch kh cah kah (h t)) ->
  absorbs 4 ch (kh + 3) Cs /\ absorbs 4 (cah + 1) kah Ca ->
  top Cs (kh + 4) Ca (kah + 1) (parse_ext_list_with h).
Proof.
  intros H0 Hh Hl. eapply top_le; [apply (top_loop_all Cs Ca (ext_elem_step h ch kh cah kah H0 Hh)); split; [lia | exact Hl] | lia].
Qed.

Lemma h_client_hello_top t : top 3 9 2 2 (h_client_hello t).
Proof.
  unfold h_client_hello.
  destruct (t =? 0); [eapply top_le; [apply (top_then _ parse_sni_top); intros; apply costs_ret | computed]|].
  destruct (t =? 16); [eapply top_le; [apply (top_then _ parse_alpn_top); intros; apply costs_ret | computed]|].
  destruct (t =? 13172); [eapply top_le; [apply (top_then _ parse_npn_top); intros; apply costs_ret | computed]|].
  destruct (t =? 51); [eapply top_le; [apply (top_then _ parse_key_shares_top); intros; apply costs_ret | computed]|].
  destruct (t =? 41); [eapply top_le; [apply (top_then _ parse_psk_top); intros; apply costs_ret | computed]|].
  destruct (t =? 5); [eapply top_le; [apply (top_then _ parse_status_request_top); intros; apply costs_ret | computed]|].
  eapply top_le; [apply (top_const 0 0); intros; apply costs_ret | computed].
Qed.

Lemma reject_duplicates_cost {B} (exts : list (Z * B)) : costs (zlen exts) (zlen exts) (reject_duplicates exts).
Proof.
  unfold reject_duplicates. pose proof (zlen_nonneg exts) as H.
  apply (costs_then (costs_tick _ _ H H)). intros _.
  destruct (has_dup _); [apply costs_err; [discriminate | lia] | apply costs_ret].
Qed.

(* an extension loop followed by the duplicate test: an extension has at least 4 bytes, so the
   test costs at most |bs|/4, bounded here by |bs| (slopes + 1) *)
Lemma ext_list_nodup_top {B} (h : Z -> list Z -> M B) ch kh cah kah Cs Ca :
  0 <= ch /\ 0 <= cah -> (forall t, top ch kh cah kah (h t)) ->
  absorbs 4 ch (kh + 3) Cs /\ absorbs 4 (cah + 1) kah Ca ->
  top (Cs + 1) (kh + 4) (Ca + 1) (kah + 1)
      (fun bs => exts <~ parse_ext_list_with h bs ;; reject_duplicates exts).
Proof.
  intros H0 Hh Hl bs Hb. pose proof (zlen_nonneg bs). assert (H4 : 1 <= 4) by lia.
  destruct (loop_all_bound Cs Ca (ext_elem_step h ch kh cah kah H0 Hh) (conj H4 Hl) bs Hb) as (P & C).
  apply (costs_bind (zlen bs) (zlen bs) P); [intros exts E | lia].
  apply C in E. apply (costs_le _ _ _ _ _ (reject_duplicates_cost exts)). lia.
Qed.

Lemma parse_client_hello_exts_top : top 8 13 5 3 parse_client_hello_exts.
Proof. apply (ext_list_nodup_top h_client_hello 3 9 2 2 7 4); [computed | exact h_client_hello_top | computed]. Qed.

Lemma parse_ext_list_nodup_top : top 2 4 3 1 parse_ext_list_nodup.
Proof. apply (ext_list_nodup_top h_raw 0 0 0 0 1 2); [computed | exact h_raw_top | computed]. Qed.

Section CertProofs.
  Variable cert_chk : list Z -> option exn.
  (* the oracle never yields the model-internal fuel marker *)
  Hypothesis cert_chk_sane : forall c, cert_chk c <> Some OutOfFuel.

  Lemma cert_entry_step : step any 5 1 7 2 1 (cert_entry cert_chk).
  Proof.
    unfold cert_entry. eapply step_le.
    - eapply step_bind; [apply var_step; lia | intros _ c _ _]. destruct (cert_chk c) as [e|] eqn:E; cycle 1.
      + eapply step_bind; [apply (lencheck_step 1 2 ext_elem_raw_step); computed | intros _ exts _ _; apply step_ret].
      + apply step_err; [intros ->; exact (cert_chk_sane c E) | computed].
    - computed.
  Qed.

  Lemma parse_cert_list_top : top 3 13 4 2 (parse_cert_list cert_chk).
  Proof.
    unfold parse_cert_list. eapply top_le.
    - eapply top_bind; [apply get_step; lia | intros _ L _ _]. eapply top_bind; [apply var_step; lia | intros r0 ctx _ _].
      apply (top_var_sub 3 _ _ 3 8 3 2); [lia | apply (top_loop_all 3 3 cert_entry_step); computed | intros; apply costs_check].
    - computed.
  Qed.

  (* TLS 1.2 list: while index != chainLength *)
  Lemma cert12_elem_step : step any 3 0 2 1 0 (cert12_elem cert_chk).
  Proof.
    unfold cert12_elem. eapply step_le.
    - eapply step_bind; [apply var_step; lia | intros _ c _ _]. destruct c as [|x c']; cycle 1.
      + destruct (cert_chk (x :: c')) as [e|] eqn:E; cycle 1; [apply step_ret | apply step_err; [|lia]].
        destruct (is_syntax_error e); [discriminate | intros ->; exact (cert_chk_sane _ E)].
      + apply step_err; [discriminate | computed].
    - computed.
  Qed.

  Lemma parse_cert_list12_top : top 1 5 2 1 (parse_cert_list12 cert_chk).
  Proof.
    unfold parse_cert_list12. eapply top_le.
    - eapply top_bind; [apply get_step; lia | intros _ L _ _]. eapply top_bind; [apply get_step; lia | intros r0 total _ _].
      eapply top_finish; [apply (loop_step IndexNe 1 2 total cert12_elem_step); computed | lia | intros; apply costs_check].
    - computed.
  Qed.
End CertProofs.

Lemma p_fix_list_step len cnt : 1 <= len -> step any 0 2 3 2 (Z.max 0 cnt + 1) (p_fix_list len cnt).
Proof.
  intros Hl. unfold p_fix_list.
  eapply step_le; [apply step_tick; [| |eapply step_any, (loop_step Count 2 2 cnt (get_step len ltac:(lia))); unfold absorbs]; lia | lia].
Qed.

Lemma div_le_self n len : 0 <= n -> 1 <= len -> 0 <= n / len <= n.
Proof.
  intros. split; [apply Z.div_pos; lia|]. apply Z.div_le_upper_bound; [lia|nia].
Qed.

(* getVarList: the [0]*n pre-allocation is bounded by the range of the length field only *)
Lemma parse_var_list_step len ll : 1 <= len -> 0 <= ll ->
  step any ll 2 4 2 (256 ^ ll) (parse_var_list len ll).
Proof.
  intros Hlen Hll. unfold parse_var_list.
  assert (Hp : 0 < 256 ^ ll) by (apply Z.pow_pos_nonneg; lia). eapply step_le.
  - eapply step_bind with (1 := get_step ll Hll) (d2 := 0) (cs2 := 2) (ks2 := 3) (ca2 := 2) (ka2 := 256 ^ ll). intros _ n _ Hn.
    replace (len =? 0) with false by lia. pose proof (div_le_self n len ltac:(lia) Hlen).
    destruct (n mod len =? 0); [eapply step_le; [apply (p_fix_list_step len (n / len) Hlen) | lia] | apply step_err; [discriminate | lia]].
  - lia.
Qed.

Lemma tuple_inner_step el en : 1 <= el -> 0 < en -> step any el 2 2 2 1 (run_loop Count (p_get el) en).
Proof. intros. apply (count_pos_step 2 2 en (get_step el ltac:(lia))). unfold absorbs. lia. Qed.

Lemma parse_var_tuple_list_step el en ll : 1 <= el -> 1 <= en -> 0 <= ll ->
  step any ll 5 4 4 2 (parse_var_tuple_list el en ll).
Proof.
  intros Hel Hen Hll. unfold parse_var_tuple_list. eapply step_le.
  - eapply step_bind; [apply get_step; lia | intros _ n _ _]. replace (el * en =? 0) with false by nia.
    destruct (n mod (el * en) =? 0);
      [eapply step_any, (loop_step Count 5 4 _ (tuple_inner_step el en Hel ltac:(lia))); unfold absorbs; lia | apply step_err; [discriminate | lia]].
  - lia.
Qed.

(* CertificateRequest (TLS 1.2): certificate_authorities, while index != total *)
Lemma parse_ca_list_step : step any 2 2 4 2 1 parse_ca_list.
Proof.
  unfold parse_ca_list.
  eapply step_le; [eapply step_bind; [apply get_step; lia | intros _ total _ _; eapply step_any, (loop_step IndexNe 2 2 total (var_step 2 ltac:(lia))); computed] | computed].
Qed.

Lemma parse_cert_request12_top tls12 : top 5 13 4 259 (parse_cert_request12 tls12).
Proof.
  unfold parse_cert_request12. eapply top_le.
  - eapply top_bind; [apply get_step; lia | intros _ L _ _].
    eapply top_bind; [apply (parse_var_list_step 1 1); lia | intros r0 tys _ _].
    eapply top_bind with (d := 0) (cs1 := 5) (ks1 := 4) (ca1 := 4) (ka1 := 2).
    + destruct tls12.
      * eapply step_le; [apply (parse_var_tuple_list_step 1 2 2); lia | computed].
      * eapply step_le; [apply (step_ret (fun _ => [])) | computed].
    + intros _ sigs _ _. eapply top_finish; [apply parse_ca_list_step | lia | intros; apply costs_check].
  - computed.
Qed.

Section DecompressProofs.
  Variable dec : list Z -> Z -> res (list Z * bool).
  Variable algo_ok : Z -> bool.
  (* THE ASSUMED CONTRACT of the decompressor: it never produces more than the limit *)
  Hypothesis dec_bounded :
    forall d lim out clean, 0 <= lim -> dec d lim = Ok (out, clean) -> zlen out <= lim.

  (* without any assumption *)
  Lemma decompress_cert_result data expected :
    m_steps (decompress_cert dec data expected) = 1 /\
    match m_out (decompress_cert dec data expected) with
    | Ok out => zlen out = expected /\ dec data (expected + 1) = Ok (out, true)
    | Err e => e = BadCertificateErr
    end.
  Proof.
    unfold decompress_cert. destruct (dec data (expected + 1)) as [[out clean]|e]; [|split; reflexivity].
    destruct clean; cbn [andb]; [|split; reflexivity].
    destruct (zlen out =? expected) eqn:E; cbn [m_steps m_out fst snd]; split; try reflexivity.
    split; [lia|reflexivity].
  Qed.

  (* with the contract: what exists in memory, even transiently and on the rejecting path, is
     bounded by the limit handed to the decompressor = declared length + 1 *)
  Lemma decompress_cert_costs data expected : 0 <= expected ->
    costs 1 (expected + 1) (decompress_cert dec data expected).
  Proof.
    intros He. unfold decompress_cert, costs. destruct (dec data (expected + 1)) as [[out clean]|e] eqn:D.
    - pose proof (dec_bounded data (expected + 1) out clean ltac:(lia) D). pose proof (zlen_nonneg out).
      destruct (clean && (zlen out =? expected)); cbn; bounds lia.
    - cbn. bounds lia.
  Qed.

  (* The decompressor's output is the only allocation that is not input: after the four
     fields, one step and at most 2^24 bytes whatever remains. *)
  Lemma parse_compressed_cert_top : top 0 6 1 16777216 (parse_compressed_cert dec algo_ok).
  Proof.
    unfold parse_compressed_cert. eapply top_le.
    - eapply top_bind; [apply get_step; lia | intros _ L _ _]. eapply top_bind; [apply get_step; lia | intros r0 algo _ _].
      eapply top_bind; [apply (get_step 3); lia | intros _ expected n He].
      eapply top_bind; [apply var_step; lia | intros _ comp _ _]. apply (top_const 1 16777216). intros r3.
      change (0 <= expected < 16777216) in He.
      destruct comp as [|x c]; [apply costs_err; [discriminate | lia]|].
      destruct (_ =? _); [|apply costs_err; [discriminate | lia]].
      destruct (algo_ok algo); [|apply costs_err; [discriminate | lia]].
      apply (costs_le 1 (expected + 1)); [|lia].
      apply (costs_then (decompress_cert_costs (x :: c) expected ltac:(lia))). intros; apply costs_ret.
    - computed.
  Qed.

  Lemma parse_compressed_cert_result bs algo expected out : bytes_ok bs ->
    m_out (parse_compressed_cert dec algo_ok bs) = Ok (algo, expected, out) ->
    zlen out = expected /\ 0 <= expected <= 16777215.
  Proof.
    intros Hb H. unfold parse_compressed_cert in H.
    apply mbind_out_ok in H as ([L r0] & E0 & H).
    apply mbind_out_ok in H as ([algo' r1] & E1 & H).
    apply mbind_out_ok in H as ([e' r2] & E2 & H).
    apply mbind_out_ok in H as ([comp r3] & E3 & H).
    destruct (step_ok (get_step 3 ltac:(lia)) Hb E0) as (Hr0 & _).
    destruct (step_ok (get_step 2 ltac:(lia)) Hr0 E1) as (Hr1 & _).
    destruct (step_ok (get_step 3 ltac:(lia)) Hr1 E2) as (_ & _ & He). change (0 <= e' < 16777216) in He.
    destruct comp as [|c0 c]; [discriminate|]. destruct (_ =? _); [|discriminate].
    destruct (algo_ok algo'); [|discriminate].
    apply mbind_out_ok in H as (out' & E4 & H). injection H as <- <- <-.
    destruct (decompress_cert_result (c0 :: c) e') as (_ & D). rewrite E4 in D. cbn in D.
    split; [exact (proj1 D)|lia].
  Qed.
End DecompressProofs.

Lemma firstn_skipn_concat {A} n (l : list A) : firstn n l ++ skipn n l = l.
Proof. apply firstn_skipn. Qed.

(* Draining buf with a size handler that only reports complete messages of at least m >= 1 bytes,
   and of which R holds for what it reports incomplete (the premise is the handler's case lemma):
   the messages ms in order and the residue r; it handler calls, al bytes allocated, mv bytes
   moved by "del buf[:length]" -- each message moves the whole rest, hence the square. *)
Lemma defrag_loop_bound (h : list Z -> option Z) m (R : list Z -> Prop) :
  1 <= m ->
  (forall buf, bytes_ok buf -> match h buf with Some n => m <= n <= zlen buf | None => R buf end) ->
  forall fuel buf, bytes_ok buf -> (length buf <= fuel)%nat ->
    exists ms r it al mv,
      defrag_loop h fuel buf = Ok (ms, r, it, al, mv) /\
      concat ms ++ r = buf /\ h r = None /\ R r /\
      1 <= it /\ m * (it - 1) <= zlen buf /\
      0 <= al <= zlen buf /\
      0 <= mv /\ 2 * m * mv <= zlen buf * zlen buf.
Proof.
  intros Hm Hh. induction fuel as [|f IH]; intros buf Hb Hf; pose proof (zlen_nonneg buf); pose proof (Hh buf Hb) as K;
    cbn [defrag_loop]; destruct (h buf) as [n|] eqn:E.
  - (* a message of at least m bytes in an empty buffer *) unfold zlen in *. lia.
  - exists [], buf, 1, 0, 0. repeat split; auto; lia.
  - assert (Hr : bytes_ok (skipn (Z.to_nat n) buf)) by (apply Forall_skipn, Hb).
    assert (Hl : zlen (skipn (Z.to_nat n) buf) = zlen buf - n) by (apply skipn_zlen; lia).
    destruct (IH _ Hr ltac:(unfold zlen in *; lia)) as (ms & r & it & al & mv & -> & Hcat & Hn & Hres & ? & ? & ? & ? & ?).
    cbn [bind]. rewrite Hl in *. rewrite (firstn_zlen buf n) by lia.
    exists (firstn (Z.to_nat n) buf :: ms), r, (it + 1), (al + n), (mv + (zlen buf - n)).
    repeat split; auto; try lia; [|nia].
    cbn [concat]. rewrite <- app_assoc, Hcat. apply firstn_skipn.
  - exists [], buf, 1, 0, 0. repeat split; auto; lia.
Qed.

Lemma static_size_cases size buf :
  match static_size size buf with
  | Some n => n = size /\ size <= zlen buf
  | None => zlen buf < size
  end.
Proof. unfold static_size. destruct (zlen buf <? size) eqn:E; lia. Qed.

(* a dynamic size handler, both verdicts at once: a complete message is its header and its
   payload, all present; what is reported incomplete is shorter than the longest message,
   off + sz + (256^sz - 1) bytes.  For the handshake header (hs_size = dyn_size 1 3): at least 4
   bytes, and the only cap on what stays buffered is 4 + (2^24 - 1) - 1 bytes *)
Lemma dyn_size_cases off sz buf : bytes_ok buf -> 0 <= off -> 0 <= sz ->
  match dyn_size off sz buf with
  | Some n => off + sz <= n <= zlen buf
  | None => zlen buf <= off + sz + 256 ^ sz - 2
  end.
Proof.
  intros Hb Ho Hs. unfold dyn_size. assert (0 < 256 ^ sz) by (apply Z.pow_pos_nonneg; lia).
  destruct (zlen buf <? off + sz) eqn:E; [lia|].
  set (hd := firstn (Z.to_nat sz) (skipn (Z.to_nat off) buf)).
  assert (B : bytes_ok hd) by (apply Forall_firstn, Forall_skipn, Hb).
  pose proof (be_int_range hd B) as R.
  replace (zlen hd) with sz in R by (unfold hd; rewrite firstn_zlen; rewrite ?skipn_zlen; lia).
  destruct (zlen buf - (off + sz) <? be_int hd) eqn:E2; lia.
Qed.

(* the quadratic term is real for the language-level cost of "del buf[:length]":
   k empty handshake messages (4k bytes) move 2k(k-1) bytes *)
Fixpoint empty_msgs (k : nat) : list Z :=
  match k with O => [] | S k' => 11 :: 0 :: 0 :: 0 :: empty_msgs k' end.

Lemma zlen_empty_msgs k : zlen (empty_msgs k) = 4 * Z.of_nat k.
Proof. induction k as [|k IH]; [reflexivity|]. cbn [empty_msgs]. rewrite !zlen_cons, IH. lia. Qed.

Lemma hs_size_empty_msg rest : hs_size (11 :: 0 :: 0 :: 0 :: rest) = Some 4.
Proof.
  unfold hs_size, dyn_size. rewrite !zlen_cons. pose proof (zlen_nonneg rest).
  replace (_ <? 1 + 3) with false by lia.
  change (be_int _) with 0. replace (_ <? 0) with false by lia. reflexivity.
Qed.

Lemma defrag_empty_msgs k : forall fuel, (k <= fuel)%nat ->
  defrag_loop hs_size fuel (empty_msgs k)
  = Ok (repeat [11; 0; 0; 0] k, [], Z.of_nat k + 1, 4 * Z.of_nat k, 2 * Z.of_nat k * (Z.of_nat k - 1)).
Proof.
  induction k as [|k IH]; intros fuel Hf.
  - destruct fuel; reflexivity.
  - destruct fuel as [|f]; [lia|]. cbn [empty_msgs defrag_loop]. rewrite hs_size_empty_msg.
    change (Z.to_nat 4) with 4%nat. cbn [firstn skipn]. rewrite IH by lia. cbn [bind repeat].
    rewrite zlen_empty_msgs, Nat2Z.inj_succ. change (zlen [11; 0; 0; 0]) with 4.
    f_equal. repeat (apply f_equal2; [|lia]). reflexivity.
Qed.

Lemma top_work {A} {cs ks ca ka} {f : list Z -> M A} : top cs ks ca ka f -> linear_work f cs ks.
Proof. intros H bs Hb. destruct (H bs Hb) as (? & ? & ?). split; assumption. Qed.
Lemma top_alloc {A} {cs ks ca ka} {f : list Z -> M A} : top cs ks ca ka f -> linear_alloc f ca ka.
Proof. intros H bs Hb. apply (H bs Hb). Qed.

Lemma step_strict {A P} {d cs ks ca ka} {p : list Z -> PR A} : step P d cs ks ca ka p -> 1 <= d -> strictly_consumes p.
Proof.
  intros H Hd bs v rest s a Hb E. destruct (step_ok H Hb (f_equal m_out E)) as (_ & Hc & _). unfold zlen in Hc. lia.
Qed.

Lemma asn1_length_step : step any 1 0 2 1 0 asn1_length.
Proof.
  unfold asn1_length. eapply step_le.
  - eapply step_bind with (d2 := 0) (cs2 := 0) (ks2 := 1) (ca2 := 1) (ka2 := 0); [apply get_step; lia | intros _ f _ _].
    assert (0 <= Z.land f 127) by (apply Z.land_nonneg; lia).
    destruct (f <=? 127).
    + eapply step_le; [apply (step_ret (fun _ => f)) | lia].
    + eapply step_le; [eapply step_any, get_step; assumption | lia].
  - lia.
Qed.

Lemma asn1_child_step : step any 2 0 4 1 0 asn1_child.
Proof.
  unfold asn1_child. eapply step_le.
  - eapply step_bind; [apply (skip_step 1 1); lia | intros bs _ _ _]. eapply step_bind; [apply asn1_length_step | intros _ n _ _].
    eapply step_bind; [apply (skip_step n 0); lia | intros _ _ _ _; apply (step_ret (fun r3 => zlen bs - zlen r3))].
  - computed.
Qed.

Lemma asn1_child_strict : strictly_consumes asn1_child.
Proof. apply (step_strict asn1_child_step). lia. Qed.

Lemma asn1_child_count_bound value : bytes_ok value ->
  costs (3 * zlen value + 5) (2 * zlen value + 1) (asn1_child_count value) /\
  forall k, m_out (asn1_child_count value) = Ok k -> 0 <= 2 * k <= zlen value.
Proof.
  intros Hb. destruct (loop_all_bound 3 2 asn1_child_step ltac:(unfold absorbs; lia) value Hb) as (L & L4).
  unfold asn1_child_count. split.
  - apply (costs_then L). intros; apply costs_ret.
  - intros k E. apply mbind_out_ok in E as (vs & E1 & E2). injection E2 as <-. exact (L4 vs E1).
Qed.

Lemma asn1_child_bytes_bound value which : bytes_ok value ->
  costs (3 * zlen value + 6) (3 * zlen value + 1) (asn1_child_bytes value which).
Proof.
  intros Hb. unfold asn1_child_bytes. pose proof (zlen_nonneg value).
  apply (costs_bind 1 (zlen value)
           (step_top (loop_step Count 3 2 (which + 1) asn1_child_step ltac:(unfold absorbs; lia)) ltac:(lia) value Hb));
    [intros [szs r] _ | lia].
  destruct (rev szs) as [|last tl]; [apply costs_err; [discriminate | lia]|].
  set (t := firstn _ _).
  assert (0 <= zlen t <= zlen value).
  { split; [apply zlen_nonneg|]. unfold t, zlen. rewrite firstn_length, skipn_length. lia. }
  apply (costs_le 1 (zlen t)); [|lia]. apply (costs_then (costs_tick 1 (zlen t) ltac:(lia) ltac:(lia))). intros; apply costs_ret.
Qed.

Lemma asn1_children_from_bound value : bytes_ok value -> forall n i,
  costs (Z.of_nat n * (3 * zlen value + 6)) (Z.of_nat n * (3 * zlen value + 1)) (asn1_children_from value n i).
Proof.
  intros Hb. pose proof (zlen_nonneg value). induction n as [|n IH]; intros i; cbn [asn1_children_from].
  - exact (costs_ret []).
  - eapply costs_bind; [exact (asn1_child_bytes_bound value i Hb) | intros c _; apply (costs_then (IH (i + 1))); intros; apply costs_ret | nia].
Qed.

(* getChildCount, then at most |value|/2 times getChild *)
Lemma asn1_all_children_costs value : bytes_ok value ->
  costs (3 * zlen value + 5 + zlen value / 2 * (3 * zlen value + 6))
        (2 * zlen value + 1 + zlen value / 2 * (3 * zlen value + 1)) (asn1_all_children value).
Proof.
  intros Hb. pose proof (zlen_nonneg value). destruct (asn1_child_count_bound value Hb) as (Hcount & Hk).
  unfold asn1_all_children.
  apply (costs_bind (zlen value / 2 * (3 * zlen value + 6)) (zlen value / 2 * (3 * zlen value + 1)) Hcount).
  - intros k E. specialize (Hk k E). assert (k <= zlen value / 2) by (apply Z.div_le_lower_bound; lia).
    apply (costs_le _ _ _ _ _ (asn1_children_from_bound value Hb (Z.to_nat k) 0)). rewrite Z2Nat.id by lia. nia.
  - assert (0 <= zlen value / 2) by (apply Z.div_pos; lia). nia.
Qed.

(* the quadratic growth is real: k NULL children (2k bytes) take 2k^2 + 8k + 1 steps *)
Fixpoint asn1_nulls (k : nat) : list Z := match k with O => [] | S k' => 5 :: 0 :: asn1_nulls k' end.

(* one NULL child (tag 5, length 0): skip, length, skip; the length byte is the one allocation *)
Lemma asn1_child_null rest : asn1_child (5 :: 0 :: rest) = (Ok (2, rest), 3, 1).
Proof.
  unfold asn1_child, p_skip, asn1_length, p_get, p_fix. rewrite !zlen_cons. pose proof (zlen_nonneg rest).
  replace (_ <? 1) with false by lia. change (Z.to_nat 1) with 1%nat. cbn [skipn firstn mbind mret].
  rewrite zlen_cons. replace (_ <? 1) with false by lia. cbn [skipn firstn mbind mret].
  change (be_int [0] <=? 127) with true. cbn iota. change (be_int [0]) with 0. cbn [mbind mret].
  replace (_ <? 0) with false by lia. cbn [Z.to_nat skipn mbind mret].
  replace (1 + (1 + zlen rest) - zlen rest) with 2 by lia. reflexivity.
Qed.

(* j rounds over the first j of j + m NULLs: a Count loop started at j, or an UntilEmpty loop when none follows *)
Lemma gloop_nulls kd j m : forall fuel st,
  (j < fuel)%nat -> kd = UntilEmpty /\ m = 0%nat \/ kd = Count /\ st = Z.of_nat j ->
  gloop kd asn1_child fuel st (asn1_nulls (j + m))
  = (Ok (repeat 2 j, asn1_nulls m), 4 * Z.of_nat j + 1, 2 * Z.of_nat j).
Proof.
  induction j as [|j IH]; intros fuel st Hf Hk; (destruct fuel as [|f]; [lia|]); cbn [Nat.add asn1_nulls gloop].
  - destruct Hk as [[-> ->]|[-> ->]]; reflexivity.
  - replace (loop_test kd st _) with (@Ok bool true)
      by (destruct Hk as [[-> _]|[-> ->]]; [reflexivity | cbn [loop_test]; f_equal; lia]).
    rewrite asn1_child_null. cbn [mtick mbind]. rewrite (IH f); [|lia|].
    2: { destruct Hk as [[-> ->]|[-> ->]]; [left|right]; split; try reflexivity. cbn [loop_upd]. lia. }
    cbn [mbind mret repeat]. rewrite Nat2Z.inj_succ. repeat (apply f_equal2; [|lia]). reflexivity.
Qed.

Lemma asn1_nulls_app a b : asn1_nulls (a + b) = asn1_nulls a ++ asn1_nulls b.
Proof. induction a as [|a IH]; [reflexivity|]. cbn [Nat.add asn1_nulls app]. rewrite IH. reflexivity. Qed.

Lemma asn1_nulls_length k : length (asn1_nulls k) = (2 * k)%nat.
Proof. induction k as [|k IH]; cbn [asn1_nulls length]; lia. Qed.

Lemma asn1_child_count_nulls k :
  asn1_child_count (asn1_nulls k) = (Ok (Z.of_nat k), 4 * Z.of_nat k + 1, 2 * Z.of_nat k).
Proof.
  unfold asn1_child_count, loop_all, run_loop. rewrite asn1_nulls_length, <- (Nat.add_0_r k).
  rewrite (gloop_nulls UntilEmpty k 0) by (lia || left; split; reflexivity).
  rewrite Nat.add_0_r. cbn [mbind mret]. rewrite zlen_repeat. repeat (apply f_equal2; [|lia]). reflexivity.
Qed.

(* getChild(i) walks the first i+1 children again *)
Lemma asn1_child_bytes_nulls k i : (i < k)%nat ->
  exists t a, asn1_child_bytes (asn1_nulls k) (Z.of_nat i) = (Ok t, 4 * Z.of_nat i + 6, a).
Proof.
  intros Hi. unfold asn1_child_bytes, run_loop. replace (Z.of_nat i + 1) with (Z.of_nat (S i)) by lia.
  replace k with (S i + (k - S i))%nat by lia.
  rewrite (gloop_nulls Count (S i)) by (rewrite ?asn1_nulls_length; lia || right; split; reflexivity).
  cbn [mbind repeat rev]. destruct (rev (repeat 2 i)); cbn [app mtick mbind mret];
    eexists; eexists; (apply f_equal2; [apply f_equal2; [reflexivity|lia]|reflexivity]).
Qed.

(* the sum of 4(i+t)+6 over t < n *)
Lemma asn1_children_from_nulls k n : forall i, (i + n <= k)%nat ->
  m_steps (asn1_children_from (asn1_nulls k) n (Z.of_nat i))
  = Z.of_nat n * (4 * Z.of_nat i + 6) + 2 * Z.of_nat n * (Z.of_nat n - 1).
Proof.
  induction n as [|n IH]; intros i Hi; [reflexivity|]. cbn [asn1_children_from].
  destruct (asn1_child_bytes_nulls k i ltac:(lia)) as (t & a & ->).
  replace (Z.of_nat i + 1) with (Z.of_nat (S i)) by lia. specialize (IH (S i) ltac:(lia)).
  unfold m_steps in *. rewrite mbind_ok.
  destruct (asn1_children_from (asn1_nulls k) n (Z.of_nat (S i))) as [[[cs|e] s] a2]; cbn [fst snd mbind mret] in *; lia.
Qed.

Lemma asn1_all_children_nulls k :
  m_steps (asn1_all_children (asn1_nulls k)) = 2 * Z.of_nat k * Z.of_nat k + 8 * Z.of_nat k + 1.
Proof.
  unfold asn1_all_children. rewrite asn1_child_count_nulls, mbind_ok, Nat2Z.id.
  pose proof (asn1_children_from_nulls k k 0%nat ltac:(lia)) as H. unfold m_steps in *. cbn [fst snd]. change (Z.of_nat 0) with 0 in H. lia.
Qed.

Lemma asn1_quadratic_witness :
  m_steps (asn1_all_children (asn1_nulls 50)) = 5401 /\
  m_steps (asn1_all_children (asn1_nulls 100)) = 20801.
Proof. split; [exact (asn1_all_children_nulls 50) | exact (asn1_all_children_nulls 100)]. Qed.
