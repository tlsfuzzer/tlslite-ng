(* C11 -- what the decrypt theorems assume of the HMAC oracle and of the key size *)
From Coq Require Import ZArith List Bool.
From TV Require Import Base.Prelude Base.C11_Lib.
Open Scope Z_scope.

Definition hmac_ok (hmac : list Z -> list Z -> list Z) : Prop :=
  (forall k m, zlen (hmac k m) = 32) /\ (forall k m, all_bytes (hmac k m) = true).
Definition key_size_ok (n : Z) : Prop := 11 <= numBytes n <= 65535.
