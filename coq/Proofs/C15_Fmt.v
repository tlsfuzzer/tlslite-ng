(* C15 -- the generic lemmas about the format language (Model/C15_Fmt.v).  [accepts f pre v] (the bytes [pre] stand
   for the value v in format f) is a record of three clauses about [encode] and [decode]; one lemma per constructor
   of the format (two for FRep and FOpt, empty or not) proves it of the bytes the parts are made of; two inductions
   over the format term say that what [decode] consumed is accepted ([decode_inv]) and that [encode] succeeds exactly
   on the values that fit, with accepted bytes ([encode_spec]); round trip and strictness are read off the fields of
   [accepts], "fits" off [encode_spec].
   The constructor lemmas are introductions only: nothing takes an acceptance apart.  To read one backwards go through
   [acc_all], the clause of [decode] ([bounded_inv] is that clause read backwards for FBounded) and [decode_ok] for the parts.
   They take a field as the byte string a that was read (width zlen a, value be_val a), which is how [decode_inv]
   meets them; for a field given by its width n and value x put a := be_bytes (Z.to_nat n) x and rewrite with
   be_zlen_Z and num_be_Z, as [w_add_nil_spec] does for [encode_spec]. *)
From Coq Require Import ZArith List Bool Lia.
From TV Require Import Base.Prelude Base.PreludeFacts Base.Bytes Model.C15_Codec Model.C15_Fmt Proofs.C15_Codec.
Import ListNotations.
Open Scope Z_scope.

(* two facts about [take] and [zlen] for whoever needs them: nothing below rests on them *)
Lemma take_short n bs : zlen bs < n -> take n bs = Err DecodeError.
Proof.
  intros H. unfold take. destruct ((0 <=? n) && (n <=? zlen bs)) eqn:E; [lia|reflexivity].
Qed.

Lemma zlen_nil_iff {A} (a : list A) : zlen a = 0 <-> a = [].
Proof. split; [apply zlen_0_nil|intros ->; reflexivity]. Qed.

(* the FRep clauses of encode, wf_val and vsize are nested fixpoints, of which cbn would show the inner [fix]:
   their cons step as an equation *)
Lemma encode_rep_cons f h t :
  encode (FRep f) (VCons h t) = (x <- encode f h ;; y <- encode (FRep f) t ;; Ok (x ++ y)).
Proof. reflexivity. Qed.
Lemma wf_val_rep_cons f h t : wf_val (FRep f) (VCons h t) = (wf_val f h /\ wf_val (FRep f) t).
Proof. reflexivity. Qed.
Lemma vsize_rep_cons f h t : vsize (FRep f) (VCons h t) = vsize f h + vsize (FRep f) t.
Proof. reflexivity. Qed.

(* [acc_enc] asks for bytes because decode reads any list of integers, while encode refuses what is not a
   byte; [acc_dec] holds in front of a rest only for a self-delimiting format: FRest and FRep read to the end of
   their input, and FOpt asks whether it is empty *)
Record accepts (f : fmt) (pre : list Z) (v : val) : Prop := {
  acc_pos : nonempty f = true -> 0 < zlen pre;
  acc_enc : all_bytes pre = true -> encode f v = Ok pre;
  acc_dec : wf_fmt f -> forall r, delim f \/ r = [] -> decode f (pre ++ r) = Ok (v, r) }.
Arguments acc_pos {f pre v}.
Arguments acc_enc {f pre v}.
Arguments acc_dec {f pre v}.

Lemma acc_all {f pre v} : accepts f pre v -> wf_fmt f -> decode f pre = Ok (v, []).
Proof. intros A W. rewrite <- (app_nil_r pre) at 1. apply (acc_dec A W). right. reflexivity. Qed.

(* a field read by [take] has its own length as width, FU (zlen a): [take_app] applies as it stands *)
Lemma accepts_FU a : accepts (FU (zlen a)) a (VInt (be_val a)).
Proof.
  split.
  - cbn [nonempty]. lia.
  - exact (w_add_be_val [] a).
  - intros _ r _. cbn [decode]. rewrite take_app. reflexivity.
Qed.

Lemma accepts_FConst a : accepts (FConst (zlen a) (be_val a)) a (VInt (be_val a)).
Proof.
  split.
  - cbn [nonempty]. lia.
  - cbn [encode]. rewrite Z.eqb_refl. exact (w_add_be_val [] a).
  - intros _ r _. cbn [decode]. rewrite take_app. cbn [bind]. rewrite Z.eqb_refl. reflexivity.
Qed.

Lemma accepts_FFix a : accepts (FFix (zlen a)) a (VBytes a).
Proof.
  split.
  - cbn [nonempty]. lia.
  - intros B. cbn [encode]. rewrite Z.eqb_refl, B. reflexivity.
  - intros _ r _. cbn [decode]. rewrite take_app. reflexivity.
Qed.

Lemma accepts_FRest lo hi a : in_range lo hi (zlen a) = true -> accepts (FRest lo hi) a (VBytes a).
Proof.
  intros R. split.
  - cbn [nonempty]. apply andb_true_iff in R. lia.
  - intros B. cbn [encode]. rewrite R, B. reflexivity.
  - intros _ r [[]| ->]. cbn [decode]. rewrite app_nil_r, R. reflexivity.
Qed.

Lemma accepts_FSeq f1 f2 p1 p2 a b :
  accepts f1 p1 a -> accepts f2 p2 b -> accepts (FSeq f1 f2) (p1 ++ p2) (VPair a b).
Proof.
  intros A1 A2. split.
  - cbn [nonempty]. rewrite zlen_app. pose proof (zlen_nonneg p1). pose proof (zlen_nonneg p2).
    intros N. apply orb_true_iff in N. destruct N as [N|N]; [apply (acc_pos A1) in N|apply (acc_pos A2) in N]; lia.
  - rewrite all_bytes_app. intros [B1 B2]%andb_prop. cbn [encode]. rewrite (acc_enc A1 B1). cbn [bind].
    rewrite (acc_enc A2 B2). reflexivity.
  - intros [D1 [W1 W2]] r Hr. cbn [decode]. rewrite <- app_assoc, (acc_dec A1 W1 _ (or_introl D1)). cbn [bind].
    rewrite (acc_dec A2 W2 r); [reflexivity|]. destruct Hr as [[_ D2]|E]; auto.
Qed.

Lemma accepts_FBounded f lb body v :
  zlen body = be_val lb -> accepts f body v -> accepts (FBounded (zlen lb) f) (lb ++ body) v.
Proof.
  intros L A. split.
  - cbn [nonempty]. rewrite zlen_app. pose proof (zlen_nonneg body). lia.
  - rewrite all_bytes_app. intros [B1 B2]%andb_prop. cbn [encode]. rewrite (acc_enc A B2). cbn [bind].
    unfold w_add_var_bytes. rewrite L, (w_add_be_val [] lb B1). reflexivity.
  - intros [_ W] r _. cbn [decode]. rewrite <- app_assoc, take_app. cbn [bind].
    rewrite <- L, take_app. cbn [bind]. rewrite (acc_all A W). reflexivity.
Qed.

Lemma accepts_FRep_nil f : accepts (FRep f) [] VNil.
Proof. split; [discriminate|reflexivity|intros _ r [[]| ->]; reflexivity]. Qed.

Lemma rep_dec_fuel {dec k k' bs x} : rep_dec dec k bs = Ok x -> (k <= k')%nat -> rep_dec dec k' bs = Ok x.
Proof.
  revert k' bs x. induction k as [|k IH]; intros k' [|b bs] x H L.
  1, 3: destruct k'; exact H.   (* the empty input: VNil on any fuel *)
  - discriminate H.
  - destruct k' as [|k']; [lia|]. cbn [rep_dec] in *.
    destruct (dec (b :: bs)) as [[v r]|]; cbn [bind] in *; [|discriminate].
    destruct (length r <? length (b :: bs))%nat; [|discriminate].
    destruct (rep_dec dec k r) as [y|] eqn:E; [|discriminate]. rewrite (IH k' r y E) by lia. exact H.
Qed.

Lemma accepts_FRep_cons f p1 p2 h t :
  accepts f p1 h -> accepts (FRep f) p2 t -> accepts (FRep f) (p1 ++ p2) (VCons h t).
Proof.
  intros A1 A2. split; [discriminate| |].
  - rewrite all_bytes_app. intros [B1 B2]%andb_prop. rewrite encode_rep_cons, (acc_enc A1 B1). cbn [bind].
    rewrite (acc_enc A2 B2). reflexivity.
  - (* the first element takes at least one byte, so the fuel left covers the rest *)
    intros W r [[]| ->]. pose proof W as [D [N W1]]. rewrite app_nil_r. pose proof (acc_pos A1 N) as P.
    destruct p1 as [|b p1]; [cbn in P; lia|]. cbn [decode app length rep_dec].
    change (b :: p1 ++ p2) with ((b :: p1) ++ p2). rewrite (acc_dec A1 W1 p2 (or_introl D)). cbn [bind].
    rewrite (proj2 (Nat.ltb_lt _ _)) by (rewrite app_length; cbn [length]; lia).
    rewrite (rep_dec_fuel (acc_all A2 W)); [reflexivity|]. rewrite app_length. lia.
Qed.

Lemma accepts_FOpt_none f : accepts (FOpt f) [] VNone.
Proof. split; [discriminate|reflexivity|intros _ r [[]| ->]; reflexivity]. Qed.

Lemma accepts_FOpt_some f pre v : accepts f pre v -> accepts (FOpt f) pre (VSome v).
Proof.
  intros A. split; [discriminate|exact (acc_enc A)|]. intros [N W] r [[]| ->]. rewrite app_nil_r.
  pose proof (acc_pos A N) as P. cbn [decode]. rewrite (acc_all A W). destruct pre; [cbn in P; lia|reflexivity].
Qed.

Lemma accepts_FTag sel a pre v :
  accepts (sel (be_val a)) pre v -> accepts (FTag (zlen a) sel) (a ++ pre) (VTag (be_val a) v).
Proof.
  intros A. split.
  - cbn [nonempty]. rewrite zlen_app. pose proof (zlen_nonneg pre). lia.
  - rewrite all_bytes_app. intros [B1 B2]%andb_prop. cbn [encode]. rewrite (w_add_be_val [] a B1). cbn [bind app].
    rewrite (acc_enc A B2). reflexivity.
  - intros [_ W] r Hr. cbn [decode]. rewrite <- app_assoc, take_app. cbn [bind].
    rewrite (acc_dec A (W _) r); [reflexivity|]. destruct Hr as [D|E]; [left; apply D|right; exact E].
Qed.

Lemma accepts_FCheck p f pre v : p v = true -> accepts f pre v -> accepts (FCheck p f) pre v.
Proof.
  intros Ep A. split.
  - exact (acc_pos A).
  - intros B. cbn [encode]. rewrite Ep. exact (acc_enc A B).
  - intros W r Hr. cbn [decode]. rewrite (acc_dec A W r Hr). cbn [bind]. rewrite Ep. reflexivity.
Qed.

Definition decoded (f : fmt) (bs : list Z) (o : res (val * list Z)) : Prop :=
  match o with
  | Ok (v, r) => exists pre, bs = pre ++ r /\ accepts f pre v
  | Err e => e = DecodeError
  end.

Lemma decoded_ok f pre r v : accepts f pre v -> decoded f (pre ++ r) (Ok (v, r)).
Proof. intros A. exists pre. split; [reflexivity|exact A]. Qed.

(* [p0] is what the enclosing format f has consumed already; o decodes what follows by f1 *)
Lemma decoded_bind f1 f p0 bs o (k : val * list Z -> res (val * list Z)) :
  decoded f1 bs o ->
  (forall pre v r, bs = pre ++ r -> accepts f1 pre v -> decoded f ((p0 ++ pre) ++ r) (k (v, r))) ->
  decoded f (p0 ++ bs) (x <- o ;; k x).
Proof.
  intros I K. destruct o as [[v r]|e]; cbn [bind]; [|exact I].
  destruct I as [pre [E A]]. rewrite E, app_assoc. apply K; assumption.
Qed.

Lemma decoded_take f n p0 bs (k : list Z * list Z -> res (val * list Z)) :
  (forall a r, zlen a = n -> decoded f ((p0 ++ a) ++ r) (k (a, r))) ->
  decoded f (p0 ++ bs) (x <- take n bs ;; k x).
Proof. intros K. destruct (takeP n bs) as [a r -> L|]; cbn [bind]; [rewrite app_assoc; apply K, L|reflexivity]. Qed.

(* the fuel never runs out: each round consumes at least one byte *)
Lemma rep_dec_inv f1 :
  nonempty f1 = true -> (forall bs, decoded f1 bs (decode f1 bs)) ->
  forall fuel bs, (length bs <= fuel)%nat -> decoded (FRep f1) bs (rep_dec (decode f1) fuel bs).
Proof.
  assert (decoded (FRep f1) [] (Ok (VNil, []))) as Nil by apply (decoded_ok _ [] []), accepts_FRep_nil.
  intros N IH fuel. induction fuel as [|k IHk]; intros [|b bs] F; cbn [rep_dec];
    [exact Nil|cbn in F; lia|exact Nil|].
  apply (decoded_bind f1 _ []); [apply IH|]. intros p1 v r EQ A1. cbv beta iota.
  pose proof (acc_pos A1 N) as P.
  assert (length r < length (b :: bs))%nat as Lt by (rewrite EQ, app_length; unfold zlen in P; lia).
  rewrite (proj2 (Nat.ltb_lt _ _) Lt).
  apply (decoded_bind (FRep f1) _ p1); [apply IHk; cbn [length] in *; lia|]. intros p2 vs r2 _ A2.
  apply decoded_ok, accepts_FRep_cons; assumption.
Qed.

Lemma decode_inv f : wf_fmt f -> forall bs, decoded f bs (decode f bs).
Proof.
  induction f as [n|n c|n|lo hi|f1 IH1 f2 IH2|ll f1 IH1|f1 IH1|f1 IH1|n sel IH|p f1 IH1];
    intros W bs; cbn [decode]; cbn [wf_fmt] in W.
  (* at the outermost bind nothing has been consumed: p0 = [], and [] ++ bs is bs by conversion *)
  - apply (decoded_take _ _ []). intros a r <-. apply decoded_ok, accepts_FU.
  - apply (decoded_take _ _ []). intros a r <-. cbv beta iota.
    destruct (be_val a =? c) eqn:Ec; [|reflexivity]. apply Z.eqb_eq in Ec. subst c.
    apply decoded_ok, accepts_FConst.
  - apply (decoded_take _ _ []). intros a r <-. apply decoded_ok, accepts_FFix.
  - destruct (in_range lo hi (zlen bs)) eqn:R; [|reflexivity].
    exists bs. split; [symmetry; apply app_nil_r|apply accepts_FRest, R].
  - destruct W as [D1 [W1 W2]].
    apply (decoded_bind f1 _ []); [apply IH1, W1|]. intros p1 a r1 _ A1.
    apply (decoded_bind f2 _ p1); [apply IH2, W2|]. intros p2 b r2 _ A2.
    apply decoded_ok, accepts_FSeq; assumption.
  - destruct W as [Wl W1].
    apply (decoded_take _ _ []). intros lb r <-.
    apply (decoded_take _ _ lb). intros body r2 L. cbv beta iota.
    specialize (IH1 W1 body). destruct (decode f1 body) as [[v r3]|e]; cbn [bind]; [|exact IH1].
    destruct r3 as [|x r3]; cbn [is_nil]; [|reflexivity].
    destruct IH1 as [p [EQ A]]. rewrite app_nil_r in EQ. subst p.
    apply decoded_ok, accepts_FBounded; assumption.
  - destruct W as [D1 [N1 W1]]. exact (rep_dec_inv f1 N1 (IH1 W1) (length bs) bs (le_n _)).
  - destruct W as [N1 W1]. destruct bs as [|b bs].
    + apply (decoded_ok _ [] []), accepts_FOpt_none.
    + apply (decoded_bind f1 _ []); [apply IH1, W1|]. intros pre v r _ A.
      apply decoded_ok, accepts_FOpt_some, A.
  - destruct W as [Wn W]. apply (decoded_take _ _ []). intros a r <-.
    apply (decoded_bind (sel (be_val a)) _ a); [apply IH, W|]. intros pre v r2 _ A.
    apply decoded_ok, accepts_FTag, A.
  - apply (decoded_bind f1 _ []); [apply IH1, W|]. intros pre v r _ A. cbv beta iota.
    destruct (p v) eqn:Ep; [|reflexivity]. apply decoded_ok, accepts_FCheck; assumption.
Qed.

Lemma decode_ok f bs v r :
  wf_fmt f -> decode f bs = Ok (v, r) -> exists pre, bs = pre ++ r /\ accepts f pre v.
Proof. intros W H. pose proof (decode_inv f W bs) as I. rewrite H in I. exact I. Qed.

Lemma decode_err f bs e : wf_fmt f -> decode f bs = Err e -> e = DecodeError.
Proof. intros W H. pose proof (decode_inv f W bs) as I. rewrite H in I. exact I. Qed.

Lemma decode_progress f bs v r :
  wf_fmt f -> nonempty f = true -> decode f bs = Ok (v, r) -> zlen r < zlen bs.
Proof.
  intros W N H. destruct (decode_ok f bs v r W H) as [pre [-> A]]. rewrite zlen_app.
  pose proof (acc_pos A N). lia.
Qed.

Lemma decode_ext f pre r v :
  wf_fmt f -> delim f -> decode f (pre ++ r) = Ok (v, r) -> forall r', decode f (pre ++ r') = Ok (v, r').
Proof.
  intros W D H. destruct (decode_ok f _ v r W H) as [p [EQ A]].
  apply app_inv_tail in EQ. subst p. intros r'. exact (acc_dec A W r' (or_introl D)).
Qed.

Lemma decode_ext_nil f pre v :
  wf_fmt f -> delim f -> decode f pre = Ok (v, []) -> forall r, decode f (pre ++ r) = Ok (v, r).
Proof. intros W D H. apply (decode_ext f pre []); [exact W|exact D|]. rewrite app_nil_r. exact H. Qed.

(* the format would accept the same prefix of the full input, and leave more than it did *)
Lemma decode_truncated f :
  wf_fmt f -> delim f -> forall pre r v, decode f (pre ++ r) = Ok (v, r) ->
  forall k, (k < length pre)%nat -> decode f (firstn k pre) = Err DecodeError.
Proof.
  intros W D pre r v H k Hk. pose proof (decode_inv f W (firstn k pre)) as I.
  destruct (decode f (firstn k pre)) as [[v' r']|e]; [exfalso|rewrite I; reflexivity].
  destruct I as [p' [EQ A]]. pose proof (acc_dec A W (r' ++ skipn k pre ++ r) (or_introl D)) as K.
  rewrite !app_assoc, <- EQ, firstn_skipn, H in K. injection K as _ K.
  apply (f_equal (@length Z)) in K. rewrite !app_length, skipn_length in K. lia.
Qed.

Lemma bounded_inv ll f bs v r :
  decode (FBounded ll f) bs = Ok (v, r) ->
  exists lb body, bs = lb ++ body ++ r /\ zlen lb = ll /\ zlen body = be_val lb /\
                  decode f body = Ok (v, []).
Proof.
  cbn [decode]. destruct (takeP ll bs) as [lb r1 -> L|]; cbn [bind]; [|discriminate].
  destruct (takeP (be_val lb) r1) as [body r2 -> L0|]; cbn [bind]; [|discriminate].
  destruct (decode f body) as [[v' [|x r3]]|] eqn:E; cbn [bind is_nil]; try discriminate.
  intros H. injection H as <- <-. exists lb, body. auto.
Qed.

(* an accepted input would split as [bounded_inv] says, and the self-delimiting f would consume both the
   declared body and [enc] in full from the same input: they are equal, and so are their lengths *)
Lemma bounded_length_mismatch ll f :
  wf_fmt (FBounded ll f) -> delim f ->
  forall enc v, decode f enc = Ok (v, []) ->
  forall n rest, 0 <= n < 256 ^ ll -> n <> zlen enc ->
  decode (FBounded ll f) (be_bytes (Z.to_nat ll) n ++ enc ++ rest) = Err DecodeError.
Proof.
  intros W D enc v H n rest Hn Hne.
  destruct (decode (FBounded ll f) _) as [[v' r]|e] eqn:E; [exfalso|f_equal; exact (decode_err _ _ _ W E)].
  apply bounded_inv in E as (lb & body & EQ & L1 & L2 & E'). destruct W as [Hl W].
  apply app_inv_len in EQ as [<- EQ]; [|apply Nat2Z.inj; fold (zlen lb); rewrite L1; apply be_zlen_Z; lia].
  rewrite num_be_Z in L2 by lia.
  pose proof (decode_ext_nil f body v' W D E' r) as K.
  rewrite <- EQ, (decode_ext_nil f enc v W D H rest) in K. injection K as _ <-.
  apply app_inv_tail in EQ. congruence.
Qed.

Definition ok_iff (P : Prop) (s : Z) (Q : list Z -> Prop) (o : res (list Z)) : Prop :=
  match o with
  | Ok bs => P /\ zlen bs = s /\ Q bs
  | Err _ => ~ P
  end.

Lemma ok_iff_impl {P s} {Q Q' : list Z -> Prop} {o} : ok_iff P s Q o -> (forall bs, Q bs -> Q' bs) -> ok_iff P s Q' o.
Proof. destruct o as [bs|]; cbn [ok_iff]; [|tauto]. intros (H & L & K) I. auto. Qed.

Lemma ok_iff_app {P1 P2 s1 s2} {Q1 Q2 Q : list Z -> Prop} {o1 o2} :
  ok_iff P1 s1 Q1 o1 -> ok_iff P2 s2 Q2 o2 -> (forall x y, Q1 x -> Q2 y -> Q (x ++ y)) ->
  ok_iff (P1 /\ P2) (s1 + s2) Q (x <- o1 ;; y <- o2 ;; Ok (x ++ y)).
Proof.
  destruct o1 as [x|]; cbn [bind ok_iff]; [|tauto].
  destruct o2 as [y|]; cbn [bind ok_iff]; [|tauto].
  intros (H1 & L1 & K1) (H2 & L2 & K2) K. rewrite zlen_app, L1, L2. auto.
Qed.

(* the bytes written, given as the rules for FU, FConst and FTag take a field: by length and value *)
Lemma w_add_nil_spec x n :
  ok_iff (0 <= n /\ 0 <= x < 256 ^ n) n (fun a => zlen a = n /\ be_val a = x) (w_add [] x n).
Proof.
  destruct (w_add [] x n) as [a|] eqn:E; cbn [ok_iff].
  - apply w_add_ok in E as [R ->]. cbn [app]. rewrite be_zlen_Z, num_be_Z by apply R. auto.
  - intros R. pose proof (proj2 (w_add_ok [] x n _) (conj R eq_refl)). congruence.
Qed.

Lemma encode_spec f : forall v, ok_iff (wf_val f v) (vsize f v) (fun bs => accepts f bs v) (encode f v).
Proof.
  induction f as [n|n c|n|lo hi|f1 IH1 f2 IH2|ll f1 IH1|f1 IH1|f1 IH1|n sel IH|p f1 IH1].
  - intros [x| | | | | | |].
    2-8: intros [].   (* a value of another shape: encode fails, and wf_val is False *)
    apply (ok_iff_impl (w_add_nil_spec x n)).
    intros a [<- <-]. apply accepts_FU.
  - intros [x| | | | | | |]. 2-8: intros []. cbn [encode]. destruct (x =? c) eqn:Ec.
    + apply Z.eqb_eq in Ec. subst x. pose proof (w_add_nil_spec c n) as S.
      destruct (w_add [] c n) as [a|]; cbn [ok_iff wf_val vsize] in *; [|tauto].
      destruct S as (H & L & <- & <-). split; [tauto|]. split; [exact L|]. apply accepts_FConst.
    + intros [-> _]. rewrite Z.eqb_refl in Ec. discriminate.
  - intros [|b| | | | | |]. 1, 3-8: intros []. cbn [encode].
    destruct ((zlen b =? n) && all_bytes b) eqn:E; cbn [ok_iff wf_val vsize].
    + apply andb_true_iff in E. rewrite Z.eqb_eq in E. destruct E as [<- B].
      split; [split; [reflexivity|exact B]|]. split; [reflexivity|apply accepts_FFix].
    + intros [<- B]. rewrite Z.eqb_refl, B in E. discriminate.
  - intros [|b| | | | | |]. 1, 3-8: intros []. cbn [encode].
    destruct (in_range lo hi (zlen b) && all_bytes b) eqn:E; cbn [ok_iff wf_val vsize].
    + apply andb_true_iff in E. destruct E as [R B]. split; [split; assumption|]. split; [reflexivity|apply accepts_FRest, R].
    + intros [R B]. rewrite R, B in E. discriminate.
  - intros [| |a b| | | | |]. 1-2, 4-8: intros [].
    exact (ok_iff_app (IH1 a) (IH2 b) (fun x y => accepts_FSeq f1 f2 x y a b)).
  - intros v. cbn [encode]. specialize (IH1 v).
    destruct (encode f1 v) as [x|]; cbn [bind]; [|intros [K _]; exact (IH1 K)].
    destruct IH1 as (Wv & Sz & A). unfold w_add_var_bytes. pose proof (w_add_nil_spec (zlen x) ll) as S.
    pose proof (zlen_nonneg x). destruct (w_add [] (zlen x) ll) as [lb|]; cbn [bind ok_iff wf_val vsize app] in *.
    + destruct S as (Hl & L & <- & E). rewrite zlen_app, <- Sz. split; [split; [exact Wv|lia]|]. split; [lia|].
      apply accepts_FBounded; [symmetry; exact E|exact A].
    + rewrite <- Sz. intros [_ K]. apply S. lia.
  - intros v. induction v as [| | | |h _ t IHt| | |]. 1-3, 6-8: intros [].
    + split; [exact I|]. split; [reflexivity|apply accepts_FRep_nil].
    + exact (ok_iff_app (IH1 h) IHt (fun x y => accepts_FRep_cons f1 x y h t)).
  - intros [| | | | | |v|]. 1-5, 8: intros [].
    + split; [exact I|]. split; [reflexivity|apply accepts_FOpt_none].
    + exact (ok_iff_impl (IH1 v) (fun bs => accepts_FOpt_some f1 bs v)).
  - intros [| | | | | | |t v]. 1-7: intros []. apply (ok_iff_app (w_add_nil_spec t n) (IH t v)).
    intros a y [<- <-]. apply accepts_FTag.
  - intros v. cbn [encode]. destruct (p v) eqn:Ep.
    + specialize (IH1 v). destruct (encode f1 v); cbn [ok_iff wf_val vsize] in *; [|tauto].
      destruct IH1 as (Wv & Sz & A). split; [split; [exact Ep|exact Wv]|]. split; [exact Sz|]. apply accepts_FCheck; assumption.
    + intros [K _]. congruence.
Qed.

Lemma encode_accepts f v bs : encode f v = Ok bs -> accepts f bs v.
Proof. intros H. pose proof (encode_spec f v) as S. rewrite H in S. apply S. Qed.

Lemma decode_encode_nil f : wf_fmt f -> forall v bs, encode f v = Ok bs -> decode f bs = Ok (v, []).
Proof. intros W v bs H. exact (acc_all (encode_accepts f v bs H) W). Qed.
