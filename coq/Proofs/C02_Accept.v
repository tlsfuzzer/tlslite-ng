(* C02: what each receive path accepts is a protection, by a sender in step with the
   receiver (same key, cipher state and sequence number), of the record it yields: the steps of
   Proofs/C01_RoundTrip.v read from the receiver's side, and for the two CBC receivers the cipher
   step read backwards under the converse contract cipher_onto (cbc_enc_dec). *)
From Coq Require Import ZArith List Lia.
From TV Require Import Base.Prelude Base.PreludeFacts Spec.CbcCheck Model.C01_RecordPipe Spec.C01_Contracts
  Model.C02_RecordAccept Spec.C02_Ideal Proofs.C01_Lists Proofs.C01_Cbc Proofs.C01_RoundTrip Proofs.C02_Cbc.
Import ListNotations.
Open Scope Z_scope.

Section Acc.
Context {CS : Type}.
Variable P : Prim CS.
Variable R : CS -> CS -> Prop.
Variable c : Cfg.

(* decrypt() of a byte string is a byte string (bytearray); needed because the padding length
   is read from the decrypted text *)
Definition dec_bytes : Prop := forall cs y, bytes_list y -> bytes_list (snd (pr_dec P cs y)).

(* the converse contract on the oracles, path by path; C02_Corollaries.onto_ok, in which Props/C02.v is
   written, is the same match (onto_ok_eq) *)
Definition onto (md : mode) : Prop :=
  match md with
  | MStream => c_has_enc c = true -> cipher_onto P R 1
  | MCbc => cipher_onto P R (c_bs c)
  | MEtm => c_has_enc c = true -> cipher_onto P R (c_bs c)
  | _ => aead_tight P
  end.

(* only the two CBC paths read a length out of the decrypted text *)
Definition bytes_ok (md : mode) (body : list Z) : Prop :=
  match md with
  | MCbc => dec_bytes /\ bytes_list body /\ zlen body < 65536
  | MEtm => dec_bytes /\ bytes_list body
  | _ => True
  end.

Definition path_accept_at (md : mode) : Prop := forall (s r r' : St CS) ty hver data body,
  mode_ok P R md c -> onto md -> bytes_ok md body -> sync R s r ->
  recv_path P c md r ty hver body = ROk (r', data) ->
  exists ch s', legal c md ch /\ send_path_with P c md s ty data ch = ROk (s', body) /\ sync R s' r' /\
                st_seq r' = st_seq r + 1.

Lemma cbc_strip_split d : 0 < c_bs c -> 0 < zlen (cbc_strip c d) ->
  exists ivb, zlen ivb = iv_len c /\ d = ivb ++ cbc_strip c d.
Proof.
  unfold iv_len, cbc_strip. intros Hbs. destruct (ver_le (3, 2) (c_ver c)); intros Hne.
  - exists (ztake (c_bs c) d). split; [|symmetry; apply ztake_zdrop].
    apply zlen_ztake. split; [lia|].
    destruct (Z_le_gt_dec (c_bs c) (zlen d)) as [L|G]; [exact L|].
    rewrite zdrop_all in Hne by lia. destruct (Z.lt_irrefl 0 Hne).
  - exists []. auto.
Qed.

(* the sender's choice is read off the decrypted text: the padding from its shape, the plaintext of the
   IV block is what cbc_strip dropped; by cipher_onto the sender in step encrypts that text to ct again *)
Lemma cbc_enc_dec cs cr ct (x padb : list Z) :
  0 < c_bs c -> cipher_onto P R (c_bs c) -> R cs cr -> zlen ct mod c_bs c = 0 ->
  cbc_strip c (snd (pr_dec P cr ct)) = x ++ padb ++ [zlen padb] ->
  exists ch, ch_pad ch = padb /\ zlen (ch_ivb ch) = iv_len c /\
    zlen (cbc_padded ch x) = zlen ct /\
    snd (pr_enc P cs (cbc_padded ch x)) = ct /\
    R (fst (pr_enc P cs (cbc_padded ch x))) (fst (pr_dec P cr ct)).
Proof.
  intros Hbs Honto HR Emod Hshape. destruct (Honto cs cr ct HR Emod) as [Hencb [Hdl HR']].
  destruct (cbc_strip_split (snd (pr_dec P cr ct))) as [ivb [Hivl Hd]];
    [exact Hbs|rewrite Hshape, zlen_padded; pose proof (zlen_nonneg x); pose proof (zlen_nonneg padb); lia|].
  exists {| ch_pad := padb; ch_ivb := ivb; ch_nonce := []; ch_zeros := 0 |}.
  unfold cbc_padded. cbn [ch_pad ch_ivb]. rewrite <- Hshape, <- Hd, Hdl. auto.
Qed.

Lemma stream_accept : path_accept_at MStream.
Proof.
  intros s r r' ty hver data body Hmode Honto _ Hsync Hacc. pose proof Hmode as [_ [L%legacy_cfg_of [_ [Hblk _]]]].
  pose proof (l_mac L) as Hm.
  pose proof Hsync as [HR [Hseq H0]]. cbn [recv_path send_path_with legal onto] in *.
  exists no_choice. rewrite mte_body_with_stream by exact Hblk. unfold mac_then_encrypt. rewrite Hblk. cbn [andb].
  apply (stream_recv _ _ _ _ _ _ Hm), check_mac_inv in Hacc. destruct Hacc as [Hpre [-> [Hd _]]].
  destruct (c_has_enc c) eqn:He.
  - destruct (Honto eq_refl (st_cs s) (st_cs r) body HR (Z.mod_1_r _)) as [Henc [Hdl HR']].
    cbn [set_cs st_seq] in Hpre, Hd. rewrite <- Hseq in Hpre, Hd.
    rewrite append_mac_ok by assumption. cbn [rbind bump st_cs]. rewrite <- Hd, Henc.
    eexists. split; [exact I|]. split; [reflexivity|]. split; [exact (sync_next R s r _ _ Hsync HR')|reflexivity].
  - rewrite <- Hseq in Hpre, Hd. rewrite append_mac_ok by assumption. cbn [rbind]. rewrite <- Hd.
    eexists. split; [exact I|]. split; [reflexivity|]. split; [exact (sync_bump R s r Hsync)|reflexivity].
Qed.

Lemma bytes_list_strip d : bytes_list d -> bytes_list (cbc_strip c d).
Proof. unfold cbc_strip. destruct (ver_le (3, 2) (c_ver c)); [apply bytes_list_zdrop|auto]. Qed.

Lemma cbc_accept : path_accept_at MCbc.
Proof.
  intros s r r' ty hver data body Hmode Honto [Hdb [Hbb Hb16]] Hsync Hacc.
  pose proof Hmode as [_ [L%legacy_cfg_of [_ [Henc Bk%block_cfg_of]]]].
  pose proof (l_ver L) as Hv. pose proof (l_mac L) as Hm. pose proof (l_ds L) as Hds.
  pose proof (b_block Bk) as Hb1. pose proof (b_bs Bk) as Hbs.
  pose proof Hsync as [HR [Hseq H0]]. cbn [recv_path send_path_with legal onto] in *.
  rewrite (cbc_recv P c _ _ _ L Hb1) in Hacc.
  destruct (zlen body mod c_bs c =? 0) eqn:Emod; [|discriminate]. cbn [negb] in Hacc. cbv zeta in Hacc.
  apply Z.eqb_eq in Emod.
  apply rbind_ok_inv in Hacc. destruct Hacc as [[seqb s2] [Hns Hacc]].
  apply next_seq_inv in Hns. cbn [set_cs st_seq st_cs] in Hns. destruct Hns as [Hrange [-> ->]].
  destruct (is_byte ty) eqn:Hb; [|discriminate]. cbn [negb] in Hacc.
  destruct (well_formed _ _ _ _ _ _) eqn:Hwf; [|discriminate]. injection Hacc as <- <-.
  assert (Hds0 : 0 <= mac_ds (pr_mac P)) by (unfold ds in Hds; lia).
  destruct (well_formed_elim _ _ _ _ _ _ Hds0 (bytes_list_strip _ (Hdb _ _ Hbb)) Hwf)
    as [dd [t [padb [p [Hdec [Htl [[Hpl Hpad] [Htag Hp]]]]]]]].
  rewrite Hdec. unfold ds. rewrite (strip_intro (pr_mac P)) by assumption.
  subst p t. fold (tag P c (st_seq r) ty dd) in Hdec, Htl. rewrite <- Hseq in Hdec, Htl, Hrange. rewrite app_assoc in Hdec.
  destruct (cbc_enc_dec (st_cs s) (st_cs r) body _ padb ltac:(lia) Honto HR Emod Hdec)
    as [ch [Hcp [Hivl [Hlen [Hencb HR']]]]].
  assert (Hdd : zlen dd < 65536).
  { rewrite <- Hlen, zlen_cbc_padded, zlen_app in Hb16. pose proof (zlen_nonneg (ch_ivb ch)). pose proof (zlen_nonneg (ch_pad ch)).
    pose proof (zlen_nonneg (tag P c (st_seq s) ty dd)). lia. }
  exists ch. unfold mte_body_with. rewrite append_mac_ok by (unfold mac_pre; auto).
  cbn [rbind]. rewrite Henc, Hb1, Hlen, Emod. cbn [andb Z.eqb negb bump st_cs]. rewrite Hencb.
  eexists. split; [unfold pad_legal; rewrite Hcp; split; [lia|]; split; [exact Hpad|exact Hivl]|].
  split; [reflexivity|]. split; [exact (sync_next R s r _ _ Hsync HR')|reflexivity].
Qed.

Definition pad_legal_etm (ch : Choice) : Prop :=
  zlen (ch_pad ch) <= 255 /\
  (is_ssl3 (c_ver c) = true \/ Forall (fun b => b = zlen (ch_pad ch)) (ch_pad ch)) /\
  zlen (ch_ivb ch) = (if ver_le (3, 2) (c_ver c) then c_bs c else 0).

Lemma etm_seal_open (s r r1 : St CS) ct data :
  (c_has_enc c = true -> 0 < c_bs c /\ cipher_onto P R (c_bs c)) -> dec_bytes -> bytes_list ct ->
  R (st_cs s) (st_cs r) -> etm_open P c r ct = ROk (r1, data) ->
  exists ch s1, (c_has_enc c = true -> pad_legal_etm ch) /\ etm_seal P c s data ch = ROk (s1, ct) /\
                R (st_cs s1) (st_cs r1) /\ st_seq s1 = st_seq s /\ st_seq r1 = st_seq r.
Proof.
  intros Honto Hdb Hctb HR Hacc. unfold etm_open, etm_seal in *.
  destruct (c_has_enc c); [|injection Hacc as <- <-; exists no_choice, s; split; [discriminate|auto]].
  destruct (Honto eq_refl) as [Hbs Hon]. unfold cbc_open in Hacc.
  destruct (zlen ct mod c_bs c =? 0) eqn:Emod; [|discriminate]. cbn [negb] in Hacc. apply Z.eqb_eq in Emod.
  cbv zeta in Hacc. destruct (zlen (cbc_strip c _) =? 0); [discriminate|].
  destruct (etm_padding_ok c _) eqn:Epad; [|discriminate]. injection Hacc as <- <-.
  destruct (etm_padding_elim c _ (bytes_list_strip _ (Hdb _ _ Hctb)) Epad) as [dd [padb [Hdec [Hp255 Hpad]]]].
  rewrite Hdec, etm_strip_padded.
  destruct (cbc_enc_dec (st_cs s) (st_cs r) ct dd padb Hbs Hon HR Emod Hdec) as [ch [Hcp [Hivl [Hlen [Hencb HR']]]]].
  exists ch. rewrite Hlen, Emod, Hencb. eexists. split; [intros _; unfold pad_legal_etm; rewrite Hcp; auto|]. split; [reflexivity|]. auto.
Qed.

Lemma etm_accept : path_accept_at MEtm.
Proof.
  intros s r r' ty hver data body Hmode Honto [Hdb Hbb] Hsync Hacc. pose proof Hmode as [_ [L%legacy_cfg_of [_ Bk]]].
  pose proof (l_mac L) as Hm. pose proof Hsync as [HR [Hseq H0]]. cbn [recv_path send_path_with legal onto] in *.
  rewrite etm_recv in Hacc by assumption. apply rbind_ok_inv in Hacc. destruct Hacc as [[r1 ct] [Hmac Hacc]].
  apply check_mac_inv in Hmac. destruct Hmac as [Hpre [-> [Hbody _]]].
  assert (Hctb : bytes_list ct) by (intros x Hx; apply Hbb; rewrite Hbody; apply in_or_app; left; exact Hx).
  destruct (etm_seal_open s (bump r) r' ct data) as [ch [s1 [Hleg [Hseal [HR' [Hs1 Hr']]]]]]; try assumption.
  { intros He. pose proof (b_bs (block_cfg_of P R c (Bk He))) as Hbs. split; [lia|exact (Honto He)]. }
  exists ch. change (etm_body_with c P s ty data ch) with ('(s1, d1) <~ etm_seal P c s data ch ;; append_mac c P s1 ty d1).
  rewrite Hseal. cbn [rbind bump st_seq] in *. rewrite append_mac_ok by (try assumption; rewrite Hs1, Hseq; exact Hpre).
  rewrite Hs1, Hseq, <- Hbody.
  eexists. split; [exact Hleg|]. split; [reflexivity|]. split; [split; [exact HR'|cbn [bump st_seq]; lia]|exact Hr'].
Qed.

Lemma aead12_accept : path_accept_at MAead12.
Proof.
  intros s r r' hty hver data body Hmode Htight _ Hsync Hacc. cbn [recv_path send_path_with legal onto] in *.
  pose proof Hsync as [HR [Hseq H0]]. pose proof (mode_aead12 Hmode) as G.
  pose proof (a_plus G) as Hn13. pose proof (a_aead_ok G) as Hok.
  destruct (unseal_inv P c _ _ _ _ _ _ Hacc) as [nonce [buf [aad [Hrange -> Eo Ht Hnb Haad]]]].
  rewrite Hn13 in Haad. destruct Haad as [Eb ->].
  pose proof (Htight _ _ _ _ Eo) as Hbuf.
  destruct (Hok nonce data (aad12 c (be_bytes 8 (st_seq r)) hty (zlen buf - c_tag c))) as [_ Hsl].
  rewrite <- Hbuf in Hsl.
  assert (Hpl : zlen buf - c_tag c = zlen data) by lia.
  destruct (nonce_recv_inv c _ _ _ _ Hnb) as [ch [Hleg [Hno ->]]].
  exists ch. unfold aead_body_with. rewrite next_seq_ok by lia. cbn [rbind]. rewrite Hn13, Hseq.
  rewrite <- Hpl, Eb, Hno. cbn [negb rbind]. rewrite <- Hbuf.
  eexists. split; [exact Hleg|]. split; [reflexivity|]. split; [exact (sync_bump R s r Hsync)|reflexivity].
Qed.

Lemma path_accept md : md <> MTls13 -> path_accept_at md.
Proof.
  intros Hmd. destruct md; [exact stream_accept|exact cbc_accept|exact etm_accept|exact aead12_accept|contradiction].
Qed.

End Acc.
