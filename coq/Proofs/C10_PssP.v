(* C10: EMSA-PSS and RSASSA-PSS as implemented by rsakey.py: what verification checks; an encoded
   message verifies; signing with a correct private operation succeeds and verifies. *)
From Coq Require Import ZArith List Bool Lia.
From TV Require Import Base.Prelude Base.PreludeFacts Base.Bytes Model.C10_RsaMath Model.C10_RsaSig
     Proofs.C10_BytesP Proofs.C10_ListP Proofs.C10_Pkcs1P.
Import ListNotations.
Open Scope Z_scope.

Lemma existsb_nonzero_false l :
  existsb (fun x => negb (x =? 0)) l = false <-> (forall x, In x l -> x = 0).
Proof.
  rewrite <- Bool.not_true_iff_false, existsb_exists. split.
  - intros H x Hx. destruct (Z.eq_dec x 0) as [E|E]; [exact E|].
    destruct H. exists x. split; [exact Hx|]. apply negb_true_iff, Z.eqb_neq. exact E.
  - intros H [x [Hx Hn]]. rewrite (H x Hx) in Hn. discriminate.
Qed.

Lemma and_first_xor_roundtrip DB m mask mdb :
  zlen DB = zlen m -> and_first DB mask = Ok DB ->
  and_first (xor_bytes DB m) mask = Ok mdb ->
  and_first (xor_bytes mdb m) mask = Ok DB.
Proof.
  destruct DB as [|d0 DBt], m as [|m0 mt]; try discriminate.
  rewrite !zlen_cons, xor_cons. cbn [and_first].
  intros L Hd H. injection Hd as Hd. injection H as <-.
  rewrite xor_cons, xor_involutive by (unfold zlen in *; lia). cbn [and_first].
  rewrite mask_xor_mask, Hd. reflexivity.
Qed.

Lemma and_first_ones l k : 0 <= k <= 8 -> all_bytes l = true -> 0 < zlen l ->
  exists m0 t, and_first l (Z.ones k) = Ok (m0 :: t) /\ 0 <= m0 < 2 ^ k /\
               Z.land m0 (Z.land (Z.lnot (Z.ones k)) 255) = 0 /\
               all_bytes (m0 :: t) = true /\ zlen l = 1 + zlen t.
Proof.
  intros Hk Hl Hz. destruct l as [|x t]; [discriminate Hz|].
  assert (B : 0 <= Z.land x (Z.ones k) < 2 ^ k).
  { rewrite Z.land_ones by lia. apply Z.mod_pos_bound, Z.pow_pos_nonneg; lia. }
  exists (Z.land x (Z.ones k)), t. rewrite all_bytes_cons in *. apply andb_true_iff in Hl. destruct Hl as [_ Ht].
  rewrite Ht, andb_true_r, zlen_cons, land_mask_topmask. repeat split; try lia.
  apply is_byte_iff. pose proof (Z.pow_le_mono_r 2 k 8 ltac:(lia) ltac:(lia)). lia.
Qed.

(* PS || 01 || salt starts with 00 or 01: masking to k >= 1 bits leaves it alone *)
Lemma and_first_DB psn salt k : 1 <= k ->
  and_first (zeros psn ++ [1] ++ salt) (Z.ones k) = Ok (zeros psn ++ [1] ++ salt).
Proof.
  intros Hk. unfold zeros. destruct (Z.to_nat psn); cbn [repeat app and_first]; [|reflexivity].
  rewrite Z.land_ones, Z.mod_1_l by (try apply Z.pow_gt_1; lia). reflexivity.
Qed.

Section Pss.
  Variable hash : list Z -> list Z.
  Variable hLen : Z.

  (* everything EMSA_PSS_verify checks, as one conjunction *)
  Definition pss_checks (mHash EM : list Z) (emBits sLen : Z) : Prop :=
    let emLen := divceil emBits 8 in
    let maskedDB := py_slice EM (Some 0) (Some (emLen - hLen - 1)) in
    let H := py_slice EM (Some (emLen - hLen - 1)) (Some (emLen - hLen - 1 + hLen)) in
    let topmask := Z.land (Z.lnot (Z.shiftl 1 (8 - (8 * emLen - emBits)) - 1)) 255 in
    let mask := Z.shiftl 1 (8 - (emLen * 8 - emBits)) - 1 in
    hLen + sLen + 2 <= emLen /\                                  (* room for hash, salt, 01, bc *)
    py_index EM (-1) = Ok 188 /\                                 (* trailer 0xbc *)
    exists m0 dbMask DB,
      py_index maskedDB 0 = Ok m0 /\ Z.land m0 topmask = 0 /\    (* top bits of EM are zero *)
      MGF1 hash hLen H (emLen - hLen - 1) = Ok dbMask /\
      and_first (xor_bytes maskedDB dbMask) mask = Ok DB /\
      (forall x, In x (py_slice DB (Some 0) (Some (emLen - hLen - sLen - 2))) -> x = 0) /\  (* PS = 00..00 *)
      py_index DB (emLen - hLen - sLen - 2) = Ok 1 /\            (* separator 0x01 *)
      H = hash (zeros 8 ++ mHash ++                              (* H = Hash(00^8 || mHash || salt) *)
                (if negb (sLen =? 0) then py_slice DB (Some (- sLen)) None else [])).

  Lemma pss_verify_ok mHash EM emBits sLen b :
    EMSA_PSS_verify hash hLen mHash EM emBits sLen = Ok b -> b = true /\ pss_checks mHash EM emBits sLen.
  Proof.
    unfold EMSA_PSS_verify, pss_checks.
    set (emLen := divceil emBits 8).
    set (maskedDB := py_slice EM (Some 0) (Some (emLen - hLen - 1))).
    set (H := py_slice EM (Some (emLen - hLen - 1)) (Some (emLen - hLen - 1 + hLen))).
    set (topmask := Z.land (Z.lnot (Z.shiftl 1 (8 - (8 * emLen - emBits)) - 1)) 255).
    set (mask := Z.shiftl 1 (8 - (emLen * 8 - emBits)) - 1).
    destruct (emLen <? hLen + sLen + 2) eqn:E0; [discriminate|].
    destruct (py_index EM (-1)) as [last|] eqn:E1; cbn [bind]; [|discriminate].
    destruct (last =? 188) eqn:E2; cbn [negb]; [|discriminate].
    destruct (py_index maskedDB 0) as [m0|] eqn:E3; cbn [bind]; [|discriminate].
    destruct (Z.land m0 topmask =? 0) eqn:E4; cbn [negb]; [|discriminate].
    destruct (MGF1 hash hLen H (emLen - hLen - 1)) as [dbMask|] eqn:E5; cbn [bind]; [|discriminate].
    destruct (and_first (xor_bytes maskedDB dbMask) mask) as [DB|] eqn:E6; cbn [bind]; [|discriminate].
    destruct (existsb _ (py_slice DB (Some 0) (Some (emLen - hLen - sLen - 2)))) eqn:E7; [discriminate|].
    destruct (py_index DB (emLen - hLen - sLen - 2)) as [sep|] eqn:E8; cbn [bind]; [|discriminate].
    destruct (sep =? 1) eqn:E9; cbn [negb]; [|discriminate].
    destruct (list_eqb H _) eqn:E10; [|discriminate]. intros Hb. injection Hb as <-.
    apply Z.eqb_eq in E2, E4, E9. subst last sep. apply list_eqb_spec in E10.
    pose proof (proj1 (existsb_nonzero_false _) E7) as E7p.
    split; [reflexivity|]. split; [lia|]. split; [reflexivity|]. exists m0, dbMask, DB.
    exact (conj eq_refl (conj E4 (conj eq_refl (conj E6 (conj E7p (conj E8 E10)))))).
  Qed.

  Theorem pss_verify_iff mHash EM emBits sLen :
    EMSA_PSS_verify hash hLen mHash EM emBits sLen = Ok true <-> pss_checks mHash EM emBits sLen.
  Proof.
    split; [apply pss_verify_ok|].
    unfold EMSA_PSS_verify, pss_checks. cbv zeta.
    intros (Hroom & Hbc & m0 & dbMask & DB & Hm0 & Htop & Hmgf & Hdb & Hps & Hsep & Hh).
    apply Z.ltb_ge in Hroom. apply existsb_nonzero_false in Hps.
    rewrite Hroom, Hbc. cbn [bind negb Z.eqb Pos.eqb]. rewrite Hm0. cbn [bind]. rewrite Htop. cbn [negb Z.eqb].
    rewrite Hmgf. cbn [bind]. rewrite Hdb. cbn [bind]. rewrite Hps, Hsep. cbn [bind negb Z.eqb Pos.eqb].
    rewrite <- Hh, list_eqb_refl. reflexivity.
  Qed.

  (* it accepts or raises (InvalidSignature, IndexError, or MaskTooLongError out of MGF1) *)
  Lemma pss_verify_never_false mHash EM emBits sLen :
    EMSA_PSS_verify hash hLen mHash EM emBits sLen <> Ok false.
  Proof. intros H. apply pss_verify_ok in H. destruct H as [H _]. discriminate. Qed.

  (* x[-sLen:] of PS || 01 || salt, with Python's special case for sLen = 0 *)
  Lemma salt_slice PS salt :
    (if negb (zlen salt =? 0) then py_slice (PS ++ [1] ++ salt) (Some (- zlen salt)) None else []) = salt.
  Proof.
    destruct (zlen salt =? 0) eqn:Es; cbn [negb].
    - symmetry. apply zlen_0_nil. lia.
    - pose proof (zlen_nonneg salt). pose proof (zlen_nonneg (PS ++ [1])).
      rewrite app_assoc, py_slice_neg_lo by (rewrite zlen_app; lia).
      apply py_slice_app_tail. rewrite zlen_app. lia.
  Qed.
End Pss.

Lemma divceil_bounds a b : 0 < b -> a <= divceil a b * b < a + b.
Proof. intros Hb. unfold divceil. rewrite ceil_div by exact Hb. pose proof (ceil_bounds a b Hb). lia. Qed.

(* emBits = 8 (emLen - 1) + k: the first byte of EM carries k bits, 1 <= k <= 8; the mask is 2^k - 1 *)
Lemma top_bits emBits : 0 < emBits ->
  let k := 8 - (divceil emBits 8 * 8 - emBits) in
  1 <= k <= 8 /\ 1 <= divceil emBits 8 /\ Z.shiftl 1 k - 1 = Z.ones k.
Proof.
  intros H k. pose proof (divceil_bounds emBits 8 ltac:(lia)) as B.
  rewrite Z.ones_equiv, Z.shiftl_1_l. lia.
Qed.

Section PssSound.
  Variable hash : list Z -> list Z.
  Variable hLen : Z.
  Hypothesis HhLen : 0 < hLen.
  Hypothesis Hlen : forall m, zlen (hash m) = hLen.
  Hypothesis Hbytes : forall m, all_bytes (hash m) = true.

  Lemma MGF1_ok seed maskLen : 0 <= maskLen <= 2 ^ 32 * hLen ->
    exists mask, MGF1 hash hLen seed maskLen = Ok mask /\ zlen mask = maskLen /\ all_bytes mask = true.
  Proof.
    intros H. unfold MGF1.
    destruct (maskLen >? 2 ^ 32 * hLen) eqn:E; [lia|].
    eexists. split; [reflexivity|].
    rewrite fold_left_app_concat, py_slice_to by lia. cbn [app].
    apply (stream_prefix _ hLen); [intros; apply Hlen|intros; apply Hbytes|].
    pose proof (divceil_bounds maskLen hLen HhLen). unfold zlen. rewrite zrange_length. nia.
  Qed.

  Theorem pss_encode_spec mHash emBits salt :
    0 < emBits -> all_bytes salt = true -> divceil emBits 8 - hLen - 1 <= 2 ^ 32 * hLen ->
    match EMSA_PSS_encode hash hLen mHash emBits salt with
    | Ok EM => hLen + zlen salt + 2 <= divceil emBits 8 /\
        zlen EM = divceil emBits 8 /\ all_bytes EM = true /\ bytesToNumber EM < 2 ^ emBits /\
        EMSA_PSS_verify hash hLen mHash EM emBits (zlen salt) = Ok true
    | Err _ => divceil emBits 8 < hLen + zlen salt + 2
    end.
  Proof.
    intros Hbits Hsalt Hsmall. unfold EMSA_PSS_encode.
    destruct (top_bits emBits Hbits) as (Hk & HemLen & Hmask).
    set (emLen := divceil emBits 8) in *. set (k := 8 - (emLen * 8 - emBits)) in *.
    pose proof (zlen_nonneg salt) as HsL.
    destruct (Z.ltb_spec emLen (hLen + zlen salt + 2)) as [E0|E0]; [exact E0|].
    set (H := hash (zeros 8 ++ mHash ++ salt)).
    assert (LH : zlen H = hLen) by apply Hlen. assert (BH : all_bytes H = true) by apply Hbytes.
    replace (emLen - zlen salt - hLen - 2) with (emLen - hLen - zlen salt - 2) by lia.
    set (psn := emLen - hLen - zlen salt - 2). assert (Hpsn : 0 <= psn) by (unfold psn; lia).
    destruct (MGF1_ok H (emLen - hLen - 1) ltac:(lia)) as [dbMask [EM1 [LM BM]]].
    rewrite EM1. cbn [bind].
    set (DB := zeros psn ++ [1] ++ salt).
    assert (LDB : zlen DB = emLen - hLen - 1).
    { unfold DB. rewrite !zlen_app, zeros_zlen, zlen_cons, zlen_nil by lia. unfold psn. lia. }
    assert (BDB : all_bytes DB = true).
    { unfold DB. rewrite !all_bytes_app, zeros_bytes, Hsalt. reflexivity. }
    rewrite Hmask.
    destruct (and_first_ones (xor_bytes DB dbMask) k ltac:(lia) (xor_all_bytes _ _ BDB BM))
      as (m0 & t & Emdb & Bm0 & Tm0 & Bmdb & Lt); [rewrite xor_zlen; lia|].
    rewrite xor_zlen in Lt.
    pose proof (and_first_xor_roundtrip DB dbMask _ _ ltac:(lia) (and_first_DB psn salt k ltac:(lia)) Emdb) as Hback.
    rewrite Emdb. cbn [bind]. split; [exact E0|].
    split; [rewrite !zlen_app, LH, !zlen_cons, zlen_nil; lia|].
    split; [rewrite !all_bytes_app, Bmdb, BH; reflexivity|]. split.
    - (* the first byte has k bits, emLen - 1 bytes follow *)
      cbn [app]. rewrite all_bytes_cons in Bmdb. apply andb_true_iff in Bmdb.
      assert (Brest : all_bytes (t ++ H ++ [188]) = true) by (rewrite !all_bytes_app, (proj2 Bmdb), BH; reflexivity).
      pose proof (b2n_range _ Brest) as R. rewrite b2n_cons.
      replace (zlen (t ++ H ++ [188])) with (emLen - 1) in * by (rewrite !zlen_app, LH, zlen_cons, zlen_nil; lia).
      replace (2 ^ emBits) with (2 ^ k * 256 ^ (emLen - 1)); [nia|].
      rewrite (pow256_2 (emLen - 1)), <- Z.pow_add_r by lia. f_equal. lia.
    - (* the slices give maskedDB and H back, unmasking gives DB back *)
      apply pss_verify_iff. unfold pss_checks. cbv zeta. fold emLen.
      replace (8 * emLen - emBits) with (emLen * 8 - emBits) by ring. fold k psn. rewrite Hmask.
      rewrite (py_slice_app_first (m0 :: t)), (py_slice_app_mid (m0 :: t) H) by (rewrite ?zlen_cons; lia).
      split; [lia|]. split; [rewrite !app_assoc; apply py_index_last|].
      exists m0, dbMask, DB. rewrite EM1, Hback, py_index_head. unfold DB. rewrite salt_slice.
      pose proof (zeros_zlen psn Hpsn) as Lz.
      (* top bits, PS and separator; the other four conjuncts are equations between equal terms *)
      refine (conj eq_refl (conj Tm0 (conj eq_refl (conj eq_refl (conj _ (conj _ eq_refl)))))).
      + rewrite py_slice_app_first by lia. apply zeros_all_zero.
      + apply py_index_mid. lia.
  Qed.

Section PssRsa.
  Variables n e : Z.
  Variable priv : Z -> Z.
  Hypothesis Hn : 1 < n.
  Hypothesis Hsz : numBytes n <= 2 ^ 32.
  Hypothesis Hpriv : forall x, 0 <= x < n -> 0 <= priv x < n /\ powmod (priv x) e n = x.

  Let emLen := divceil (numBits n - 1) 8.

  (* emLen = ceil((modBits-1)/8) is the modulus length in bytes, or one less when modBits = 1 mod 8 *)
  Lemma emLen_bounds : 1 <= numBits n - 1 /\ 0 <= numBytes n - emLen <= 1 /\ emLen - hLen - 1 <= 2 ^ 32 * hLen.
  Proof.
    pose proof (numBits_log2 n ltac:(lia)) as HB. pose proof (Z.log2_pos n Hn) as HL.
    pose proof (divceil_bounds (numBits n - 1) 8 ltac:(lia)) as Hd. fold emLen in Hd.
    pose proof (numBytes_bits n). nia.
  Qed.

  Lemma padded_em mHash salt : all_bytes salt = true ->
    match EMSA_PSS_encode hash hLen mHash (numBits n - 1) salt with
    | Ok EM => let pad := zeros (Z.max (numBytes n - zlen EM) 0) in
        zlen pad = numBytes n - emLen /\ block n (pad ++ EM) /\
        EMSA_PSS_verify hash hLen mHash EM (numBits n - 1) (zlen salt) = Ok true
    | Err _ => emLen < hLen + zlen salt + 2
    end.
  Proof.
    intros Hsalt. destruct emLen_bounds as (HB & Hd & Hsmall).
    pose proof (numBits_spec n ltac:(lia)) as [Hlow _].
    pose proof (pss_encode_spec mHash (numBits n - 1) salt ltac:(lia) Hsalt Hsmall) as P.
    destruct (EMSA_PSS_encode hash hLen mHash (numBits n - 1) salt) as [EM|]; [|exact P].
    destruct P as (_ & LEM & BEM & VEM & Hver). fold emLen in LEM. intros pad.
    assert (Lpad : zlen pad = numBytes n - emLen) by (unfold pad; rewrite zeros_zlen; lia).
    split; [exact Lpad|]. split; [|exact Hver]. split.
    - unfold pad. rewrite all_bytes_app, zeros_bytes. exact BEM.
    - rewrite zlen_app. lia.
    - (* the zeros do not count, and EM < 2^(modBits-1) <= n *)
      unfold pad. rewrite b2n_zeros_app. lia.
  Qed.

  (* holds for EVERY modulus size since /repo cc7bf57 (before: only when modBits <> 1 mod 8) *)
  Theorem pss_sign_then_verify mHash salt S :
    all_bytes salt = true ->
    RSASSA_PSS_sign hash hLen n priv mHash salt = Ok S ->
    RSASSA_PSS_verify hash hLen n e mHash S (zlen salt) = Ok true.
  Proof.
    intros Hsalt. unfold RSASSA_PSS_sign. pose proof (padded_em mHash salt Hsalt) as B.
    destruct (EMSA_PSS_encode hash hLen mHash (numBits n - 1) salt) as [EM|x]; cbn [bind]; [|discriminate].
    cbv zeta in B. set (pad := zeros (Z.max (numBytes n - zlen EM) 0)) in *. destruct B as (Lpad & Bk & Hver).
    destruct (raw_private_then_public n e priv ltac:(lia) Hpriv (pad ++ EM) Bk) as [S' [HS HP]].
    rewrite HS. intros Hs. injection Hs as <-.
    unfold RSASSA_PSS_verify. rewrite HP. pose proof (blk_zlen Bk) as Lblock. fold emLen.
    rewrite (py_slice_app_head pad), (py_slice_app_tail pad) by lia.
    replace (existsb _ pad) with false by (symmetry; apply existsb_nonzero_false, zeros_all_zero).
    rewrite Hver. reflexivity.
  Qed.

  Theorem pss_sign_succeeds mHash salt :
    all_bytes salt = true -> hLen + zlen salt + 2 <= divceil (numBits n - 1) 8 ->
    exists S, RSASSA_PSS_sign hash hLen n priv mHash salt = Ok S.
  Proof.
    intros Hsalt Hfit. unfold RSASSA_PSS_sign. pose proof (padded_em mHash salt Hsalt) as B.
    destruct (EMSA_PSS_encode hash hLen mHash (numBits n - 1) salt) as [EM|]; [|unfold emLen in B; lia].
    destruct B as (_ & Bk & _). cbn [bind]. rewrite (proj2 (raw_op_ok n priv _ _) (conj (blk_zlen Bk) (conj (blk_lt Bk) eq_refl))). eauto.
  Qed.
End PssRsa.
End PssSound.
