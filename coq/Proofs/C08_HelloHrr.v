(* C08: crash analysis of the server's validation of the SECOND ClientHello after a
   HelloRetryRequest (nested region of _serverGetClientHello, model regenerated into
   Gen/HrrChChecks.v, proof script Gen/HrrChChecksProof.v; proved by plain path enumeration,
   no statement-boundary lemmas). *)
From Coq Require Import ZArith List.
From TV Require Import Base.C08_Lib Gen.HrrChChecks.
Import ListNotations.
Open Scope Z_scope.

Definition hrr_mk (exts : list ext) : ClientHello_r :=
  {| ClientHello_client_version := (3, 3); ClientHello_cipher_suites := [4865];
     ClientHello_compression_methods := [0]; ClientHello_session_id := [];
     ClientHello_extensions := Some exts |}.
Definition hrr_ks (shares : option (list KeyShareEntry_r)) : ext :=
  X_ClientKeyShareExtension {| ClientKeyShareExtension_client_shares := shares |}.
Definition hrr_share (g : Z) : KeyShareEntry_r := {| KeyShareEntry_group := g; KeyShareEntry_key_exchange := [4; 1; 2] |}.

Definition hrr_w_empty_body : ClientHello_r := hrr_mk [hrr_ks None].

