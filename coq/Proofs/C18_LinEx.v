(* The hypotheses of cache_linearizable are satisfiable: a step program with exactly the
   extracted access pattern whose sequential effect is the model.  (The first shared read
   computes the call's result from the object state, the last shared write installs the new
   state, every other step is a no-op: enough to show the hypotheses are consistent.) *)
From Coq Require Import ZArith Bool List.
From TV Require Import Base.C18_Lib Model.C18_Cache Model.C18_Conc Proofs.C18_Lin.
Import ListNotations.
Open Scope Z_scope.

Definition exLo := option outcome.
Definition exV := (world * Z)%type.

Definition is_wr (s : shape) : bool := match s with SWr => true | _ => false end.

Fixpoint realize (call : ccall) (sh : list shape) : list (step exLo exV) :=
  match sh with
  | [] => []
  | SAcq :: r => Acq :: realize call r
  | SRel :: r => Rel :: realize call r
  | SLoc :: r => Loc (fun lo => lo) :: realize call r
  | SRd :: r => Rd 0 (fun lo v => match lo with None => Some (snd (cache_mstep v call)) | _ => lo end) :: realize call r
  | SWr :: r => Wr 0 (fun _ v => if existsb is_wr r then v else fst (cache_mstep v call)) :: realize call r
  end.

Definition ex_sem (call : ccall) : list (step exLo exV) :=
  match cache_method (fst call) with Some sh => realize call sh | None => [] end.

Lemma realize_shape call sh : map (@shape_of exLo exV) (realize call sh) = sh.
Proof. induction sh as [|s sh IH]; [reflexivity|]. destruct s; cbn [realize map shape_of]; rewrite IH; reflexivity. Qed.

Lemma ex_sem_shape call : (exists sh, cache_method (fst call) = Some sh) ->
  cache_method (fst call) = Some (map (@shape_of exLo exV) (ex_sem call)).
Proof. intros [sh H]. unfold ex_sem. rewrite H, realize_shape. reflexivity. Qed.

Lemma upd_same (st : store exV) v : upd st 0 v 0 = v.
Proof. reflexivity. Qed.

Lemma realize_store call sh : forall (st : store exV) lo,
  fst (run_all st lo (realize call sh)) 0 =
  if existsb is_wr sh then fst (cache_mstep (st 0) call) else st 0.
Proof.
  induction sh as [|s sh IH]; intros st lo; [reflexivity|].
  destruct s; cbn [realize run_all existsb is_wr orb]; try apply IH.
  rewrite IH, upd_same. destruct (existsb is_wr sh); reflexivity.
Qed.

Lemma realize_result_kept call sh r : forall st : store exV,
  snd (run_all st (Some r) (realize call sh)) = Some r.
Proof. induction sh as [|s sh IH]; intros st; [reflexivity|]. destruct s; cbn [realize run_all]; apply IH. Qed.

(* some shared read comes before the last shared write: it sees the cell as the call found it *)
Fixpoint rd_early (sh : list shape) : bool :=
  match sh with
  | [] => false
  | SRd :: _ => true
  | SWr :: r => existsb is_wr r && rd_early r
  | _ :: r => rd_early r
  end.

Lemma realize_result call sh : forall st : store exV, rd_early sh = true ->
  snd (run_all st None (realize call sh)) = Some (snd (cache_mstep (st 0) call)).
Proof.
  induction sh as [|s sh IH]; intros st H; [discriminate|].
  destruct s; cbn [realize run_all rd_early] in *; try (apply IH; exact H).
  - apply realize_result_kept.
  - apply andb_prop in H. destruct H as [Hw H]. rewrite Hw, (IH _ H), upd_same. reflexivity.
Qed.

(* the only facts about the extracted access patterns that the example needs *)
Lemma cache_shapes_rw o sh : cache_method o = Some sh -> rd_early sh && existsb is_wr sh = true.
Proof. revert o sh. apply cache_method_cases; vm_compute; reflexivity. Qed.

Lemma ex_sem_effect call sh (st : store exV) : cache_method (fst call) = Some sh ->
  fst (run_all st None (ex_sem call)) 0 = fst (cache_mstep (st 0) call) /\
  snd (run_all st None (ex_sem call)) = Some (snd (cache_mstep (st 0) call)).
Proof.
  intros H. pose proof (cache_shapes_rw _ _ H) as Hrw. apply andb_prop in Hrw. destruct Hrw as [Hr Hw].
  unfold ex_sem. rewrite H, realize_store, Hw. split; [reflexivity|]. apply realize_result. exact Hr.
Qed.

Definition ex_abs (st : store exV) : world * Z := st 0.
