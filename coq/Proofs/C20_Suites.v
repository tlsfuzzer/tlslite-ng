(* C20 lemmas: the checks of Model/C20_Classify.v are decided on the finite domain
   all_suites x all_versions by vm_compute -- those that do not look at the version once per
   suite, the others once per pair -- and lifted to quantified statements. *)
From Coq Require Import ZArith List Bool String Lia.
From TV Require Import Gen.Suites Spec.Iana Model.C20_Classify.
Import ListNotations.
Open Scope string_scope.
Open Scope Z_scope.

Lemma in_pairs s v : In s all_suites -> In v all_versions -> In (s, v) pairs.
Proof. intros Hs Hv. unfold pairs. apply in_prod; assumption. Qed.

Lemma forall_negotiable_spec f :
  forall_negotiable f = true ->
  forall s v, In s all_suites -> In v all_versions -> negotiable s v = true -> f s v = true.
Proof.
  unfold forall_negotiable. intros H s v Hs Hv Hn.
  rewrite forallb_forall in H. specialize (H (s, v) (in_pairs s v Hs Hv)).
  cbn [fst snd] in H. rewrite Hn in H. exact H.
Qed.

Lemma ever_negotiable_spec (g : Z -> bool) :
  forallb (fun s => implb (ever_negotiable s) (g s)) all_suites = true ->
  forall s v, In s all_suites -> In v all_versions -> negotiable s v = true -> g s = true.
Proof.
  intros H s v Hs Hv Hn. rewrite forallb_forall in H. specialize (H s Hs).
  assert (He : ever_negotiable s = true) by (apply existsb_exists; exists v; split; assumption).
  rewrite He in H. exact H.
Qed.

Lemma list_semantics_keys :
  Forall (fun p => sassoc (fst p) list_semantics = Some (snd p)) list_semantics.
Proof. repeat constructor. Qed.

(* chk_lists with the name parsed once, and the meaning of a list taken from its entry *)
Definition lists_ok (s : Z) : bool :=
  match meaning_of s with
  | Some m => forallb (fun p => Bool.eqb (mem s (lists_of (fst p))) (snd p m)) list_semantics
  | None => false
  end.

Lemma lists_ok_sound s : lists_ok s = true -> chk_lists s = true.
Proof.
  unfold lists_ok, chk_lists, chk_list. destruct (meaning_of s) as [m|]; [|discriminate].
  intros H. rewrite forallb_forall in H. apply forallb_forall. intros p Hp.
  rewrite (proj1 (Forall_forall _ _) list_semantics_keys p Hp). exact (H p Hp).
Qed.

Definition suite_checks (s : Z) : bool :=
  lists_ok s && chk_partition s && chk_dispatch s && chk_cipher_accessor s && chk_mac_accessor s.

Lemma suite_checks_all : forallb (fun s => implb (ever_negotiable s) (suite_checks s)) all_suites = true.
Proof. vm_compute. reflexivity. Qed.

Definition pair_checks (s v : Z) : bool :=
  chk_classification s v && chk_version s v && chk_version_classes s v
  && chk_cipher_words s v && chk_mac_words s v && chk_kx_words s v.

Lemma pair_checks_all : forall_negotiable pair_checks = true.
Proof. vm_compute. reflexivity. Qed.

Lemma ffv_all : forallb (fun p => chk_ffv (fst p) (snd p)) pairs = true.
Proof. vm_compute. reflexivity. Qed.

Lemma suite_sources_ok : chk_suite_sources = true.
Proof. vm_compute. reflexivity. Qed.

Record suite_passes (s : Z) : Prop := {
  sp_lists : chk_lists s = true;
  sp_partition : chk_partition s = true;
  sp_dispatch : chk_dispatch s = true;
  sp_cipher_accessor : chk_cipher_accessor s = true;
  sp_mac_accessor : chk_mac_accessor s = true }.

Record pair_passes (s v : Z) : Prop := {
  pp_classification : chk_classification s v = true;
  pp_version : chk_version s v = true;
  pp_version_classes : chk_version_classes s v = true;
  pp_cipher_words : chk_cipher_words s v = true;
  pp_mac_words : chk_mac_words s v = true;
  pp_kx_words : chk_kx_words s v = true }.

Section Negotiable.
  Variables s v : Z.
  Hypotheses (Hs : In s all_suites) (Hv : In v all_versions) (Hn : negotiable s v = true).

  Lemma suite_checked : suite_passes s.
  Proof.
    pose proof (ever_negotiable_spec _ suite_checks_all s v Hs Hv Hn) as H. unfold suite_checks in H.
    repeat (let X := fresh "X" in apply andb_prop in H; destruct H as [H X]).
    apply lists_ok_sound in H. split; assumption.
  Qed.

  Lemma pair_checked : pair_passes s v.
  Proof.
    pose proof (forall_negotiable_spec _ pair_checks_all s v Hs Hv Hn) as H. unfold pair_checks in H.
    repeat (let X := fresh "X" in apply andb_prop in H; destruct H as [H X]).
    split; assumption.
  Qed.
End Negotiable.

Lemma classification_lifted s v : chk_classification s v = true ->
  exists m r, meaning_of s = Some m /\ row_of s = Some r /\
    cipher_settings_ok m r = true /\ mac_settings_ok m r = true /\ prf_ok m r v = true /\
    labels_ok m r v = true /\ exporter_ok m r v = true /\ deprecated_ok m r v = true /\
    keyupdate_ok m r v = true /\ psk_ok m r v = true /\ cert_ok m r = true.
Proof.
  intros H. unfold chk_classification in H.
  destruct (meaning_of s) as [m|]; [|discriminate].
  destruct (row_of s) as [r|]; [|discriminate].
  repeat (let X := fresh "X" in apply andb_true_iff in H; destruct H as [H X]).
  exists m, r. repeat split; assumption.
Qed.

Lemma version_lifted s v : chk_version s v = true ->
  exists m, meaning_of s = Some m /\ m_minv m <= v <= m_maxv m.
Proof.
  unfold chk_version. destruct (meaning_of s) as [m|]; [|discriminate]. intros H.
  exists m. split; [reflexivity|].
  unfold defined_in in H. apply andb_true_iff in H. destruct H as [H1 H2].
  apply Z.leb_le in H1. apply Z.leb_le in H2. lia.
Qed.

(* Beyond the property: chk_static is made of parts of the checks above, so a known id whose
   static classification deviates from its name (Model/C20_Classify.v chk_static: record-layer
   settings, accessors, membership in every list the record layer / key derivation / version
   filter consult) can never be negotiated *)
Lemma record_layer_lists_named :
  forallb (fun n => existsb (String.eqb n) (map fst list_semantics)) record_layer_lists = true.
Proof. vm_compute. reflexivity. Qed.

Lemma static_of_checks s v : suite_passes s -> chk_classification s v = true -> chk_static s = true.
Proof.
  intros [HL HP HD HC HM] HK.
  destruct (classification_lifted s v HK) as [m [r [Em [Er [H1 [H2 _]]]]]].
  unfold chk_static, chk_cipher_accessor, chk_mac_accessor, chk_partition in *.
  rewrite Em, Er in *. rewrite H1, H2, HC, HM. cbn [andb].
  apply andb_prop in HP. destruct HP as [HP P4]. apply andb_prop in HP. destruct HP as [HP P3].
  apply andb_prop in HP. destruct HP as [P1 P2]. rewrite P1, P2, P4, !andb_true_r.
  apply forallb_forall. intros n Hin.
  pose proof record_layer_lists_named as HN. rewrite forallb_forall in HN.
  specialize (HN n Hin). apply existsb_exists in HN. destruct HN as [n' [Hin' E]].
  apply String.eqb_eq in E. subst n'. apply in_map_iff in Hin'. destruct Hin' as [p [<- Hp]].
  unfold chk_lists in HL. rewrite forallb_forall in HL. exact (HL p Hp).
Qed.

Lemma negotiable_static s v :
  In s all_suites -> In v all_versions -> negotiable s v = true -> chk_static s = true.
Proof.
  intros Hs Hv Hn.
  exact (static_of_checks s v (suite_checked s v Hs Hv Hn) (pp_classification s v (pair_checked s v Hs Hv Hn))).
Qed.
