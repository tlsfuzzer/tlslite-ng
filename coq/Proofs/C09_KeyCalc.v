(* The key-calculation glue (Model/C09_KeyCalc.v) against the RFC definitions (Spec/C09_KeyCalc.v). *)
From Coq Require Import ZArith List Bool Lia String.
From TV Require Import Base.Prelude Base.PreludeFacts Base.C09_Oracle Model.C09_KeyCalc
  Spec.C09_KeyCalc Proofs.C09_KDF.
Import ListNotations.
Open Scope list_scope.
Open Scope Z_scope.

Definition hash_ok (Orc : Oracles) : Prop :=
  forall alg ds data, digest_size alg = Some ds -> zlen (o_hash Orc alg data) = ds.

Lemma hkdf_label_bytes_eq label context length :
  hkdf_label_bytes label context length =
  if (0 <=? length) && (length <=? 65535) && (zlen label + 6 <=? 255) && (zlen context <=? 255)
  then Ok (hkdf_label_rfc length label context) else Err ValueError.
Proof.
  unfold hkdf_label_bytes, hkdf_label_rfc. change (bytes_of_string "tls13 ") with (ascii_bytes "tls13 ").
  rewrite zlen_app. change (zlen (ascii_bytes "tls13 ")) with 6. rewrite (Z.add_comm 6).
  destruct ((0 <=? length) && (length <=? 65535)), (zlen label + 6 <=? 255), (zlen context <=? 255); reflexivity.
Qed.

(* what the RFC does not define (length > 65535 or > 255*HashLen, label or context too long) is refused with
   ValueError *)
Lemma HKDF_expand_label_eq Orc alg hl secret label context length : digest_size alg = Some hl ->
  HKDF_expand_label Orc secret label context length alg =
  match hkdf_expand_label_rfc Orc alg secret label context length with Some okm => Ok okm | None => Err ValueError end.
Proof.
  intros Hd. unfold HKDF_expand_label, hkdf_expand_label_rfc. rewrite hkdf_label_bytes_eq.
  destruct ((0 <=? length) && (length <=? 65535) && (zlen label + 6 <=? 255) && (zlen context <=? 255)) eqn:E; [|reflexivity].
  rewrite bind_of_Ok. apply (HKDF_expand_eq Orc alg secret _ hl); [exact Hd|lia].
Qed.

Lemma PRF_SSL_ok Orc secret seed n : hash_ok Orc -> 0 <= n <= 416 ->
  PRF_SSL Orc secret seed n = Ok (prf_ssl_rfc Orc secret seed n).
Proof.
  intros HH Hn. unfold PRF_SSL, prf_ssl_rfc. destruct (n <? 0) eqn:E; [lia|].
  change (prf_ssl_round Orc secret seed) with (ssl3_round Orc secret seed).
  set (stream := flat_map (ssl3_round Orc secret seed) (zrange 0 26)).
  assert (L : zlen stream = 416).
  { unfold stream. rewrite flat_map_concat_map, (zlen_concat_map _ 16) by (intros i; apply (HH "md5"%string); reflexivity).
    reflexivity. }
  unfold zlen in L. rewrite firstn_length. replace (Z.to_nat n - Nat.min (Z.to_nat n) (List.length stream))%nat with 0%nat by lia.
  cbn [repeat]. rewrite app_nil_r. reflexivity.
Qed.

Definition purpose_eqb (p q : purpose) : bool :=
  match p, q with
  | MasterSecret, MasterSecret | ExtMasterSecret, ExtMasterSecret | KeyExpansion, KeyExpansion
  | ClientFinished, ClientFinished | ServerFinished, ServerFinished => true
  | _, _ => false
  end.

(* the five label tests of calc_key, on a label of the table: the labels are pairwise different.  A finite fact about
   five constants, so it is evaluated, and here, once for all versions: inside the table each row would compare the
   same byte strings again, in the script and at Qed *)
Lemma label_tests p :
  map (list_eqb (purpose_label p)) [L_cf; L_sf; L_ke; L_ms; L_ems] =
  map (purpose_eqb p) [ClientFinished; ServerFinished; KeyExpansion; MasterSecret; ExtMasterSecret].
Proof. destruct p; vm_compute; reflexivity. Qed.

Lemma take_ok n st : 0 <= n <= zlen st -> take n st = Ok (firstn (Z.to_nat n) st, skipn (Z.to_nat n) st).
Proof. intros H. unfold take. destruct ((n <? 0) || (zlen st <? n)) eqn:E; [lia|reflexivity]. Qed.

