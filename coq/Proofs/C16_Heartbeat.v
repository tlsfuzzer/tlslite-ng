(* C16: heartbeat payloads handed to the callback are payloads this endpoint requested.  Invariant
   [BInv]: every heartbeat record in flight is a whole request of its writer or a whole response to its
   reader (Spec.hb_rec_ok), and what the callbacks received is among what was requested. *)
From Coq Require Import ZArith List Bool.
From TV Require Import Base.PreludeFacts Model.C16_PostHs Spec.C16_Spec Proofs.C16_Step.
Import ListNotations.
Open Scope Z_scope.

Set Implicit Arguments.
Record BInv (s : st) : Prop := {
  b_ab : forall r, In r (ab s) -> hb_rec_ok (hb_req (ms (ea s))) (hb_req (ms (eb s))) r;
  b_ba : forall r, In r (ba s) -> hb_rec_ok (hb_req (ms (eb s))) (hb_req (ms (ea s))) r;
  b_got_a : incl (hb_got (ms (ea s))) (hb_req (ms (ea s)));
  b_got_b : incl (hb_got (ms (eb s))) (hb_req (ms (eb s))) }.
Unset Implicit Arguments.

Definition no_hb (em : list rec) : Prop := forall r b, In r em -> body r <> MHB b.

Lemma no_hb_ok em w r' : no_hb em -> forall r, In r em -> hb_rec_ok w r' r.
Proof. intros H r Hr b Hb. exfalso. exact (H r b Hr Hb). Qed.

Lemma no_hb_all em : (forall r, In r em -> forall b, body r <> MHB b) -> no_hb em.
Proof. intros H r b Hr. apply H. exact Hr. Qed.

Lemma no_hb_Forall em : Forall (fun r => forall b, body r <> MHB b) em -> no_hb em.
Proof. intros H. apply no_hb_all. exact (proj1 (Forall_forall _ _) H). Qed.

Lemma no_hb_nil : no_hb [].
Proof. intros r b []. Qed.

Lemma no_hb_alert me f d : no_hb [emit me (MAlert f d)].
Proof. intros r b [<-|[]]. discriminate. Qed.

Lemma no_hb_pha (f : msg -> rec) l : (forall m, body (f m) = m) -> Forall pha_msg l -> no_hb (map f l).
Proof.
  intros Hf H. apply no_hb_Forall, Forall_map. revert H. apply Forall_impl.
  intros m Hm b. rewrite Hf. destruct m; try discriminate; destruct Hm.
Qed.

Lemma hb_rec_ok_mono w w' r' r'' x :
  hb_rec_ok w r' x -> incl w w' -> incl r' r'' -> hb_rec_ok w' r'' x.
Proof.
  intros H Hw Hr b Hb. destruct (H b Hb) as [(p & pad & E & Hp)|(p & E & Hp)].
  - left. exists p, pad. auto.
  - right. exists p. auto.
Qed.

Lemma bupd s me' em inc' :
  BInv s -> (forall r, In r inc' -> In r (ba s)) ->
  incl (hb_req (ms (ea s))) (hb_req (ms me')) ->
  incl (hb_got (ms me')) (hb_req (ms me')) ->
  (forall r, In r em -> hb_rec_ok (hb_req (ms me')) (hb_req (ms (eb s))) r) ->
  BInv (mkst me' (eb s) (ab s ++ em) inc' (g13 s)).
Proof.
  intros H Hs Hi Hg He. split; cbn [ea eb ab ba].
  - intros r Hr. apply in_app_or in Hr. destruct Hr as [Hr|Hr]; [|apply He; exact Hr].
    eapply hb_rec_ok_mono; [apply (b_ab H); exact Hr|exact Hi|apply incl_refl].
  - intros r Hr. eapply hb_rec_ok_mono; [apply (b_ba H); apply Hs; exact Hr|apply incl_refl|exact Hi].
  - exact Hg.
  - exact (b_got_b H).
Qed.

(* a step that asks for nothing, in the form [upd_b] wants it *)
Lemma bupd0 s me' em inc' :
  BInv s -> hb_req (ms me') = hb_req (ms (ea s)) -> hb_got (ms me') = hb_got (ms (ea s)) ->
  (forall r, In r inc' -> In r (ba s)) -> no_hb em ->
  BInv (mkst me' (eb s) (ab s ++ em) inc' (g13 s)) /\ hb_req (ms me') = hb_req (ms (ea s)) ++ [].
Proof.
  intros H Er Eg Hs Hn. rewrite app_nil_r. split; [|exact Er].
  apply bupd; [exact H|exact Hs| | |]; rewrite Er, ?Eg; [apply incl_refl|exact (b_got_a H)|].
  apply no_hb_ok. exact Hn.
Qed.

(* a turn of the loop: a heartbeat record read is a request of the peer or a response to a request of
   the reader, and parsing gives back what was written *)
Lemma b_turn s r inc' me1 k :
  BInv s -> ba s = r :: inc' -> go (g13 s) (ea s) (body r) me1 k -> BInv (mkst me1 (eb s) (ab s ++ k) inc' (g13 s)).
Proof.
  intros H Eba Hgo. pose proof (b_ba H) as Hin. pose proof (b_got_a H) as Hg. rewrite Eba in Hin.
  pose proof (go_hb_req (go_frame Hgo)) as Er.
  assert (Hk : incl (hb_got (ms me1)) (hb_req (ms (ea s))) /\
               forall x, In x k -> hb_rec_ok (hb_req (ms (ea s))) (hb_req (ms (eb s))) x).
  { remember (body r) as m eqn:Eb. symmetry in Eb.
    destruct Hgo as [| |_|b me1' out' _ Ho].
    - (* go_empty *) split; [exact Hg|intros x []].
    - (* go_ku0 *) split; [exact Hg|intros x []].
    - (* go_ku1 *) split; [exact Hg|]. apply no_hb_ok. intros x c [<-|[]]. discriminate.
    - (* go_hb *)
      pose proof (Hin r (or_introl eq_refl) b Eb) as Hrec.
      assert (Hparse : forall ty p pad, hb_parse b = Some (ty, p, pad) ->
                (ty = 1 /\ In p (hb_req (ms (eb s)))) \/ (ty = 2 /\ In p (hb_req (ms (ea s))))).
      { intros ty p pad Hp. destruct Hrec as [(q & qd & -> & Hq)|(q & -> & Hq)];
          rewrite hb_roundtrip in Hp; injection Hp as <- <- _; auto. }
      destruct Ho as [|p pad Hp _ _ _|p pad Hp].
      + (* hb_ignored *) split; [exact Hg|intros x []].
      + (* hb_answered *) split; [exact Hg|]. intros x [<-|[]] c [= <-]. right. exists p. split; [reflexivity|].
        destruct (Hparse _ _ _ Hp) as [[_ H0]|[H0 _]]; [exact H0|discriminate H0].
      + (* hb_callback *) split; [|intros x []]. cbn [add_hb set_ms ms hb_got]. apply incl_app; [exact Hg|].
        intros q [<-|[]]. destruct (Hparse _ _ _ Hp) as [[H0 _]|[_ H0]]; [discriminate H0|exact H0]. }
  apply (bupd s); rewrite ?Er; [exact H|intros x Hx; rewrite Eba; right; exact Hx|apply incl_refl|apply Hk|apply Hk].
Qed.

Definition asked (o : op) : list (list Z) := match o with OHeartbeat p _ => [p] | _ => [] end.

Lemma upd_b s o me' em inc' : BInv s -> no_hb_inject o = true -> upd s o me' em inc' ->
  BInv (mkst me' (eb s) (ab s ++ em) inc' (g13 s)) /\ hb_req (ms me') = hb_req (ms (ea s)) ++ asked o.
Proof.
  intros H Ho U.
  destruct U as [d|mx|mx _|mx r inc' Eba _|mx r inc' me1 k Eba Hgo|mx r inc' R _ Eba Hst|req _|ce _ _ _|p pl _|k _ _| |n _|d|m _|].
  - (* OWrite *) apply bupd0; auto. apply no_hb_Forall, Forall_map, Forall_forall. discriminate.
  - (* ORead from the buffer *) apply bupd0; auto. apply no_hb_nil.
  - (* ORead, decode_error *) apply bupd0; auto. apply no_hb_alert.
  - (* a record of the channel does not open *) apply bupd0; rewrite ?Eba; auto using in_cons. apply no_hb_alert.
  - split; [exact (b_turn s r inc' me1 k H Eba Hgo)|]. rewrite (go_hb_req (go_frame Hgo)). symmetry. apply app_nil_r.
  - (* a record of the channel ends the call: the heartbeat books stay and no heartbeat record goes out *)
    destruct Hst as [d _|x d _|_|ctx wf _|ctx ch _ _|f d em c _ Hem]; cbn [fst snd die].
    + (* stop_bad *) apply bupd0; rewrite ?Eba; auto using no_hb_alert, in_cons.
    + (* stop_data *) apply bupd0; rewrite ?Eba; auto using no_hb_nil, in_cons.
    + (* stop_nst *) apply bupd0; rewrite ?Eba; auto using no_hb_nil, in_cons.
    + (* stop_req *) apply bupd0; rewrite ?Eba; auto using in_cons. apply no_hb_pha; [reflexivity|apply pha_reply_msgs].
    + (* stop_cert: whatever [srv_pha] answers *)
      destruct (srv_pha_out (ea s) (pop_ctx (ea s) ctx) (r :: inc') inc' ctx ch) as [|cons tl d -> _|cons g tl -> _ _|cons tl -> _ _];
        cbn [fst snd die]; apply bupd0; rewrite ?Eba; auto using no_hb_nil, no_hb_alert;
        intros x Hx; right; apply in_or_app; right; auto using in_cons.
    + (* stop_alert *) apply bupd0; rewrite ?Eba; auto using in_cons. intros x b Hx. apply Hem in Hx. destruct Hx as [<-|[]]. discriminate.
  - (* OKeyUpdate *) apply bupd0; auto. apply no_hb_Forall. repeat constructor. discriminate.
  - (* ORequestAuth *) apply bupd0; auto. apply no_hb_Forall. repeat constructor. discriminate.
  - (* OHeartbeat *)
    split; [|reflexivity].
    apply bupd; auto.
    + cbn. apply incl_appl, incl_refl.
    + cbn. apply incl_appl. exact (b_got_a H).
    + intros r [<-|[]] b [= <-]. left.
      exists p, (padding pl). split; [reflexivity|]. cbn. apply in_or_app. right. left. reflexivity.
  - (* OTickets *) apply bupd0; auto. apply no_hb_Forall, Forall_repeat. discriminate.
  - (* OClose *) apply bupd0; auto. apply no_hb_alert.
  - (* OSetRecSize *) apply bupd0; auto. apply no_hb_nil.
  - (* OSetDev *) apply bupd0; auto. apply no_hb_nil.
  - (* OInject *) apply bupd0; auto. apply no_hb_Forall. repeat constructor. cbn [emit body]. destruct m; discriminate.
  - (* OReplayPha *) apply bupd0; auto. apply no_hb_pha; [reflexivity|repeat constructor].
Qed.

Lemma swap_b s : BInv s -> BInv (swap s).
Proof. intros [A B Ga Gb]. split; assumption. Qed.

Definition hb_ok (Q : list (list Z)) (o : op) : Prop :=
  no_hb_inject o = true /\ incl (asked o) Q.

(* [BInv] with the requests bounded: [R a] holds what endpoint [a] has requested so far and what it passes
   to write_heartbeat in the operations to come; [a] is the endpoint in position [ea] *)
Set Implicit Arguments.
Record BReq (R : bool -> list (list Z)) (a : bool) (x : st) : Prop := {
  br_inv : BInv x;
  br_a : incl (hb_req (ms (ea x))) (R a);
  br_b : incl (hb_req (ms (eb x))) (R (negb a)) }.
Unset Implicit Arguments.

Lemma act_b R a s o : BReq R a s -> hb_ok (R a) o -> BReq R a (fst (act s o)).
Proof.
  intros H [Ho Hq]. revert s H. apply act_steps. intros s me' em inc' [B A1 A2] U.
  destruct (upd_b _ _ _ _ _ B Ho U) as [B' E]. split; [exact B'| |exact A2]. cbn [ea].
  rewrite E. apply incl_app; assumption.
Qed.

Lemma exec_b R ops s :
  BReq R true s -> Forall (fun p => hb_ok (R (fst p)) (snd p)) ops -> BReq R true (exec s ops).
Proof.
  apply (exec_invariant (BReq R) (fun a => hb_ok (R a))); [|exact (act_b R)].
  intros a x [B A1 A2]. split; [exact (swap_b x B)|exact A2|]. rewrite negb_involutive. exact A1.
Qed.

Lemma init_b v13 cc sc nst : BInv (init v13 cc sc nst).
Proof.
  split; cbn; [intros r []| |intros x []|intros x []].
  intros r Hr b Hb. apply repeat_spec in Hr. subst r. discriminate.
Qed.

Lemma hb_calls_in a o : forall ops, In (a, o) ops -> incl (asked o) (hb_calls a ops).
Proof.
  induction ops as [|[a' o'] tl IH]; [intros []|]. intros [E|H].
  - injection E as -> ->. destruct o; try apply incl_nil_l. cbn [hb_calls asked]. rewrite eqb_reflx. intros q [<-|[]]. left. reflexivity.
  - specialize (IH H). cbn [hb_calls]. destruct o'; try exact IH. destruct (Bool.eqb a a'); [apply incl_tl|]; exact IH.
Qed.
