(* C19 -- a successful validate() returns only supported names: its result is inside the documented
   domains, and the four filters have removed what the installation lacks *)
From Coq Require Import ZArith List Bool String.
From TV Require Import Base.Prelude Model.C19_Settings Spec.C19_Domain Proofs.C19_Pure
                       Proofs.C19_Facts Proofs.C19_Normal Proofs.C19_Domain Proofs.C19_Idem.
Import ListNotations.
Open Scope Z_scope.

Lemma keep_old_in_tab e : keep_old_mac e = true -> in_tab e ["sha"; "md5"]%string = true.
Proof.
  unfold keep_old_mac. destruct e; cbn [py_eq in_tab existsb]; try discriminate.
  intros H. rewrite orb_false_r. exact H.
Qed.

Theorem supported_of_domain T I v c :
  Forall (fun d => dom T d (v, c) = true)
    [D_cipherImplementations; D_cipherNames; D_macNames; D_keyExchangeNames; D_certificateTypes; D_eccCurves;
     D_dhGroups; D_keyShares; D_sigHashes; D_compression; D_psk_modes; D_ticketCipher; D_defaultCurve;
     D_ec_point_formats] ->
  forallb (impl_available I) (VG (v, c) F_cipherImplementations) = true ->
  forallb (cipher_available I) (VG (v, c) F_cipherNames) = true ->
  (if ver_lt (maxVersion c) (3, 3) then sub_tab (VG (v, c) F_macNames) ["sha"; "md5"]%string else true) = true ->
  forallb (clip c) (VG (v, c) F_versions) = true ->
  supported_only T I (v, c) = true.
Proof.
  intros D H3 H0 H1 H4. rewrite !Forall_cons_iff in D. decompose [and] D. clear D.
  cbn [dom] in *. unfold supported_only, VS in *. cbn [snd] in *.
  split_andb. rewrite !forallb_andb.
  repeat (apply andb_true_intro; split); assumption.
Qed.

Theorem cvalidate_supported T I v c v' :
  List.length v = NF -> cvalidate T I v c = Ok v' -> supported_only T I (v', c) = true.
Proof.
  intros Len H. apply (cvalidate_Ok T I v c v' Len) in H. destruct H as [B ->]. split_andb.
  apply supported_of_domain; unfold VG; cbn [fst]; [|rewrite nth_output by exact Len..].
  - apply Forall_forall. intros d _. apply in_domain_iff, in_domain_output; assumption.
  - apply forallb_filter_self.
  - apply forallb_filter_self.
  - cbn [Nat.eqb F_macNames F_cipherNames F_cipherImplementations]. unfold pmac. destruct (ver_lt (maxVersion c) (3, 3)); [|reflexivity].
    apply forallb_filter_imp, keep_old_in_tab.
  - apply forallb_filter_self.
Qed.
