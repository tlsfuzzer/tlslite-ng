(* C13 -- the notions the theorems of Props/C13.v are stated with; what the ideal AEAD and the invariant
   (C13_Hist) say about the tickets a client offers and about the session_id of a full handshake; the
   witnesses' histories *)
From Coq Require Import ZArith List Bool Lia.
From TV Require Import Model.C13_Resume Proofs.C13_Decide Proofs.C13_Hist.
Import ListNotations.
Open Scope Z_scope.

(* the security parameters C13 lists: suite, EMS, EtM, server name, authenticated client identity *)
Definition same_security (a b : sess) : Prop :=
  s_suite a = s_suite b /\ s_ems a = s_ems b /\ s_etm a = s_etm b /\ s_sni a = s_sni b /\
  s_ccert a = s_ccert b /\ s_srp a = s_srp b /\ s_ms a = s_ms b.

Definition ideal_aead (blob : Type) (seal : Z -> Z -> payload -> blob) (open : Z -> blob -> option payload)
           (tamper : blob -> Z -> blob) (junk : Z -> blob) : Prop :=
  (forall k n p, open k (seal k n p) = Some p) /\
  (forall k k' n p, k <> k' -> open k' (seal k n p) = None) /\
  (forall k b i, open k (tamper b i) = None) /\
  (forall k n, open k (junk n) = None).

Definition not_under_current_key {blob} (seal : Z -> Z -> payload -> blob) (tamper : blob -> Z -> blob)
           (junk : Z -> blob) (keys : list Z) (b : blob) : Prop :=
  (exists b' i, b = tamper b' i) \/ (exists n, b = junk n) \/ (exists k n p, b = seal k n p /\ ~ In k keys).

Section Thms.
Variable blob : Type.
Variable seal : Z -> Z -> payload -> blob.
Variable open : Z -> blob -> option payload.
Variable tamper : blob -> Z -> blob.
Variable junk : Z -> blob.
Hypothesis ideal : ideal_aead blob seal open tamper junk.

Let open_seal := proj1 ideal.
Let open_other_key := proj1 (proj2 ideal).
Let open_tamper := proj1 (proj2 (proj2 ideal)).
Let open_junk := proj2 (proj2 (proj2 ideal)).

Notation world' := (world blob).
Notation Inv' := (Inv blob seal tamper junk).

(* C13_Decide's offered_of as a definition, for the statements of Props/C13.v; the lemmas of C13_Decide and
   C13_Hist apply to it by conversion *)
Definition offered (w : world') (cp : cparams) : option (cobj blob) :=
  match cp_offer cp with Some i => zget (w_clients w) i | None => None end.

Notation offer w cp := (client_offer blob cp (offered w cp) (w_now w) (w_fresh w)).

Lemma blob_ok_open log b k p :
  blob_ok blob seal tamper junk log b -> open k b = Some p ->
  exists r0 sid0, In r0 log /\ is_done (r_out r0) /\ r_sview r0 = Some (sess_of_payload p sid0).
Proof.
  intros [(k0 & n & p0 & r & sid & -> & R)|[[b' [i ->]]|[n ->]]] O.
  - destruct (Z.eq_dec k0 k) as [->|Hne].
    + rewrite open_seal in O. injection O as <-. exists r, sid. exact R.
    + rewrite (open_other_key _ _ _ _ Hne) in O. discriminate.
  - rewrite open_tamper in O. discriminate.
  - rewrite open_junk in O. discriminate.
Qed.

(* Ticket bytes of the hello that the server can open were sealed for a connection of the history that
   completed, and what the server rebuilds from them is that connection's session (but for the session ID):
   they are a ticket of the object in use, the client holds only such seals, altered bytes and keyless bytes,
   and the ideal AEAD opens nothing but seals. *)
Lemma opened_offer_origin w cp h used b k p :
  Inv' w -> offer w cp = Offer blob h used ->
  h_ticket h = Some b \/ (exists bk, h_psk h = Some (b, bk)) -> open k b = Some p ->
  exists r0 sid0, In r0 (w_log w) /\ is_done (r_out r0) /\ r_sview r0 = Some (sess_of_payload p sid0).
Proof.
  intros HI CO Hb O. pose proof (client_offer_sound CO) as S.
  assert (exists c t, used = Some c /\ In t (c_t10 c ++ c_t13 c) /\ tk_blob t = b) as (c & t & E & Ht & <-).
  { destruct Hb as [HT|[bk HP]].
    - destruct (os_ticket S b HT) as (c & t & E & Ht & Eb). exists c, t. auto using in_or_app.
    - destruct (os_psk S b bk HP) as (c & t & E & Ht & Eb). exists c, t. auto using in_or_app. }
  destruct (os_used S c E) as [c0 [G [_ P]]]. destruct (pruned_offered_ok HI G P) as [_ B].
  exact (blob_ok_open _ _ _ _ (B t Ht) O).
Qed.

(* A ServerHello of a full handshake carries session_id 0 or the fresh w_fresh + 1, and a session_id the
   client sends is at most w_fresh (its own session's, below w_fresh; or one it makes up, w_fresh itself), so
   the client never takes it for a resumption.  On the tree before /repo 51120a0
   this fails whenever the offered session holds a live TLS<=1.2 ticket (finding F1, wit_f1_history). *)
Lemma no_misread w cp h used sid :
  Inv' w -> offer w cp = Offer blob h used -> sid = 0 \/ sid = w_fresh w + 1 ->
  client_resume_branch blob used h sid = false.
Proof.
  intros HI CO Hsid. unfold client_resume_branch. destruct used as [c|]; [|reflexivity].
  destruct Hsid as [->| ->]; [reflexivity|].
  assert (h_sid h < w_fresh w + 1) as Hlt.
  { pose proof (inv_pos HI). pose proof (client_offer_sound CO) as O.
    destruct (os_used O c eq_refl) as [c0 [E [_ P]]]. destruct (pruned_offered_ok HI E P) as [F _].
    destruct (os_sid O) as [S|[S|[c' [Ec S]]]]; [lia|lia|]. injection Ec as <-. lia. }
  replace (w_fresh w + 1 =? h_sid h) with false by (symmetry; apply Z.eqb_neq; lia).
  rewrite andb_false_r. reflexivity.
Qed.

Lemma not_current_unopenable keys b :
  not_under_current_key seal tamper junk keys b -> forall k, In k keys -> open k b = None.
Proof.
  intros [[b' [i ->]]|[[n ->]|[k0 [n [p [-> Hk]]]]]] k Hin.
  - apply open_tamper.
  - apply open_junk.
  - apply open_other_key. intros ->. contradiction.
Qed.

Lemma try_decrypt_seal keys k n p :
  In k keys -> try_decrypt blob open keys (seal k n p) = Some (k, p).
Proof.
  induction keys as [|k0 ks IH]; [intros []|]. intros Hin. cbn [try_decrypt].
  destruct (Z.eq_dec k0 k) as [->|Hne].
  - rewrite open_seal. reflexivity.
  - rewrite (open_other_key k k0 n p (fun E => Hne (eq_sym E))).
    destruct Hin as [E|Hin]; [contradiction|apply IH; exact Hin].
Qed.

End Thms.

Arguments opened_offer_origin {blob seal open tamper junk} ideal {w cp h used b k p}.
Arguments no_misread {blob seal tamper junk w cp h used sid}.

Lemma sym_aead_ideal : ideal_aead sblob Sealed sopen Tampered Junk.
Proof.
  repeat split.
  - intros k n p. cbn. rewrite Z.eqb_refl. reflexivity.
  - intros k k' n p Hne. cbn. destruct (k' =? k) eqn:E; [apply Z.eqb_eq in E; congruence|reflexivity].
Qed.

Definition wit_cfg (maxv : Z) (keys : list Z) (life : Z) : scfg :=
  {| sv_maxv := maxv; sv_keys := keys; sv_life := life; sv_count := 1; sv_usecache := false; sv_maxage := 200;
     sv_cap := 100; sv_ems := true; sv_etm := true; sv_reqcert := true |}.

Definition wit_cp (maxv : Z) (offer : option Z) (sni suite : Z) : cparams :=
  {| cp_srv := 0; cp_maxv := maxv; cp_suites := [4865; 4867; 49199]; cp_ems := true; cp_etm := true; cp_sni := sni;
     cp_srp := 0; cp_ccert := 1; cp_offer := offer; cp_half := 0; o_acc := [4865; 4867; 49199]; o_fsuite := suite; o_fcbc := false;
     o_fhash := 256; o_falert := 40 |}.

(* The history that refutes fallback_completes on the tree before /repo 51120a0 (F1): TLS 1.2, ticket issued
   under key 1, key replaced by 7, the client offers the session again.  With 51120a0 the offer is declined and
   the full handshake completes. *)
Definition wit_f1_history : list event :=
  [EConn (wit_cp 3 None 1 49199); EClose 0 0; ECfg 0 (wit_cfg 3 [7] 400)].

(* The history that refutes the TLS 1.3 lifetime conjunct on the tree before /repo e172bf7: ticketLifetime
   100 s, offered 1000 s later by a client that keeps it.  With e172bf7 the offer is declined and the full
   handshake completes. *)
Definition wit_13_expired : list event :=
  [EConn (wit_cp 4 None 1 4865); EClose 0 0; ETick 4000; EDevKeep 0].

(* TLS 1.3: the resumed connection reports another server name / suite than the one that issued the ticket *)
Definition wit_13_sni : list event :=
  [EConn (wit_cp 4 None 1 4865); EClose 0 0; EDevSni 0 2].

(* The history of finding ticket-connection-failure-not-propagated-to-cache (server with cache and tickets):
   full handshake; close; resumed from the ticket (bound to the cached object, /repo 4da1727); that
   connection dies abruptly at the server; the client's ticket expires; the session is offered by ID.  On
   the tree before 4da1727 the last connection resumes by ID; with it, it is a full handshake. *)
Definition wit_cfg_both : scfg :=
  {| sv_maxv := 3; sv_keys := [1]; sv_life := 400; sv_count := 1; sv_usecache := true; sv_maxage := 57600;
     sv_cap := 100; sv_ems := true; sv_etm := true; sv_reqcert := true |}.
Definition wit_ticketconn_history : list event :=
  [EConn (wit_cp 3 None 1 49199); EClose 0 0; EConn (wit_cp 3 (Some 0) 1 49199); EClose 1 2; ETick 404].

(* SRP sessions and tickets.  On the tree before /repo 19b1cb2 the ticket payload has no SRP user name, the
   session rebuilt from it has none, and the consistency check aborts an honest client that offers its own
   SRP session (finding fallback-broken:ticket-tls12-srp:server-alert-40; this history ends with the server's
   handshake_failure).  With 19b1cb2 the same offer resumes with the user name preserved. *)
Definition wit_cp_srp (offer : option Z) : cparams :=
  {| cp_srv := 0; cp_maxv := 3; cp_suites := [49185; 49182]; cp_ems := true; cp_etm := true; cp_sni := 1;
     cp_srp := 1; cp_ccert := 0; cp_offer := offer; cp_half := 0; o_acc := [49185; 49182]; o_fsuite := 49185; o_fcbc := true;
     o_fhash := 256; o_falert := 40 |}.
Definition wit_srp_history : list event := [EConn (wit_cp_srp None); EClose 0 0].

(* stateless tickets: the server saw the connection die abruptly, the ticket still resumes *)
Definition wit_ticket_survives : list event := [EConn (wit_cp 3 None 1 49199); EClose 0 2].

