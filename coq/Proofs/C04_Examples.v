(* C04 -- concrete instances: how the boolean tests of Model/C04_Toy.v give completion and
   unforgeability of an example run, and the run in which TLS 1.3 is stripped from the hello. *)
From Coq Require Import ZArith List.
From TV Require Import Model.C04_Tamper Model.C04_Toy Proofs.C04_Tamper.
Import ListNotations.
Open Scope Z_scope.

Lemma unforgeable_of_check fin o : delivered_fins_emitted o = true -> unforgeable fin o.
Proof.
  unfold delivered_fins_emitted, unforgeable. intros H v k l d Hin _ _.
  rewrite forallb_forall in H. specialize (H _ Hin). cbn in H.
  apply existsb_exists in H. destruct H as [w [Hw E]]. apply zl_eqb_sound in E. subst w. exact Hw.
Qed.

Lemma both_of_done2 o : done2 o = (true, true) -> both_complete o.
Proof.
  unfold done2, both_complete. destruct (o_c o) as [c|]; destruct (o_s o) as [s|]; try discriminate.
  intros _. exists c, s. split; reflexivity.
Qed.

(* a TLS-1.3 client whose hello is stripped of TLS 1.3 on the way to a TLS-1.3 server: the server answers
   TLS 1.2 with the sentinel, the client stops with illegal_parameter *)
Definition ex_run12_dg (a1 a2 a3 a4 : list msg -> list msg) : outcome :=
  run12 toy_hash toy_fin ex_prf ex_suite_ok 769 772 769 772 ex_ch13 (fun _ => true)
        (fun v c => Some (ex_sh12 v, [MOther 11 1; MOther 12 2; MOther 14 3]))
        (fun _ _ => true) (fun _ => [MOther 16 4]) (fun _ _ => true) (fun _ _ => true)
        (fun _ => []) (fun _ => 9) (fun _ => 9) a1 a2 a3 a4.
