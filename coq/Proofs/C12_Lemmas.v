(* Single bytes and windows of a list: what the C12 proof needs beyond Base/PreludeFacts.v. *)
From Coq Require Import ZArith List Bool Lia.
From TV Require Import Base.Prelude Base.PreludeFacts.
Import ListNotations.
Open Scope Z_scope.

Definition byte (x : Z) : Prop := 0 <= x < 256.

Lemma mk_byte_ok x : byte x -> mk_byte x = Ok [x].
Proof. intros H. unfold mk_byte. apply is_byte_iff in H. rewrite H. reflexivity. Qed.

Lemma slices_join (l : list Z) a b : 0 <= a <= b ->
  py_slice l None (Some a) ++ py_slice l (Some a) (Some b) = firstn (Z.to_nat b) l.
Proof. intros H. rewrite py_slice_to, py_slice_nonneg, <- firstn_add by lia. f_equal. lia. Qed.

Lemma window_eq_pointwise (data D : list Z) m ds :
  0 <= m -> 0 <= ds -> m + ds <= zlen data -> zlen D = ds ->
  ((forall j, 0 <= j < ds -> nthZ data (m + j) = nthZ D j)
   <-> firstn (Z.to_nat ds) (skipn (Z.to_nat m) data) = D).
Proof.
  intros Hm Hds Hfit HD. set (W := firstn (Z.to_nat ds) (skipn (Z.to_nat m) data)).
  assert (HW : zlen W = ds) by (apply firstn_zlen; rewrite skipn_zlen; lia).
  (* data = front ++ W ++ rest, so position m + j of data is position j of W *)
  assert (Hnth : forall j, 0 <= j < ds -> nthZ data (m + j) = nthZ W j).
  { intros j Hj. rewrite <- (firstn_skipn (Z.to_nat m) data), <- (firstn_skipn (Z.to_nat ds) (skipn _ data)) at 1.
    fold W. rewrite nthZ_app_r, firstn_zlen, nthZ_app_l by (rewrite ?firstn_zlen; lia). f_equal. lia. }
  split.
  - intros H. apply nth_ext with (d := 0) (d' := 0); [unfold zlen in *; lia|].
    intros j Hj. specialize (H (Z.of_nat j)). rewrite Hnth in H by (unfold zlen in *; lia).
    unfold nthZ in H. rewrite Nat2Z.id in H. apply H. unfold zlen in *; lia.
  - intros <- j Hj. apply Hnth, Hj.
Qed.
