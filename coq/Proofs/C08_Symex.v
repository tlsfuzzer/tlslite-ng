(* Symbolic execution tactic for crashlite-generated regions: lazy case analysis on the
   scrutinee at the head of the current statement, loop rules for foldMo / find_firstM /
   existsbM / filterM / mapM, continuations unfolded on demand, a conditional that only
   chooses the value of one variable executed once. *)
From Coq Require Import ZArith List Bool Lia String.
From TV Require Import Base.Prelude Base.PreludeFacts Base.C08_Lib.
Import ListNotations.
Open Scope Z_scope.

Lemma seq_index_cons0 {A} s (x : A) xs : seq_index s (x :: xs) 0 = OK x.
Proof. unfold seq_index. rewrite (py_index_nth (x :: xs) 0 x) by (lia || reflexivity). reflexivity. Qed.

Lemma seq_index_nil0 {A} s : @seq_index A s [] 0 = Crash "IndexError" s.
Proof. reflexivity. Qed.

Lemma seq_index_last {A} s (x : A) xs : exists y, seq_index s (x :: xs) (-1) = OK y.
Proof.
  destruct (@exists_last _ (x :: xs)) as [l [y E]]; [discriminate|]. exists y.
  unfold seq_index. rewrite E, py_index_last. reflexivity.
Qed.

Lemma crash_in_seq_index_last {A B} sites s (x : A) xs (k : A -> outcome B) :
  (forall y, crash_in sites (k y)) -> crash_in sites (bindo (seq_index s (x :: xs) (-1)) k).
Proof.
  intros H. destruct (seq_index_last s x xs) as [y Hy]. rewrite Hy. cbn [bindo]. apply H.
Qed.

Lemma no_known_site_ncrash {A} sites (o : outcome A) : sites = [] -> crash_in sites o -> ncrash o.
Proof. intros ->. apply crash_in_nil_ncrash. Qed.

(* HelloMessage.getExtension over any extension type: every generated region defines its own
   `ext`, `ext_type`, `getExtension`, `getExtensionAs`, which are `lookup ext_type` and
   `lookup_as ext_type` up to conversion *)
Section Lookup.
  Context {E : Type} (ty : E -> Z).

  Definition lookup (exts : option (list E)) (t : Z) : outcome (option E) :=
    match exts with
    | None => OK None
    | Some l => match filter (fun e => ty e =? t) l with
                | [] => OK None
                | [e] => OK (Some e)
                | _ => Raised "TLSInternalError"
                end
    end.
  Definition lookup_as {R} (cast : E -> option R) (exts : option (list E)) (t : Z) : outcome (option R) :=
    bindo (lookup exts t) (fun o => match o with None => OK None | Some e => OK (cast e) end).

  Lemma lookup_cases e t : (exists o, lookup e t = OK o) \/ lookup e t = Raised "TLSInternalError".
  Proof.
    unfold lookup. destruct e as [l|]; [|left; eexists; reflexivity].
    destruct (filter _ l) as [|x [|y ys]];
      [left; eexists; reflexivity|left; eexists; reflexivity|right; reflexivity].
  Qed.

  Lemma lookup_as_cases {R} (c : E -> option R) e t :
    (exists o, lookup_as c e t = OK o) \/ lookup_as c e t = Raised "TLSInternalError".
  Proof.
    unfold lookup_as. destruct (lookup_cases e t) as [[o H]|H]; rewrite H; cbn [bindo].
    - left. destruct o; eexists; reflexivity.
    - right. reflexivity.
  Qed.

  Lemma lookup_as_some_nonempty {R} (c : E -> option R) e t r :
    lookup_as c e t = OK (Some r) -> exists x l, e = Some (x :: l).
  Proof.
    unfold lookup_as, lookup. destruct e as [[|x l]|]; cbn; try discriminate.
    intros _. eexists; eexists; reflexivity.
  Qed.
End Lookup.

(* case analysis on the extension lookups of a region, given its ext_type, getExtension and
   getExtensionAs: the ascriptions state the facts about the region's own constants *)
Ltac c08_ext_domain ty get getAs :=
  match goal with
  | H : ?e = _ |- context [getAs _ _ ?e _] => rewrite H
  | H : getAs ?R ?c ?e ?t = _ |- context [getAs ?R ?c ?e ?t] => rewrite H; cbn [bindo]
  | |- context [getAs ?R ?c ?e ?t] =>
    let o := fresh "o" in let E := fresh "E" in
    destruct (lookup_as_cases ty c e t
              : (exists o, getAs R c e t = OK o) \/ getAs R c e t = Raised "TLSInternalError")
      as [[o E]|E]; rewrite E; cbn [bindo]
  | |- context [get ?e ?t] =>
    let o := fresh "o" in let E := fresh "E" in
    destruct (lookup_cases ty e t : (exists o, get e t = OK o) \/ get e t = Raised "TLSInternalError")
      as [[o E]|E]; rewrite E; cbn [bindo]
  | H : getAs _ ?c ?e ?t = OK (Some ?r) |- context [match ?e with _ => _ end] =>
    let x := fresh "x" in let l := fresh "l" in let Hl := fresh "Hl" in
    destruct (lookup_as_some_nonempty ty c e t r H) as [x [l Hl]]; rewrite Hl in *
  end.

(* `if c then K .. a .. else K .. b ..`: the continuation K is executed once, for any value of
   the argument in which the two calls differ *)
Lemma crash_in_if_arg {A B} sites (c : bool) (F : A -> outcome B) a b :
  (forall x, crash_in sites (F x)) -> crash_in sites (if c then F a else F b).
Proof. intros H. destruct c; apply H. Qed.

(* the function of the one argument in which two calls of the same continuation differ *)
Ltac c08_diff A B :=
  lazymatch A with
  | ?f ?a =>
    lazymatch B with
    | ?g ?b =>
      lazymatch a with
      | b => let F := c08_diff f g in constr:(fun x => F x a)
      | _ => lazymatch f with g => constr:(f) end
      end
    end
  end.

Ltac c08_join :=
  match goal with
  | |- crash_in ?S (if ?c then ?A else ?B) =>
    let F := c08_diff A B in
    apply (crash_in_if_arg S c F); cbv beta; intro
  end.

Create HintDb c08gen.

(* a Crash leaf is allowed when its site is in the list; the search leaves no goal behind or fails *)
Ltac c08_in_sites :=
  cbn [crash_in In]; repeat (first [left; reflexivity | right]); fail.

Ltac c08_head t := lazymatch t with ?f _ => c08_head f | _ => t end.

Ltac c08_simpl :=
  cbn beta iota zeta delta [bindo crash_in foldMo find_firstM existsbM filterM mapM
     truthy_opt is_some is_none always_true nonempty negb andb orb fst snd
     find_first opt_eqb] in *.

(* unfold the generated continuation at the head (after the lib reductions are stuck) *)
Ltac c08_unfold_head :=
  match goal with
  | |- crash_in _ ?t =>
    let h := c08_head t in
    lazymatch h with
    | @bindo => fail
    | @OK => fail
    | @Alert => fail
    | @Raised => fail
    | @Crash => fail
    | _ => progress (unfold h)
    end
  end.

Ltac c08_leaf :=
  match goal with
  | |- crash_in _ _ => solve [auto 2 with c08gen nocore]
  | |- crash_in _ (OK _) => exact I
  | |- crash_in _ (Alert _) => exact I
  | |- crash_in _ (Raised _) => exact I
  | |- crash_in _ (Crash _ _) => c08_in_sites
  | |- In _ _ => c08_in_sites
  | |- True => exact I
  end.

Ltac c08_loop_rule :=
  match goal with
  | |- crash_in _ (bindo (foldMo _ _ _) _) =>
    apply crash_in_bindo; [apply crash_in_foldMo; intros ? ? _|intros ? _]
  | |- crash_in _ (bindo (find_firstM _ _) _) =>
    apply crash_in_bindo; [apply crash_in_find_firstM; intros ?|intros ? _]
  | |- crash_in _ (bindo (existsbM _ _) _) =>
    apply crash_in_bindo; [apply crash_in_existsbM; intros ?|intros ? _]
  | |- crash_in _ (bindo (filterM _ _) _) =>
    apply crash_in_bindo; [apply crash_in_filterM; intros ?|intros ? _]
  | |- crash_in _ (bindo (mapM _ _) _) =>
    apply crash_in_bindo; [apply crash_in_mapM; intros ?|intros ? _]
  | |- context [seq_index ?s ?l 0] =>
    (* x[0] on a list variable: on the empty list an earlier test (e.g. len(x) != 1) recorded as an
       equation is false, or else the index is the IndexError at its site *)
    is_var l; destruct l;
    [ first [ exfalso; match goal with H : ?t = _ |- _ =>
                         match t with context [@nil _] => cbv in H; discriminate H end end
            | rewrite seq_index_nil0 ]
    | ]
  | |- context [seq_index ?s (?x :: ?xs) 0] => rewrite (seq_index_cons0 s x xs)
  | |- context [seq_index ?s (?x :: ?xs) (-1)] =>
    let y := fresh "y" in let Hy := fresh "Hy" in
    destruct (seq_index_last s x xs) as [y Hy]; rewrite Hy; clear Hy
  end.

(* hook for region-specific facts (redefined in the region's proof file) *)
Ltac c08_domain := fail.

(* the scrutinee that blocks the evaluation of the current statement; c08_case decides it by a
   fact recorded by an earlier test, or by cases *)
Ltac c08_scrut t :=
  lazymatch t with
  | bindo ?m _ => c08_scrut m
  | match ?x with _ => _ end => c08_scrut x
  | negb ?b => c08_scrut b
  | andb ?a _ => c08_scrut a
  | orb ?a _ => c08_scrut a
  | truthy_opt _ ?o => c08_scrut o
  | is_some ?o => c08_scrut o
  | is_none ?o => c08_scrut o
  | nonempty ?l => c08_scrut l
  | seq_index _ ?l _ => c08_scrut l
  | _ => t
  end.

Ltac c08_case :=
  match goal with
  | |- crash_in _ ?t =>
    let x := c08_scrut t in
    tryif constr_eq x t then fail else
    first [ is_var x; destruct x
          | match goal with H : x = _ |- _ => rewrite H end
          | destruct x eqn:? ]
  end.

Ltac c08_step :=
  first [ c08_leaf
        | progress c08_simpl
        | c08_loop_rule
        | c08_domain
        | c08_unfold_head
        | c08_join
        | c08_case ].

Ltac c08_symex := repeat c08_step.
