(* What calls executed one after the other (`mfold`) return: if the clock advances are non-negative,
   exactly the outcomes of the abstract specification for the history of those calls.  (That the
   `mserial` of cache_linearizable, which runs thread indices, is such a run is not proved.) *)
From Coq Require Import ZArith Lia List.
From TV Require Import Base.C18_Lib Model.C18_Cache Proofs.C18_Cache Proofs.C18_Lin.
Import ListNotations.
Open Scope Z_scope.

Fixpoint mfold (wc : world * Z) (cs : list ccall) : (world * Z) * list outcome :=
  match cs with
  | [] => (wc, [])
  | c :: r => let '(wc', o) := cache_mstep wc c in
              let '(wf, os) := mfold wc' r in (wf, o :: os)
  end.

Fixpoint hist_of (clk : Z) (cs : list ccall) : history :=
  match cs with
  | [] => []
  | (o, d) :: r => (clk + d, o) :: hist_of (clk + d) r
  end.

Lemma mfold_exec : forall cs w clk,
  snd (mfold (w, clk) cs) = snd (exec w (hist_of clk cs)) /\
  fst (fst (mfold (w, clk) cs)) = fst (exec w (hist_of clk cs)).
Proof.
  induction cs as [|[o d] cs IH]; intros w clk; [split; reflexivity|].
  cbn [mfold hist_of]. rewrite exec_cons. unfold cache_mstep. cbn [fst snd].
  destruct (apply w (clk + d) o) as [w1 r]. cbn [fst snd].
  destruct (IH w1 (clk + d)) as [H1 H2].
  destruct (mfold (w1, clk + d) cs) as [wf os]. cbn [fst snd] in *. split; [f_equal; exact H1|exact H2].
Qed.

Lemma hist_of_monotone : forall cs clk, Forall (fun c : ccall => 0 <= snd c) cs -> monotone_from clk (hist_of clk cs).
Proof.
  induction cs as [|[o d] cs IH]; intros clk H; [exact I|].
  inversion H as [|x l Hx Hl]; subst. cbn [hist_of monotone_from snd] in *. split; [lia|apply IH; exact Hl].
Qed.

Lemma monotone_from_monotone t h : monotone_from t h -> monotone h.
Proof. destruct h as [|[t' o] h]; [auto|]. cbn [monotone_from monotone]. tauto. Qed.
