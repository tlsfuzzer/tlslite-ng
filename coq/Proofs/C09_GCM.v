(* AES-GCM (generated Gen/C09_GCM.v): open accepts exactly the outputs of seal -- structural, for any
   block-cipher oracle; no property of GHASH or AES is used. *)
From Coq Require Import ZArith List Lia.
From TV Require Import Base.Prelude Base.PreludeFacts Base.C09_Lib Base.C09_Oracle Gen.C09_AesModes Gen.C09_GCM
  Proofs.C09_Lists Proofs.C09_CTR.
Import ListNotations.
Open Scope list_scope.
Open Scope Z_scope.

Section GCM.
  Variable O : BlockOracle.

  (* _mul reads nothing of the object but the table, so with _mul unfolded the two sides are the same term (left to the
     conversion alone, it tries much else before it unfolds gcm_mul) *)
  Lemma gcm_auth_indep k c1 c2 t ct a m : gcm_auth O (mkAESGCM k c1 t) ct a m = gcm_auth O (mkAESGCM k c2 t) ct a m.
  Proof. unfold gcm_auth, gcm_update, gcm_mul. reflexivity. Qed.

  Lemma gcm_auth_len g ct a m t : gcm_auth O g ct a m = Ok t -> List.length t = 16%nat.
  Proof.
    unfold gcm_auth. cbv zeta.
    destruct (gcm_update O _ 0 a) as [y1|e]; cbn [bind]; [|discriminate].
    destruct (gcm_update O _ y1 ct) as [y2|e]; cbn [bind]; [|discriminate].
    destruct (gcm_mul O _ _) as [y3|e]; cbn [bind]; [|discriminate].
    intros H. injection H as <-. unfold numberToByteArray, be_bytes. rewrite rev_length, le_bytes_length. reflexivity.
  Qed.

  Lemma gcm_open_iff_seal_code g nonce c a p g' : all_bytes c = true -> all_bytes p = true ->
    gcm_open O g nonce c a = Ok (g', Some p) <-> gcm_seal O g nonce p a = Ok (g', c).
  Proof.
    intros Bc Bp. destruct g as [k ctr tbl].
    unfold gcm_open, gcm_seal. cbn [gcm_key gcm__ctr gcm__productTable]. cbv zeta.
    destruct (negb (zlen nonce =? 12)); [split; discriminate|].
    change (py_zeros 16) with (Ok (repeat 0 16)). cbn [bind].
    set (cb0 := py_slice_assign (repeat 0 16) None (Some 12) nonce).
    (* the two stores into the counter block cannot fail when the nonce has 12 bytes; no length is worked out here: where
       a store fails, open and seal fail alike *)
    destruct (py_store_b cb0 (-1) 1) as [cb1|e]; cbn [bind]; [|split; [destruct (zlen c <? 16)|]; discriminate].
    set (mask := bo_enc O k cb1).
    destruct (py_store_b cb1 (-1) 2) as [cb2|e] eqn:E2; cbn [bind].
    2:{ split; intros H; [|discriminate]. destruct (zlen c <? 16); [discriminate|].
        destruct (gcm_auth O _ _ a mask); cbn [bind] in H; [|discriminate].
        destruct (negb (list_eqb _ _)); discriminate. }
    set (ctr2 := ctr_set_counter O ctr cb2).
    split; intros H.
    - destruct (zlen c <? 16) eqn:E16; [discriminate|]. apply Z.ltb_ge in E16.
      destruct (tag_slices c E16) as [S1 S2]. rewrite S1, S2 in H. clear S1 S2.
      set (ct := firstn (List.length c - 16) c) in *. set (tg := skipn (List.length c - 16) c) in *.
      destruct (gcm_auth O (mkAESGCM k ctr tbl) ct a mask) as [t2|e] eqn:EA; cbn [bind] in H; [|discriminate].
      destruct (list_eqb tg t2) eqn:ET; cbn [negb] in H; [|discriminate].
      apply list_eqb_spec in ET.
      rewrite (ctr_decrypt_is_encrypt O) in H.
      destruct (ctr_encrypt O ctr2 ct) as [[ctr3 p']|e] eqn:EC; cbn [bind fst snd] in H; [|discriminate].
      injection H as <- ->.
      assert (Bct : all_bytes ct = true) by (apply all_bytes_firstn; exact Bc).
      destruct (ctr_involution O ctr2 ct ctr3 p Bct EC) as [EI _].
      rewrite EI. cbn [bind fst snd].
      rewrite (gcm_auth_indep k ctr3 ctr tbl), EA. cbn [bind].
      do 2 f_equal. rewrite <- ET. unfold ct, tg. apply firstn_skipn.
    - destruct (ctr_encrypt O ctr2 p) as [[ctr3 ct]|e] eqn:EC; cbn [bind fst snd] in H; [|discriminate].
      destruct (gcm_auth O (mkAESGCM k ctr3 tbl) ct a mask) as [t2|e] eqn:EA; cbn [bind] in H; [|discriminate].
      injection H as <- <-.
      pose proof (gcm_auth_len _ _ _ _ _ EA) as Lt.
      destruct (ctr_involution O ctr2 p ctr3 ct Bp EC) as [EI _].
      destruct (tag_app ct t2 Lt) as (E16 & F1 & F2). rewrite E16.
      destruct (tag_slices (ct ++ t2) (proj1 (Z.ltb_ge _ _) E16)) as [-> ->]. rewrite F1, F2.
      rewrite (gcm_auth_indep k ctr ctr3 tbl), EA. cbn [bind]. rewrite list_eqb_refl. cbn [negb].
      rewrite (ctr_decrypt_is_encrypt O), EI. reflexivity.
  Qed.
End GCM.
