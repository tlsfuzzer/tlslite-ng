(* C19 -- objects on which validate() before /repo 851aa29, 8cc633e, c50a338 falsified the statements, an object
   with a shared list and an object of the wrong type; Props/C19.v evaluates the model on them *)
From Coq Require Import ZArith List Bool String.
From TV Require Import Base.Prelude Model.C19_Settings Spec.C19_Domain Proofs.C19_Examples.
Import ListNotations.
Open Scope Z_scope.

(* Before /repo 851aa29, 8cc633e, c50a338 three statements were FALSE of the code (counterexamples
   found by the correspondence run, registered as findings, since repaired):
     * frame condition: HandshakeSettings().validate() without M2Crypto/pycrypto changed cell 3 (the
       receiver's cipherImplementations) from [openssl; pycrypto; python] to [python];
     * rejects_outside_domain at D_dc_sig_algs: dc_sig_algs = [(8,4)] was accepted;
     * rejects_outside_domain at D_ticketKeys: ticketCipher = chacha20-poly1305 with a 16-byte key was accepted.
   The first object is ex_heap / ex_settings of Proofs/C19_Examples.v; the other two follow, as regression
   witnesses of the repaired behaviour. *)

Definition ex_heap_dc : heap := with_cell ex_heap F_dc_sig_algs [VPair 8 4].

Definition ex_heap_tk : heap := with_cell ex_heap F_ticketKeys [VBytes [0;0;0;0;0;0;0;0;0;0;0;0;0;0;0;0]].
Definition ex_settings_tk : settings := with_scalars ex_settings ex_scalars_chacha_ticket.

(* another attribute bound to the very list object of cipherImplementations (dc_sig_algs := the same
   location): cipherImplementations is shared, and validate() must leave the shared list as it is *)
Definition ex_settings_alias : settings :=
  {| locs := lupd (locs ex_settings) F_dc_sig_algs 3%nat; sc := sc ex_settings |}.

(* a value of the wrong kind (an int where a PSK tuple is expected) makes validate() raise TypeError *)
Definition ex_heap_badpsk : heap := with_cell ex_heap F_pskConfigs [VInt 5].

(* The f81c02a interlude: between /repo f81c02a and 0b9340a validate() clipped `versions` at minVersion itself, AFTER
   _sanityCheckECDHSettings had looked at the unclipped list.  With minVersion = (3,4) the result had
   versions = [(3,4)] and still every curve of the receiver; validating the result applied the TLS 1.3-only
   group rule and raised ValueError (idempotence was refuted by the object below, and the same settings
   could not connect to a default server).  0b9340a clips at min(minVersion, (3,3)).
   Regression witness: the default object with minVersion = (3,4) and one curve that is not an RFC 8446
   group (the real defaults contain brainpoolP256r1/384r1/512r1). *)
Definition ex_heap_k1 : heap :=
  with_cell ex_heap F_eccCurves (S ["x25519"; "secp256r1"; "secp256k1"]%string).
Definition ex_settings_13 : settings := with_scalars ex_settings ex_scalars_tls13only.

