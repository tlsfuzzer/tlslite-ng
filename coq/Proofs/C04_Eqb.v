(* C04 -- zl_eqb, ext_eqb and ch_eqb of Model/C04_Tamper.v are true only of equal terms (its sh_eqb, msg_eqb and tr_eqb
   have no user, and no lemma here) *)
From Coq Require Import ZArith List Bool.
From TV Require Import Model.C04_Tamper.
Import ListNotations.
Open Scope Z_scope.

Lemma lists_eqb_sound {A} (eq : A -> A -> bool) :
  (forall x y, eq x y = true -> x = y) -> forall a b, lists_eqb eq a b = true -> a = b.
Proof.
  intros H a. induction a as [|x xs IH]; intros [|y ys] E; cbn in E; try discriminate; [reflexivity|].
  apply andb_true_iff in E. destruct E as [E1 E2]. f_equal; [apply H; exact E1|apply IH; exact E2].
Qed.

Lemma lists_eqb_refl {A} (eq : A -> A -> bool) :
  (forall x, eq x x = true) -> forall a, lists_eqb eq a a = true.
Proof. intros H a. induction a as [|x xs IH]; cbn; [reflexivity|]. rewrite H, IH. reflexivity. Qed.

Lemma zl_eqb_sound a b : zl_eqb a b = true -> a = b.
Proof. apply lists_eqb_sound. intros x y H. apply Z.eqb_eq. exact H. Qed.

Lemma ext_eqb_sound a b : ext_eqb a b = true -> a = b.
Proof.
  destruct a as [t p], b as [u q]. unfold ext_eqb. cbn [fst snd]. intros H.
  apply andb_true_iff in H. destruct H as [H1 H2]. apply Z.eqb_eq in H1. apply zl_eqb_sound in H2.
  subst. reflexivity.
Qed.

Lemma ch_eqb_sound a b : ch_eqb a b = true -> a = b.
Proof.
  destruct a, b. unfold ch_eqb. cbn. intros H.
  repeat (apply andb_true_iff in H; destruct H as [H ?]).
  apply Z.eqb_eq in H.
  repeat match goal with
         | X : (_ =? _) = true |- _ => apply Z.eqb_eq in X
         | X : zl_eqb _ _ = true |- _ => apply zl_eqb_sound in X
         | X : lists_eqb ext_eqb _ _ = true |- _ => apply (lists_eqb_sound _ ext_eqb_sound) in X
         | X : lists_eqb zl_eqb _ _ = true |- _ => apply (lists_eqb_sound _ zl_eqb_sound) in X
         end.
  subst. reflexivity.
Qed.
