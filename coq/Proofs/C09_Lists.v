(* Facts used by the C09 proofs, among them access to the element in focus of pre ++ x :: suf (how the in-place loops
   that walk a buffer front to back are followed) and chunks (which is Spec.C09_Poly1305.chunks, whatever the primitive:
   a file that names it imports that specification). *)
From Coq Require Import ZArith List Lia.
From TV Require Base.ListUpd Base.Bytes.
From TV Require Import Base.Prelude Base.PreludeFacts Base.C09_Lib Spec.C09_Poly1305 Spec.C09_ChaCha Spec.C09_Modes.
Import ListNotations.
Open Scope Z_scope.

Lemma bind_err {A B} e (f : A -> res B) : bind (Err e) f = Err e.
Proof. reflexivity. Qed.

(* The loop must start at St 0%nat as written: rewriting with the lemma does not find a start state that is only equal to it
   (ks against ks ++ ctr_blocks E t0 0), so the users first `replace` theirs (C09_CTR.ctr_encrypt_run, C09_KDF.P_hash_ok). *)
Lemma while_fuel_steps {T} (c : T -> bool) (b : T -> res T) (St : nat -> T) k fuel :
  (forall i, (i < k)%nat -> c (St i) = true /\ b (St i) = Ok (St (S i))) -> c (St k) = false -> (k < fuel)%nat ->
  while_fuel fuel c b (St 0%nat) = Ok (St k).
Proof.
  intros Hstep Hk Hf.
  assert (G : forall j i f, (i + j = k)%nat -> (j < f)%nat -> while_fuel f c b (St i) = Ok (St k)).
  { induction j as [|j IH]; intros i f E Hf'; (destruct f as [|f]; [lia|]); cbn [while_fuel].
    - rewrite Nat.add_0_r in E. subst i. rewrite Hk. reflexivity.
    - destruct (Hstep i ltac:(lia)) as [-> ->]. cbn [bind]. apply IH; lia. }
  apply (G k 0%nat); [reflexivity|exact Hf].
Qed.

Lemma while_fuel_inv {S0} (P : S0 -> Prop) (c : S0 -> bool) (b : S0 -> res S0) :
  (forall s t, P s -> c s = true -> b s = Ok t -> P t) ->
  forall fuel s s', P s -> while_fuel fuel c b s = Ok s' -> P s' /\ c s' = false.
Proof.
  intros Hstep. induction fuel as [|fuel IH]; intros s s' Hs H; cbn [while_fuel] in H; [discriminate|].
  destruct (c s) eqn:E.
  - destruct (b s) as [t|e] eqn:Eb; cbn [bind] in H; [|discriminate].
    apply (IH t s'); [apply (Hstep s t); assumption|exact H].
  - injection H as <-. split; assumption.
Qed.

Lemma snoc_app {A} (pre : list A) x l : pre ++ x :: l = (pre ++ [x]) ++ l.
Proof. rewrite <- app_assoc. reflexivity. Qed.

(* set_nth is the list update upd of Base/ListUpd.v (the same Fixpoint) *)
Lemma set_nth_length {A} (l : list A) n v : length (set_nth l n v) = length l.
Proof. exact (ListUpd.upd_length l n v). Qed.

Lemma set_nth_Forall {A} (P : A -> Prop) l n v : Forall P l -> P v -> Forall P (set_nth l n v).
Proof. exact (ListUpd.Forall_upd P l n v). Qed.

Lemma set_nth_app {A} (pre : list A) x suf v : set_nth (pre ++ x :: suf) (length pre) v = pre ++ v :: suf.
Proof. exact (ListUpd.upd_app pre x suf v). Qed.

Lemma iter_shift {A} (f : A -> A) n a : Nat.iter n f (f a) = f (Nat.iter n f a).
Proof. induction n as [|n IH]; simpl; [reflexivity|]. rewrite IH. reflexivity. Qed.

Lemma iter_add {A} (f : A -> A) n m x : Nat.iter (n + m) f x = Nat.iter m f (Nat.iter n f x).
Proof. induction m as [|m IH]; [rewrite Nat.add_0_r; reflexivity|]. rewrite Nat.add_succ_r. simpl. rewrite IH. reflexivity. Qed.

Lemma fold_left_const_iter {A B} (f : A -> A) (l : list B) a :
  fold_left (fun s _ => f s) l a = Nat.iter (length l) f a.
Proof.
  revert a. induction l as [|x l IH]; intros a; simpl; [reflexivity|].
  rewrite IH. apply iter_shift.
Qed.

Lemma fold_left_snoc_map {A B} (h : B -> A) l a :
  fold_left (fun acc x => acc ++ [h x]) l a = a ++ map h l.
Proof.
  revert a. induction l as [|x l IH]; intros a; cbn [fold_left map]; [rewrite app_nil_r; reflexivity|].
  rewrite IH, <- app_assoc. reflexivity.
Qed.

Lemma fold_left_rev {A B} (g : A -> B -> A) l a :
  fold_left g (rev l) a = fold_right (fun y x => g x y) a l.
Proof.
  symmetry. rewrite <- (rev_involutive l) at 1.
  apply (fold_left_rev_right (fun y x => g x y)).
Qed.

Lemma concat_map_seq_S {A} (f : nat -> list A) a n :
  concat (map f (seq a (S n))) = concat (map f (seq a n)) ++ f (a + n)%nat.
Proof. rewrite seq_S, map_app, concat_app. cbn [map concat]. rewrite app_nil_r. reflexivity. Qed.

Lemma py_index_app (pre : list Z) x suf : py_index (pre ++ x :: suf) (zlen pre) = Ok x.
Proof. exact (py_index_mid pre x suf _ eq_refl). Qed.

Lemma py_store_app {A} (pre : list A) x suf v : py_store (pre ++ x :: suf) (zlen pre) v = Ok (pre ++ v :: suf).
Proof.
  rewrite py_store_ok by (autorewrite with zlen; pose proof (zlen_nonneg pre); pose proof (zlen_nonneg suf); lia).
  unfold zlen. rewrite Nat2Z.id, set_nth_app. reflexivity.
Qed.

Lemma py_store_b_app (pre : list Z) x suf v : is_byte v = true ->
  py_store_b (pre ++ x :: suf) (zlen pre) v = Ok (pre ++ v :: suf).
Proof. intros Hv. unfold py_store_b. rewrite Hv. apply py_store_app. Qed.

Lemma zrange_shift a b : zrange (a + 1) b = map (fun k => k + 1) (zrange a (b - 1)).
Proof.
  unfold zrange. rewrite map_map. replace (Z.to_nat (b - (a + 1))) with (Z.to_nat (b - 1 - a)) by lia.
  apply map_ext. intros k. lia.
Qed.

(* the index range of an in-place loop once the element in focus has been dealt with *)
Lemma zrange_focus {A B} (pre : list A) (x' : A) (x : B) (mid : list B) :
  zrange (zlen pre) (zlen pre + zlen (x :: mid)) =
  zlen pre :: zrange (zlen (pre ++ [x'])) (zlen (pre ++ [x']) + zlen mid).
Proof.
  autorewrite with zlen. rewrite zrange_cons by (pose proof (zlen_nonneg mid); lia).
  do 2 f_equal; lia.
Qed.

Lemma zrange_focus_nil {A B} (pre : list A) : zrange (zlen pre) (zlen pre + zlen (A := B) []) = [].
Proof. apply zrange_empty. rewrite zlen_nil. lia. Qed.

Lemma py_slice_assign_mid {A} (pre p rest v : list A) a b : a = zlen pre -> b = a + zlen p ->
  py_slice_assign (pre ++ p ++ rest) (Some a) (Some b) v = pre ++ v ++ rest.
Proof.
  intros -> ->. pose proof (zlen_nonneg pre). pose proof (zlen_nonneg p). pose proof (zlen_nonneg rest).
  unfold py_slice_assign. rewrite !clamp_bound_nonneg, !Z.min_r by (rewrite ?zlen_app; lia).
  destruct (zlen pre + zlen p <? zlen pre) eqn:E; [lia|].
  unfold zlen at 1. rewrite Nat2Z.id, firstn_app_exact, (app_assoc pre p rest).
  replace (Z.to_nat _) with (length (pre ++ p)) by (rewrite app_length; unfold zlen; lia).
  rewrite skipn_app_exact. reflexivity.
Qed.

(* a sealed record is ciphertext ++ 16-byte tag: how open takes it apart, and what it finds in the output of seal *)
Lemma tag_slices {A} (c : list A) : 16 <= zlen c ->
  py_slice c (Some (-16)) None = skipn (length c - 16) c /\ py_slice c None (Some (-16)) = firstn (length c - 16) c.
Proof.
  intros H. rewrite (py_slice_neg_lo c 16), (py_slice_neg_hi c 16), py_slice_from, py_slice_to by lia.
  unfold zlen in *. split; f_equal; lia.
Qed.

Lemma tag_app {A} (ct t : list A) : length t = 16%nat ->
  (zlen (ct ++ t) <? 16) = false /\
  firstn (length (ct ++ t) - 16) (ct ++ t) = ct /\ skipn (length (ct ++ t) - 16) (ct ++ t) = t.
Proof.
  intros Lt. unfold zlen. rewrite app_length, Lt, Nat.add_sub.
  split; [apply Z.ltb_ge; lia|]. split; [apply firstn_app_exact|apply skipn_app_exact].
Qed.

Lemma py_range_step_up a b s : 0 < s ->
  py_range a b s = map (fun k => a + s * k) (zrange 0 ((b - a + s - 1) / s)).
Proof.
  intros Hs. unfold py_range. destruct (0 <? s) eqn:E; [|lia].
  unfold zrange. rewrite map_map. rewrite Z.sub_0_r. apply map_ext. intros k. lia.
Qed.

(* the value both generated divceil functions return *)
Lemma divceil_pos_val n d : 0 < d -> n / d + Z.b2z (z_true (n mod d)) = (n + d - 1) / d.
Proof. intros Hd. rewrite <- ceil_div by exact Hd. unfold z_true. destruct (n mod d =? 0); reflexivity. Qed.

Lemma land15 v : 0 <= Z.land v 15 < 16.
Proof. change 15 with (Z.ones 4). rewrite Z.land_ones by lia. apply Z.mod_pos_bound. reflexivity. Qed.

(* chunks n l is built by: nothing for [], otherwise the first n elements and then the chunks of the rest.  That is the
   induction principle; the fuel of Spec.C09_Poly1305.chunks_fuel is met in it, in chunks_fuel_enough and in the one step
   that chunks_cons_exact unfolds. *)
Lemma chunks_ind (n : nat) (P : list Z -> list (list Z) -> Prop) :
  (0 < n)%nat -> P [] [] -> (forall l cs, l <> [] -> P (skipn n l) cs -> P l (firstn n l :: cs)) ->
  forall l, P l (chunks n l).
Proof.
  intros Hn P0 PS l. unfold chunks. generalize (le_n (length l)). generalize (length l) at 2 3 as fuel.
  intros fuel. revert l. induction fuel as [|fuel IH]; intros l Hl.
  - destruct l; [exact P0|cbn [length] in Hl; lia].
  - destruct l as [|x l']; [exact P0|]. cbn [chunks_fuel]. apply PS; [discriminate|].
    apply IH. rewrite skipn_length. cbn [length] in *. lia.
Qed.

Lemma chunks_length (n : nat) (l : list Z) : (0 < n)%nat ->
  zlen (chunks n l) = (zlen l + Z.of_nat n - 1) / Z.of_nat n.
Proof.
  intros Hn.
  enough (B : Z.of_nat n * zlen (chunks n l) - Z.of_nat n < zlen l <= Z.of_nat n * zlen (chunks n l))
    by (apply Z.div_unique with (r := zlen l + Z.of_nat n - 1 - Z.of_nat n * zlen (chunks n l)); lia).
  revert l. apply (chunks_ind n (fun l cs => Z.of_nat n * zlen cs - Z.of_nat n < zlen l <= Z.of_nat n * zlen cs) Hn).
  - unfold zlen. cbn [length]. lia.
  - intros l cs Hl IH. rewrite zlen_cons. pose proof (zlen_nonneg cs).
    assert (1 <= zlen l) by (destruct l; [contradiction|rewrite zlen_cons; pose proof (zlen_nonneg l); lia]).
    assert (E : zlen (skipn n l) = Z.max 0 (zlen l - Z.of_nat n)) by (unfold zlen; rewrite skipn_length; lia).
    rewrite E in IH. destruct (Z_lt_le_dec (zlen l) (Z.of_nat n)) as [Hs|Hs].
    + rewrite Z.max_l in IH by lia. assert (zlen cs = 0) as -> by nia. lia.
    + rewrite Z.max_r in IH by lia. lia.
Qed.

Lemma chunks_nth (n : nat) (l : list Z) : (0 < n)%nat ->
  map (fun i => firstn n (skipn (Z.to_nat (i * Z.of_nat n)) l)) (zrange 0 (zlen (chunks n l))) = chunks n l.
Proof.
  intros Hn. revert l.
  apply (chunks_ind n (fun l cs => map (fun i => firstn n (skipn (Z.to_nat (i * Z.of_nat n)) l)) (zrange 0 (zlen cs)) = cs) Hn);
    [reflexivity|intros l cs _ IH].
  rewrite zlen_cons. pose proof (zlen_nonneg cs). rewrite zrange_cons by lia. cbn [map]. f_equal.
  rewrite zrange_shift, map_map, Z.add_simpl_l. etransitivity; [|exact IH].
  apply map_ext_in. intros k Hk. apply in_zrange in Hk. rewrite skipn_add. do 2 f_equal. lia.
Qed.

Lemma chunks_index (n : nat) (l : list Z) : (0 < n)%nat ->
  map (fun i => firstn n (skipn (Z.to_nat (i * Z.of_nat n)) l))
      (zrange 0 ((zlen l + Z.of_nat n - 1) / Z.of_nat n)) = chunks n l.
Proof. intros Hn. rewrite <- chunks_length by exact Hn. apply chunks_nth, Hn. Qed.

(* the same by py_slice, however the bounds are written; q is given by what makes it the number of chunks, so that a
   caller may have it as the floor or as the ceiling of |l| / n *)
Lemma chunks_slices (n : nat) (l : list Z) (a b : Z -> Z) q : (0 < n)%nat ->
  Z.of_nat n * q - Z.of_nat n < zlen l <= Z.of_nat n * q ->
  (forall i, 0 <= i < q -> a i = i * Z.of_nat n /\ b i = a i + Z.of_nat n) ->
  map (fun i => py_slice l (Some (a i)) (Some (b i))) (zrange 0 q) = chunks n l.
Proof.
  intros Hn Hq Hab. rewrite <- (chunks_index n l Hn).
  replace ((zlen l + Z.of_nat n - 1) / Z.of_nat n) with q
    by (apply Z.div_unique with (r := zlen l + Z.of_nat n - 1 - Z.of_nat n * q); lia).
  apply map_ext_in. intros i Hi. apply in_zrange in Hi. destruct (Hab i Hi) as [-> ->].
  rewrite py_slice_nonneg by lia. do 2 f_equal. lia.
Qed.

Lemma in_chunks (n : nat) (l c : list Z) : (0 < n)%nat -> In c (chunks n l) ->
  exists i, c = firstn n (skipn (Z.to_nat (i * Z.of_nat n)) l).
Proof.
  intros Hn Hc. rewrite <- (chunks_nth n l Hn) in Hc. apply in_map_iff in Hc.
  destruct Hc as [i [E _]]. exists i. auto.
Qed.

Lemma chunks_all_bytes (n : nat) (l c : list Z) : (0 < n)%nat -> all_bytes l = true -> In c (chunks n l) ->
  all_bytes c = true.
Proof.
  intros Hn Hl Hc. apply in_chunks in Hc; [|exact Hn]. destruct Hc as [i ->].
  apply all_bytes_firstn, all_bytes_skipn, Hl.
Qed.

Lemma chunks_concat (n : nat) (l : list Z) : (0 < n)%nat -> concat (chunks n l) = l.
Proof.
  intros Hn. revert l. apply (chunks_ind n (fun l cs => concat cs = l) Hn); [reflexivity|].
  intros l cs _ IH. cbn [concat]. rewrite IH. apply firstn_skipn.
Qed.

Lemma chunks_fuel_enough (n : nat) (l : list Z) : (0 < n)%nat -> forall fuel, (length l <= fuel)%nat ->
  chunks_fuel fuel n l = chunks n l.
Proof.
  intros Hn. revert l. apply (chunks_ind n (fun l cs => forall fuel, (length l <= fuel)%nat -> chunks_fuel fuel n l = cs) Hn).
  - intros [|fuel] _; reflexivity.
  - intros l cs Hl IH [|fuel] Hf; (destruct l as [|x l]; [contradiction|]); [cbn [length] in Hf; lia|].
    cbn [chunks_fuel]. f_equal. apply IH. rewrite skipn_length. cbn [length] in *. lia.
Qed.

Lemma chunks_cons_exact (n : nat) (c l : list Z) : (0 < n)%nat -> length c = n -> chunks n (c ++ l) = c :: chunks n l.
Proof.
  intros Hn Hc. unfold chunks at 1. destruct c as [|z c']; [cbn [length] in Hc; lia|].
  cbn [app length chunks_fuel]. change (z :: c' ++ l) with ((z :: c') ++ l).
  rewrite <- Hc, firstn_app_exact, skipn_app_exact. f_equal.
  apply chunks_fuel_enough; [lia|]. rewrite app_length. cbn [length] in *. lia.
Qed.

(* Spec has the same function under three names (xor_bytes in C09_ChaCha, xor_list in C09_KDF, xorb in C09_Modes,
   convertible), and it is the xor of Base/Bytes.v; the generated code writes it with a pattern-matching lambda.
   The facts are those of Base/Bytes.v, stated for xor_bytes: the proofs of this property rewrite with them in goals
   that hold whole cipher blocks, where a second name for the function would have to be unfolded by the kernel. *)
Lemma xor_bytes_is_xor : xor_bytes = Bytes.xor.
Proof. reflexivity. Qed.

Lemma xorb_eq : xorb = xor_bytes.
Proof. reflexivity. Qed.

Lemma xor_code a b : map (fun '(x, y) => Z.lxor x y) (combine a b) = xor_bytes a b.
Proof. apply map_ext. intros [x y]. reflexivity. Qed.

Lemma xor_bytes_comm a b : xor_bytes a b = xor_bytes b a.
Proof. exact (Bytes.xor_comm a b). Qed.

Lemma xor_bytes_length a b : (length a <= length b)%nat -> length (xor_bytes a b) = length a.
Proof. exact (Bytes.xor_length_le a b). Qed.

Lemma xor_bytes_app a1 a2 b1 b2 : length a1 = length b1 ->
  xor_bytes (a1 ++ a2) (b1 ++ b2) = xor_bytes a1 b1 ++ xor_bytes a2 b2.
Proof. exact (Bytes.xor_app a1 a2 b1 b2). Qed.

Lemma xor_bytes_app_l a m x : (length a <= length m)%nat -> xor_bytes a (m ++ x) = xor_bytes a m.
Proof. exact (Bytes.xor_app_l a m x). Qed.

Lemma xor_bytes_split a b m : (length a <= length m)%nat ->
  xor_bytes (a ++ b) m = xor_bytes a m ++ xor_bytes b (skipn (length a) m).
Proof. exact (Bytes.xor_split a b m). Qed.

Lemma xor_bytes_involutive a b : (length a <= length b)%nat -> xor_bytes (xor_bytes a b) b = a.
Proof. exact (Bytes.xor_involutive a b). Qed.

Lemma xor_zeros n l : xor_bytes (repeat 0 n) l = firstn n l.
Proof. exact (Bytes.xor_zeros n l). Qed.

Lemma xor_bytes_all_bytes a b : all_bytes a = true -> all_bytes b = true -> all_bytes (xor_bytes a b) = true.
Proof. exact (Bytes.xor_all_bytes a b). Qed.

Lemma enc_chunks (n : nat) (ks : Z -> list Z) (pt : list Z) : (0 < n)%nat -> (forall j, length (ks j) = n) -> forall k,
  concat (map (fun '(j, blk) => xor_bytes blk (ks j)) (combine (zrange k (k + zlen (chunks n pt))) (chunks n pt)))
  = xor_bytes pt (flat_map ks (zrange k (k + zlen (chunks n pt)))).
Proof.
  intros Hn ks_len. revert pt.
  apply (chunks_ind n (fun pt cs => forall k,
    concat (map (fun '(j, blk) => xor_bytes blk (ks j)) (combine (zrange k (k + zlen cs)) cs))
    = xor_bytes pt (flat_map ks (zrange k (k + zlen cs)))) Hn); [intros k|intros l cs _ IH k].
  - rewrite zlen_nil, Z.add_0_r, zrange_empty by lia. reflexivity.
  - rewrite zlen_cons. pose proof (zlen_nonneg cs). rewrite zrange_cons by lia. cbn [combine map concat flat_map].
    replace (k + (1 + zlen cs)) with (k + 1 + zlen cs) by lia. rewrite IH.
    (* a last, short chunk meets a whole block of key stream, and nothing is left for the blocks after it *)
    destruct (le_lt_dec n (length l)) as [L|L].
    + rewrite <- (firstn_skipn n l) at 3. rewrite xor_bytes_app by (rewrite firstn_length, ks_len; lia). reflexivity.
    + rewrite skipn_all2, firstn_all2, app_nil_r, xor_bytes_app_l by (rewrite ?ks_len; lia). reflexivity.
Qed.

(* for x in range(n): p[x] ^= b[x].  The induction runs over the loop entered in the middle: pre and preb are the parts
   of p and b already passed, a' and b' those still to come. *)
Lemma xor_loop (a b : list Z) n : zlen a = n -> length a = length b -> all_bytes a = true -> all_bytes b = true ->
  foldM (fun p x => t5 <- py_index p x ;; t6 <- py_index b x ;; p <- py_store_b p x (Z.lxor t5 t6) ;; Ok p)
        (zrange 0 n) a
  = Ok (xor_bytes a b).
Proof.
  intros <-.
  enough (G : forall a' b' pre preb, length a' = length b' -> length pre = length preb ->
    all_bytes a' = true -> all_bytes b' = true ->
    foldM (fun p x => t5 <- py_index p x ;; t6 <- py_index (preb ++ b') x ;; p <- py_store_b p x (Z.lxor t5 t6) ;; Ok p)
          (zrange (zlen pre) (zlen pre + zlen a')) (pre ++ a')
    = Ok (pre ++ xor_bytes a' b'))
    by (intros Hl; exact (G a b [] [] Hl eq_refl)).
  clear a b. induction a' as [|x a' IH]; intros b' pre preb Hl Hp Ba Bb.
  - rewrite zrange_focus_nil. reflexivity.
  - destruct b' as [|y b']; [discriminate|]. injection Hl as Hl.
    rewrite all_bytes_cons in Ba, Bb. apply andb_prop in Ba, Bb. destruct Ba as [Bx Ba], Bb as [By Bb].
    rewrite (zrange_focus pre (Z.lxor x y)). cbn [foldM]. rewrite py_index_app, bind_of_Ok.
    replace (zlen pre) with (zlen preb) at 1 by (unfold zlen; lia). rewrite py_index_app, bind_of_Ok.
    rewrite py_store_b_app, !bind_of_Ok by (apply lxor_is_byte; assumption).
    rewrite (snoc_app pre _ a'), (snoc_app preb y b'), (IH b' _ (preb ++ [y]) Hl), <- snoc_app
      by (assumption || (rewrite !app_length, Hp; reflexivity)).
    reflexivity.
Qed.

Lemma le_bytes_length n v : length (le_bytes n v) = n.
Proof. revert v. induction n as [|n IH]; intros v; cbn [le_bytes length]; [reflexivity|]. rewrite IH. reflexivity. Qed.

Lemma le_bytes_all_bytes n v : all_bytes (le_bytes n v) = true.
Proof.
  revert v. induction n as [|n IH]; intros v; cbn [le_bytes]; [reflexivity|].
  rewrite all_bytes_cons, is_byte_mod, IH. reflexivity.
Qed.

Lemma le_bytes_mod n v : le_bytes n (v mod 256 ^ Z.of_nat n) = le_bytes n v.
Proof.
  revert v. induction n as [|n IH]; intros v; [reflexivity|].
  cbn [le_bytes]. rewrite Nat2Z.inj_succ, Z.pow_succ_r by lia.
  assert (Hp : 0 < 256 ^ Z.of_nat n) by (apply Z.pow_pos_nonneg; lia).
  rewrite Z.rem_mul_r by lia.
  f_equal.
  - rewrite (Z.mul_comm 256), Z.mod_add by lia. apply Z.mod_mod. lia.
  - rewrite (Z.mul_comm 256), Z.div_add by lia.
    rewrite Z.div_small by (apply Z.mod_pos_bound; lia). cbn [Z.add]. apply IH.
Qed.

Lemma le_num_bound l : all_bytes l = true -> 0 <= le_num l < 256 ^ zlen l.
Proof.
  induction l as [|x l IH]; intros H; [cbn; lia|].
  rewrite all_bytes_cons in H. apply andb_prop in H. destruct H as [Hx Hl]. apply is_byte_iff in Hx.
  specialize (IH Hl). cbn [le_num]. rewrite zlen_cons, Z.pow_add_r by (pose proof (zlen_nonneg l); lia). lia.
Qed.

Lemma be_num_bound (l : list Z) : all_bytes l = true -> 0 <= be_num l < 256 ^ zlen l.
Proof.
  intros H. unfold be_num.
  replace (zlen l) with (zlen (rev l)) by (unfold zlen; rewrite rev_length; reflexivity).
  apply le_num_bound. apply all_bytes_In. intros x Hx. apply (proj1 (all_bytes_In l) H). apply in_rev. exact Hx.
Qed.
