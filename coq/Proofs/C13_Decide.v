(* C13 -- lemmas about the functions of Model/C13_Resume.v, all inputs, no history: the SessionCache, the
   server's decisions, what client_offer sends, and conn_delta described as a relation with one case per
   way a connection attempt can end *)
From Coq Require Import ZArith List Bool Lia.
From TV Require Import Base.Prelude Model.C13_Resume.
Import ListNotations.
Open Scope Z_scope.

(* the ClientHello is consistent with session s (what _serverGetClientHello demands) *)
Definition hello_consistent {blob} (s : sess) (h : hello blob) : Prop :=
  zmem (s_suite s) (h_suites h) = true /\
  (h_srp h <> 0 -> s_srp s = h_srp h) /\
  (h_sni h <> 0 -> s_sni s = h_sni h) /\
  (s_etm s = true -> h_etm h = true) /\
  s_ems s = h_ems h.

Fixpoint times_sorted (st : list centry) : Prop :=
  match st with
  | [] => True
  | e :: r => (forall e', In e' r -> ce_time e <= ce_time e') /\ times_sorted r
  end.

Lemma nz_true x : nz x = true <-> x <> 0.
Proof. unfold nz. rewrite negb_true_iff, Z.eqb_neq. tauto. Qed.
Lemma nz_false x : nz x = false <-> x = 0.
Proof. unfold nz. rewrite negb_false_iff, Z.eqb_eq. tauto. Qed.

(* the test on a name (server name, SRP user): the hello gives x, the session has y *)
Lemma name_ok x y : nz x && (negb (nz y) || negb (x =? y)) = false <-> (x <> 0 -> y = x).
Proof.
  unfold nz. destruct (Z.eqb_spec x 0) as [->|X]; cbn [negb andb]; [tauto|].
  destruct (Z.eqb_spec y 0) as [Y|Y]; destruct (Z.eqb_spec x y) as [E|N]; cbn [negb orb]; split; intros H;
    try reflexivity; try discriminate H; lia.
Qed.

Lemma purge_incl maxage now st e : In e (purge maxage now st) -> In e st.
Proof.
  induction st as [|e0 r IH]; cbn [purge]; [tauto|].
  destruct (maxage <? now - ce_time e0); intros H; [right; apply IH; exact H|exact H].
Qed.

Lemma purge_young maxage now st e :
  times_sorted st -> In e (purge maxage now st) -> now - ce_time e <= maxage.
Proof.
  induction st as [|e0 r IH]; cbn [purge times_sorted]; [intros _ []|].
  intros [Hle Hs]. destruct (maxage <? now - ce_time e0) eqn:L.
  - apply IH. exact Hs.
  - apply Z.ltb_ge in L. intros [<-|Hin]; [exact L|]. specialize (Hle e Hin). lia.
Qed.

Lemma purge_sorted maxage now st : times_sorted st -> times_sorted (purge maxage now st).
Proof.
  induction st as [|e0 r IH]; cbn [purge times_sorted]; [tauto|].
  intros [Hle Hs]. destruct (maxage <? now - ce_time e0); [apply IH; exact Hs|].
  cbn [times_sorted]. split; assumption.
Qed.

Lemma cache_find_some sid st e : cache_find sid st = Some e -> In e st /\ s_sid (ce_sess e) = sid.
Proof.
  induction st as [|e0 r IH]; cbn [cache_find]; [discriminate|].
  destruct (s_sid (ce_sess e0) =? sid) eqn:E.
  - intros H. injection H as <-. apply Z.eqb_eq in E. split; [left; reflexivity|exact E].
  - intros H. destruct (IH H) as [A B]. split; [right; exact A|exact B].
Qed.

Lemma cache_get_some cfg now sid st st' s :
  times_sorted st -> cache_get cfg now sid st = (st', Some s) ->
  sid <> 0 /\ s_sid s = sid /\
  exists e, In e st /\ ce_sess e = s /\ ce_res e = true /\ now - ce_time e <= sv_maxage cfg.
Proof.
  unfold cache_get. intros Hs H. injection H as _ H.
  destruct (cache_find sid (purge (sv_maxage cfg) now st)) as [e|] eqn:F; [|discriminate].
  destruct (ce_res e && nz (s_sid (ce_sess e))) eqn:V; [|discriminate].
  injection H as <-. apply cache_find_some in F. destruct F as [A B].
  apply andb_true_iff in V. destruct V as [V1 V2]. apply nz_true in V2.
  split; [congruence|]. split; [exact B|]. exists e.
  split; [eapply purge_incl; exact A|]. split; [reflexivity|]. split; [exact V1|].
  eapply purge_young; eassumption.
Qed.

Lemma cache_get_store cfg now sid st : fst (cache_get cfg now sid st) = purge (sv_maxage cfg) now st.
Proof. reflexivity. Qed.

Lemma cache_get_invalidated cfg now sid st :
  (forall e, In e st -> s_sid (ce_sess e) = sid -> ce_res e = false) ->
  snd (cache_get cfg now sid st) = None.
Proof.
  intros H. unfold cache_get. cbn [snd].
  destruct (cache_find sid (purge (sv_maxage cfg) now st)) as [e|] eqn:F; [|reflexivity].
  apply cache_find_some in F. destruct F as [A B].
  rewrite (H e (purge_incl _ _ _ _ A) B). reflexivity.
Qed.

Lemma in_tl {A} (l : list A) x : In x (tl l) -> In x l.
Proof. destruct l; cbn; [tauto|intros H; right; exact H]. Qed.

Lemma times_sorted_app st e :
  times_sorted st -> (forall e', In e' st -> ce_time e' <= ce_time e) -> times_sorted (st ++ [e]).
Proof.
  induction st as [|a r IH]; cbn [app times_sorted]; intros Hs Hle.
  - split; [intros e' []|exact I].
  - destruct Hs as [Ha Hr]. split.
    + intros e' Hin. apply in_app_or in Hin. destruct Hin as [Hin|[<-|[]]]; [apply Ha; exact Hin|].
      apply Hle. left. reflexivity.
    + apply IH; [exact Hr|]. intros e' Hin. apply Hle. right. exact Hin.
Qed.

Lemma times_sorted_tl st : times_sorted st -> times_sorted (tl st).
Proof. destruct st; cbn [tl times_sorted]; tauto. Qed.

Lemma cache_put_in cfg now s st e :
  In e (cache_put cfg now s st) -> In e st \/ e = {| ce_sess := s; ce_res := true; ce_time := now |}.
Proof.
  unfold cache_put. set (n := {| ce_sess := s; ce_res := true; ce_time := now |}).
  intros H. assert (In e (st ++ [n])) as H'.
  { destruct (sv_cap cfg <=? zlen (st ++ [n])); [apply in_tl; exact H|exact H]. }
  apply in_app_or in H'. destruct H' as [H'|[<-|[]]]; [left; exact H'|right; reflexivity].
Qed.

Lemma cache_put_sorted cfg now s st :
  times_sorted st -> (forall e, In e st -> ce_time e <= now) -> times_sorted (cache_put cfg now s st).
Proof.
  intros Hs Hle. unfold cache_put.
  assert (times_sorted (st ++ [{| ce_sess := s; ce_res := true; ce_time := now |}])) as H.
  { apply times_sorted_app; [exact Hs|]. intros e' Hin. cbn [ce_time]. apply Hle. exact Hin. }
  destruct (sv_cap cfg <=? _); [apply times_sorted_tl; exact H|exact H].
Qed.

Lemma in_cache_invalidate sid st e' :
  In e' (cache_invalidate sid st) ->
  exists e, In e st /\ ce_sess e' = ce_sess e /\ ce_time e' = ce_time e /\
            (e' = e /\ s_sid (ce_sess e) <> sid \/ s_sid (ce_sess e) = sid /\ ce_res e' = false).
Proof.
  induction st as [|a r IH]; cbn [cache_invalidate In]; [intros []|].
  intros [H|H].
  - exists a. split; [left; reflexivity|]. destruct (s_sid (ce_sess a) =? sid) eqn:E; subst e'; cbn.
    + apply Z.eqb_eq in E. auto.
    + apply Z.eqb_neq in E. auto.
  - destruct (IH H) as [e [A B]]. exists e. split; [right; exact A|exact B].
Qed.

Definition dead_in (st : list centry) (sid : Z) : Prop :=
  forall e, In e st -> s_sid (ce_sess e) = sid -> ce_res e = false.

Lemma dead_in_invalidate sid0 st sid : sid0 = sid \/ dead_in st sid -> dead_in (cache_invalidate sid0 st) sid.
Proof.
  intros D e' H Hs. destruct (in_cache_invalidate _ _ _ H) as [e [A [_ [_ [[-> N]|[_ K]]]]]]; [|exact K].
  destruct D as [->|D]; [contradiction|exact (D e A Hs)].
Qed.

Lemma cache_invalidate_sorted sid st : times_sorted st -> times_sorted (cache_invalidate sid st).
Proof.
  induction st as [|a r IH]; cbn [cache_invalidate times_sorted]; [tauto|].
  intros [Ha Hr]. split; [|apply IH; exact Hr].
  intros e' Hin. apply in_cache_invalidate in Hin. destruct Hin as [e [A [_ [T _]]]].
  rewrite T. destruct (s_sid (ce_sess a) =? sid); cbn [ce_time]; apply Ha; exact A.
Qed.

Section Decide.
Variable blob : Type.
Variable open : Z -> blob -> option payload.

Lemma try_decrypt_some keys b k p :
  try_decrypt blob open keys b = Some (k, p) -> In k keys /\ open k b = Some p.
Proof.
  induction keys as [|k0 ks IH]; cbn [try_decrypt]; [discriminate|].
  destruct (open k0 b) eqn:E.
  - intros H. injection H as <- <-. split; [left; reflexivity|exact E].
  - intros H. destruct (IH H) as [A B]. split; [right; exact A|exact B].
Qed.

Lemma try_decrypt_none keys b :
  (forall k, In k keys -> open k b = None) -> try_decrypt blob open keys b = None.
Proof.
  induction keys as [|k0 ks IH]; cbn [try_decrypt]; intros H; [reflexivity|].
  rewrite (H k0 (or_introl eq_refl)). apply IH. intros k Hk. apply H. right. exact Hk.
Qed.

Lemma ticket_to_session_some cfg now sid b k s :
  ticket_to_session blob open cfg now sid b = Some (k, s) ->
  exists p, In k (sv_keys cfg) /\ open k b = Some p /\ now <= p_created p + sv_life cfg /\
            s = sess_of_payload p sid.
Proof.
  unfold ticket_to_session. destruct (try_decrypt blob open (sv_keys cfg) b) as [[k0 p]|] eqn:E; [|discriminate].
  destruct (p_created p + sv_life cfg <? now) eqn:L; [discriminate|].
  intros H. injection H as <- <-. apply try_decrypt_some in E. destruct E as [A B].
  exists p. repeat split; try assumption. apply Z.ltb_ge in L. exact L.
Qed.

Lemma consistency_resume s o (h : hello blob) s' o' :
  consistency blob s o h = SResume s' o' -> s' = s /\ o' = o /\ hello_consistent s h.
Proof.
  unfold consistency, hello_consistent.
  destruct (zmem (s_suite s) (h_suites h)); cbn [negb]; [|discriminate].
  destruct (_ && _ && _); [discriminate|].
  destruct (nz (h_srp h) && _) eqn:E2; [discriminate|]. pose proof (proj1 (name_ok _ _) E2) as K2.
  destruct (nz (h_sni h) && _) eqn:E3; [discriminate|]. pose proof (proj1 (name_ok _ _) E3) as K3.
  destruct (s_etm s), (s_ems s), (h_etm h), (h_ems h); cbn [negb andb]; try discriminate;
    intros H; injection H as <- <-; auto 10.
Qed.

Lemma consistency_complete s o (h : hello blob) :
  hello_consistent s h -> consistency blob s o h = SResume s o.
Proof.
  intros [C1 [C2 [C3 [C4 C5]]]]. unfold consistency. rewrite C1, C5. cbn [negb].
  rewrite (proj2 (name_ok _ _) C2), (proj2 (name_ok _ _) C3).
  replace (nz (h_srp h) && negb (nz (s_srp s))) with false.
  2:{ unfold nz. destruct (Z.eqb_spec (h_srp h) 0) as [E|E]; [reflexivity|]. rewrite (C2 E).
      destruct (Z.eqb_spec (h_srp h) 0); [contradiction|reflexivity]. }
  destruct (s_etm s); [rewrite (C4 eq_refl)|]; destruct (h_ems h); reflexivity.
Qed.

Definition accepted_by_cache (cfg : scfg) (st : list centry) (h : hello blob) (now : Z) (s : sess) : Prop :=
  sv_usecache cfg = true /\ h_ticket h = None /\ h_sid h <> 0 /\ s_sid s = h_sid h /\
  exists e, In e st /\ ce_sess e = s /\ ce_res e = true /\ now - ce_time e <= sv_maxage cfg.

Definition accepted_by_ticket (cfg : scfg) (h : hello blob) (now : Z) (k : Z) (s : sess) : Prop :=
  exists b p, h_ticket h = Some b /\ In k (sv_keys cfg) /\ open k b = Some p /\
              now <= p_created p + sv_life cfg /\ s = sess_of_payload p (h_sid h).

(* the cached object s is used *)
Definition accepted_by_both (cfg : scfg) (st : list centry) (h : hello blob) (now : Z) (k : Z) (s : sess) : Prop :=
  (exists b p, h_ticket h = Some b /\ In k (sv_keys cfg) /\ open k b = Some p /\
               now <= p_created p + sv_life cfg /\ p_ms p = s_ms s /\ p_suite p = s_suite s) /\
  sv_usecache cfg = true /\ h_sid h <> 0 /\ s_sid s = h_sid h /\
  exists e, In e st /\ ce_sess e = s /\ ce_res e = true /\ now - ce_time e <= sv_maxage cfg.

Definition accepted (cfg : scfg) (st : list centry) (h : hello blob) (now : Z) (o : src) (s : sess) : Prop :=
  match o with
  | ByCache => accepted_by_cache cfg st h now s
  | ByTicket k => accepted_by_ticket cfg h now k s
  | ByBoth k => accepted_by_both cfg st h now k s
  | ByPsk _ => False
  end.

Lemma accepted_cached cfg st h now o s :
  accepted cfg st h now o s -> o = ByCache \/ (exists k, o = ByBoth k) ->
  exists e, In e st /\ ce_sess e = s /\ ce_res e = true.
Proof.
  intros H [->|[k ->]].
  - (* accepted_by_cache *) destruct H as (Use & NoTicket & Sid & Same & e & A & B & C & Age). exists e. auto.
  - (* accepted_by_both *) destruct H as (Ticket & Use & Sid & Same & e & A & B & C & Age). exists e. auto.
Qed.

Lemma server_try_resume_sound cfg st acc (h : hello blob) now st1 s o :
  times_sorted st ->
  server_try_resume blob open cfg st acc h now = (st1, SResume s o) ->
  zmem (s_suite s) acc = true /\ hello_consistent s h /\ accepted cfg st h now o s.
Proof.
  intros Hsorted. unfold server_try_resume.
  destruct (_ || _); [|discriminate].
  (* first how the candidate (s0, o0) was found, then the checks every candidate passes *)
  match goal with |- (let '(_, _) := ?X in _) = _ -> _ => destruct X as [st0 [[s0 o0]|]] eqn:Found end;
    [|discriminate].
  destruct (zmem (s_suite s0) acc) eqn:A; cbn [negb]; [|discriminate].
  intros H. injection H as _ H. apply consistency_resume in H. destruct H as [-> [-> Hc]].
  split; [exact A|]. split; [exact Hc|]. clear A Hc. revert Found.
  destruct (h_ticket h) as [b|] eqn:HT; cbn [negb andb].
  - destruct (ticket_to_session blob open cfg now (h_sid h) b) as [[k s1]|] eqn:T; [|discriminate].
    apply ticket_to_session_some in T. destruct T as [p [K [O [Lf ->]]]].
    assert (accepted cfg st h now (ByTicket k) (sess_of_payload p (h_sid h))) as Tk
      by (exists b, p; auto).
    destruct (sv_usecache cfg && nz (h_sid h)) eqn:U; [|intros E; injection E as _ <- <-; exact Tk].
    destruct (cache_get cfg now (h_sid h) st) as [st2 [c|]] eqn:CG; [|intros E; injection E as _ <- <-; exact Tk].
    destruct ((s_ms c =? _) && (s_suite c =? _)) eqn:Same; intros E; injection E as _ <- <-; [|exact Tk].
    apply andb_true_iff in U. destruct U as [U1 _].
    apply andb_true_iff in Same. destruct Same as [S1 S2]. apply Z.eqb_eq in S1, S2.
    split; [exists b, p; auto 7|]. split; [exact U1|exact (cache_get_some _ _ _ _ _ _ Hsorted CG)].
  - destruct (sv_usecache cfg && nz (h_sid h)) eqn:U; [|discriminate].
    destruct (cache_get cfg now (h_sid h) st) as [st2 [s1|]] eqn:CG; intros E; [|discriminate].
    injection E as _ <- <-. apply andb_true_iff in U. destruct U as [U1 _].
    split; [exact U1|]. split; [exact HT|exact (cache_get_some _ _ _ _ _ _ Hsorted CG)].
Qed.

Lemma server_try_resume_unopenable cfg st acc (h : hello blob) now b :
  h_ticket h = Some b ->
  (forall k, In k (sv_keys cfg) -> open k b = None) ->
  server_try_resume blob open cfg st acc h now = (st, SFull).
Proof.
  intros HT Hno. unfold server_try_resume. rewrite HT.
  rewrite orb_true_r. unfold ticket_to_session. rewrite (try_decrypt_none _ _ Hno).
  cbn [negb andb]. reflexivity.
Qed.

(* only a lookup (cache_get: by ID, or beside a ticket whose hello names a session, /repo 4da1727) touches
   the store, and it only purges *)
Lemma try_resume_store cfg st acc (h : hello blob) now :
  fst (server_try_resume blob open cfg st acc h now) = st \/
  fst (server_try_resume blob open cfg st acc h now) = purge (sv_maxage cfg) now st.
Proof.
  unfold server_try_resume. destruct (_ || _); [|auto].
  (* the search for a candidate returns st or the store of cache_get; the checks on the candidate keep it *)
  match goal with |- context [let '(_, _) := ?X in _] =>
    assert (fst X = st \/ fst X = purge (sv_maxage cfg) now st) as Search; [|destruct X as [st' [[s o]|]]]
  end.
  - destruct (match h_ticket h with Some b => _ | None => None end) as [[k s]|];
      [destruct (sv_usecache cfg && nz (h_sid h))|destruct (_ && nz (h_sid h))]; auto.
  - destruct (negb _); exact Search.
  - exact Search.
Qed.

Lemma try_resume_store_in cfg st acc (h : hello blob) now st1 d e :
  server_try_resume blob open cfg st acc h now = (st1, d) -> In e st1 -> In e st.
Proof.
  intros E. destruct (try_resume_store cfg st acc h now) as [H|H]; rewrite E in H; cbn [fst] in H; subst st1;
    [exact (fun x => x)|apply purge_incl].
Qed.

Lemma try_resume_store_sorted cfg st acc (h : hello blob) now st1 d :
  server_try_resume blob open cfg st acc h now = (st1, d) -> times_sorted st -> times_sorted st1.
Proof.
  intros E. destruct (try_resume_store cfg st acc h now) as [H|H]; rewrite E in H; cbn [fst] in H; subst st1;
    [exact (fun x => x)|apply purge_sorted].
Qed.

Lemma server_psk_sound cfg cp (h : hello blob) now k p :
  server_psk blob open cfg cp h now = S13Psk k p ->
  exists b bk, h_psk h = Some (b, bk) /\ In k (sv_keys cfg) /\ open k b = Some p /\
               p_ver p = 4 /\ now <= p_created p + sv_life cfg /\ p_hash p = o_fhash cp /\ bk = p_ms p.
Proof.
  unfold server_psk. destruct (h_psk h) as [[b bk]|]; [|discriminate].
  destruct (nonempty (sv_keys cfg)); cbn [negb]; [|discriminate].
  destruct (try_decrypt blob open (sv_keys cfg) b) as [[k0 p0]|] eqn:T; [|discriminate].
  destruct (p_ver p0 =? 4) eqn:V; cbn [negb]; [|discriminate].
  destruct (p_created p0 + sv_life cfg <? now) eqn:L; [discriminate|].
  destruct (p_hash p0 =? o_fhash cp) eqn:Hh; cbn [negb]; [|discriminate].
  destruct (bk =? p_ms p0) eqn:B; cbn [negb]; [|discriminate].
  intros H. injection H as <- <-. apply try_decrypt_some in T. destruct T as [A O].
  exists b, bk. apply Z.eqb_eq in V, Hh, B. apply Z.ltb_ge in L. repeat split; assumption.
Qed.

Lemma server_psk_unopenable cfg cp (h : hello blob) now b bk :
  h_psk h = Some (b, bk) ->
  (forall k, In k (sv_keys cfg) -> open k b = None) ->
  server_psk blob open cfg cp h now = S13Full.
Proof.
  intros HP Hno. unfold server_psk. rewrite HP.
  destruct (nonempty (sv_keys cfg)); cbn [negb]; [|reflexivity].
  rewrite (try_decrypt_none _ _ Hno). reflexivity.
Qed.

End Decide.

Arguments server_try_resume_sound {blob open cfg st acc h now st1 s o}.
Arguments accepted_cached {blob open cfg st h now o s}.
Arguments server_psk_sound {blob open cfg cp h now k p}.
Arguments try_resume_store_in {blob open cfg st acc h now st1 d e}.
Arguments try_resume_store_sorted {blob open cfg st acc h now st1 d}.

(* the client object an attempt offers (Props/C13.v says C13_Thms.offered, the same as a definition) *)
Notation offered_of w cp := (match cp_offer cp with Some i => zget (w_clients w) i | None => None end).

Section Conn.
Variable blob : Type.
Variable seal : Z -> Z -> payload -> blob.
Variable open : Z -> blob -> option payload.

(* c is c0 after client_offer dropped expired tickets *)
Record pruned (c c0 : cobj blob) : Prop := {
  pr_sess : c_sess c = c_sess c0;
  pr_t10 : incl (c_t10 c) (c_t10 c0);
  pr_t13 : incl (c_t13 c) (c_t13 c0)
}.

Lemma pruned_refl c : pruned c c.
Proof. constructor; try reflexivity; apply incl_refl. Qed.

Record offer_sound (c0 : option (cobj blob)) (fresh : Z) (h : hello blob) (used : option (cobj blob)) : Prop := {
  os_sid : h_sid h = 0 \/ h_sid h = fresh \/ exists c, used = Some c /\ h_sid h = s_sid (c_sess c);
  os_ticket : forall b, h_ticket h = Some b -> exists c t, used = Some c /\ In t (c_t10 c) /\ tk_blob t = b;
  os_psk : forall b bk, h_psk h = Some (b, bk) -> exists c t, used = Some c /\ In t (c_t13 c) /\ tk_blob t = b;
  os_used : forall c, used = Some c -> exists c00, c0 = Some c00 /\ c_valid blob c00 = true /\ pruned c c00
}.

Lemma client_offer_cases cp c0 now fresh :
  match client_offer blob cp c0 now fresh with
  | OfferErr _ c' => forall c, c' = Some c -> exists c00, c0 = Some c00 /\ pruned c c00
  | Offer _ h used => offer_sound c0 fresh h used
  end.
Proof.
  assert (forall x : Z, (if 4 <=? cp_maxv cp then fresh else x) = x \/
                        (if 4 <=? cp_maxv cp then fresh else x) = fresh) as Fake
    by (intros x; destruct (4 <=? cp_maxv cp); auto).
  unfold client_offer. destruct c0 as [c00|]; [destruct (c_valid blob c00) eqn:V|].
  (* nothing to offer: a hello without ticket or PSK, no object in use *)
  2,3: constructor; cbn [h_sid h_ticket h_psk]; [destruct (Fake 0) as [-> | ->]; auto|intros; discriminate..].
  set (c2 := if nonempty (c_t10 c00) then set_t10 blob c00 (filter (tk10_valid blob now) (c_t10 c00)) else c00).
  replace (if nonempty (c_t10 c00) then Some (set_t10 blob c00 (filter (tk10_valid blob now) (c_t10 c00)))
           else Some c00) with (Some c2) by (unfold c2; destruct (nonempty (c_t10 c00)); reflexivity).
  assert (pruned c2 c00) as P2.
  { unfold c2. destruct (nonempty (c_t10 c00)); [|apply pruned_refl].
    constructor; try reflexivity; [apply incl_filter|apply incl_refl]. }
  destruct (nz (s_sid (c_sess c2)) && negb (zmem (s_suite (c_sess c2)) (cp_suites cp))).
  { intros c E. injection E as <-. exists c00. auto. }
  set (c3 := if nonempty (c_t13 c2) && (4 <=? cp_maxv cp)
             then set_t13 blob c2 (filter (tk13_valid blob now) (c_t13 c2)) else c2).
  assert (c_sess c3 = c_sess c2 /\ c_t10 c3 = c_t10 c2 /\ pruned c3 c00) as [S3 [T3 P3]].
  { unfold c3. destruct (nonempty (c_t13 c2) && (4 <=? cp_maxv cp)); auto.
    destruct P2 as [A D E]. do 2 (split; [reflexivity|]). constructor; try assumption.
    eapply incl_tran; [apply incl_filter|exact E]. }
  rewrite <- S3, <- T3. constructor; cbn [h_sid h_ticket h_psk].
  - destruct (nz (s_sid (c_sess c3))); [right; right; exists c3; auto|].
    destruct (c_t10 c3); [destruct (Fake 0) as [-> | ->]|destruct (Fake fresh) as [-> | ->]]; auto.
  - intros b. destruct (c_t10 c3) as [|t r] eqn:T; [discriminate|]. intros E. injection E as <-.
    exists c3, t. rewrite T. cbn [In]. auto.
  - intros b bk. destruct (4 <=? cp_maxv cp); [|discriminate].
    destruct (c_t13 c3) as [|t r] eqn:T; [discriminate|]. intros E. injection E as <- _.
    exists c3, t. rewrite T. cbn [In]. auto.
  - intros c E. injection E as <-. exists c00. auto.
Qed.

Lemma client_offer_sound cp c0 now fresh h used :
  client_offer blob cp c0 now fresh = Offer blob h used -> offer_sound c0 fresh h used.
Proof. intros E. pose proof (client_offer_cases cp c0 now fresh) as I. rewrite E in I. exact I. Qed.

Lemma mk_tickets_in n key nonce p life now t :
  In t (mk_tickets blob seal n key nonce p life now) -> exists n', tk_blob t = seal key n' p.
Proof.
  revert nonce. induction n as [|n IH]; intros nonce; cbn [mk_tickets In]; [intros []|].
  intros [<-|H]; [exists nonce; reflexivity|apply (IH _ H)].
Qed.

Section Attempt.
Variables (w : world blob) (cp : cparams) (sv : server).

Local Notation cfg := (sv_cfg sv).
Local Notation ver := (Z.min (cp_maxv cp) (sv_maxv cfg)).
Local Notation offer := (client_offer blob cp (offered_of w cp) (w_now w) (w_fresh w)).
Local Notation try_resume h := (server_try_resume blob open cfg (sv_store sv) (o_acc cp) h (w_now w)).

Definition log_of v h src out sview cview (used : option (cobj blob)) : cres blob :=
  {| r_srv := cp_srv cp; r_ver := v; r_now := w_now w; r_cfg := cfg; r_hello := h; r_acc := o_acc cp;
     r_src := src; r_out := out; r_sview := sview; r_cview := cview; r_offer := cp_offer cp;
     r_offer_valid := match offered_of w cp with Some c => c_valid blob c | None => false end;
     r_newc := ntk blob used |}.

Definition conn_of sobj cobj opn : connrec :=
  {| cr_srv := cp_srv cp; cr_sobj := sobj; cr_cobj := cobj; cr_open := opn; cr_ks := false; cr_kc := false |}.

(* What conn_delta returns, case by case: the definitions from here to full12 restate the branches of its body,
   and conn_delta_case holds by conversion with them.
   No handshake: the client raises ValueError (h = None) or one end sends an alert *)
Definition failed st used v h out : delta blob :=
  {| d_store := st; d_used := used; d_newc := None; d_conn := conn_of None None false;
     d_log := log_of v h None out None None None; d_issue := None; d_bump := 4 |}.

(* what a ticket issued for the server's session v carries *)
Definition payload_of (v : sess) (t : Z) : payload :=
  {| p_ms := s_ms v; p_ver := s_ver v; p_suite := s_suite v; p_hash := s_hash v; p_created := t;
     p_ccert := s_ccert v; p_etm := s_etm v; p_ems := s_ems v; p_sni := s_sni v; p_srp := s_srp v;
     p_origin := s_origin v |}.

Lemma sess_of_payload_of v t : sess_of_payload (payload_of v t) (s_sid v) = v.
Proof. destruct v. reflexivity. Qed.

(* the tickets a completed handshake issues (under its own condition b) are sealed over payload_of its view; the view
   stands under Some on both sides because case_newc reads it as r_sview of the log entry *)
Lemma issued_in (b : bool) n key nonce v tm life now t :
  In t (if b then mk_tickets blob seal n key nonce (payload_of v tm) life now else []) ->
  exists n' p sid, tk_blob t = seal key n' p /\ Some v = Some (sess_of_payload p sid).
Proof.
  destruct b; [|intros []]. intros Hin. apply mk_tickets_in in Hin. destruct Hin as [n' E].
  exists n', (payload_of v tm), (s_sid v). rewrite sess_of_payload_of. auto.
Qed.

(* the client's record of the same session: the names it asked for, the certificate it presented *)
Definition client_view (v : sess) (sni srp ccert : Z) : sess :=
  {| s_sid := s_sid v; s_ms := s_ms v; s_ver := s_ver v; s_suite := s_suite v; s_hash := s_hash v;
     s_ems := s_ems v; s_etm := s_etm v; s_sni := sni; s_srp := srp; s_ccert := ccert;
     s_origin := s_origin v |}.

(* TLS 1.3 handshake completed, resumed from the PSK ticket (key, payload) or full *)
Definition view13 (h : hello blob) (psk : option (Z * payload)) : sess :=
  {| s_sid := 0; s_ms := w_fresh w + 1; s_ver := 4; s_suite := o_fsuite cp; s_hash := o_fhash cp;
     s_ems := true; s_etm := false; s_sni := h_sni h; s_srp := 0;
     s_ccert := match psk with Some (_, p) => p_ccert p | None => if sv_reqcert cfg then cp_ccert cp else 0 end;
     s_origin := match psk with Some (_, p) => p_origin p | None => Z.of_nat (length (w_log w)) end |}.

Definition done13 (h : hello blob) used (psk : option (Z * payload)) : delta blob :=
  let view := view13 h psk in
  let resumed := match psk with Some _ => true | None => false end in
  let issue := nonempty (sv_keys cfg) && (0 <? sv_count cfg) in
  let key := hd 0 (sv_keys cfg) in
  let pl := payload_of view (created (w_now w)) in
  let cview := client_view view (h_sni h) 0 (cp_ccert cp) in
  let newc := {| c_sess := cview; c_res := true; c_t10 := [];
                 c_t13 := if issue then mk_tickets blob seal (Z.to_nat (sv_count cfg)) key (w_fresh w + 2) pl
                                                   (sv_life cfg) (w_now w) else [];
                 c_rms := w_fresh w + 1 |} in
  {| d_store := None; d_used := used; d_newc := Some newc;
     d_conn := conn_of None (Some (Z.of_nat (length (w_clients w)))) true;
     d_log := log_of ver (Some h) (match psk with Some (k, _) => Some (ByPsk k) | None => None end)
                     (ODone resumed resumed) (Some view) (Some cview) (Some newc);
     d_issue := if issue then Some (key, pl) else None;
     d_bump := 2 + Z.max 0 (sv_count cfg) + 1 |}.

(* TLS <= 1.2 abbreviated handshake: the server resumes s, found as o, with the client's object c *)
Definition resumed12 (h : hello blob) (c : cobj blob) st1 (s : sess) (o : src) : delta blob :=
  {| d_store := Some st1; d_used := Some c; d_newc := None;
     d_conn := conn_of (match o with ByCache | ByBoth _ => Some (s_sid s) | _ => None end) (cp_offer cp) true;
     d_log := log_of ver (Some h) (Some o) (ODone true true) (Some s) (Some (c_sess c)) (Some c);
     d_issue := None; d_bump := 4 |}.

(* TLS <= 1.2 full handshake *)
Definition sid12 : Z := if sv_usecache cfg then w_fresh w + 1 else 0.

Definition view12 (h : hello blob) : sess :=
  {| s_sid := sid12; s_ms := w_fresh w + 2; s_ver := ver; s_suite := o_fsuite cp; s_hash := o_fhash cp;
     s_ems := sv_ems cfg && h_ems h; s_etm := sv_etm cfg && h_etm h && o_fcbc cp;
     s_sni := h_sni h; s_srp := h_srp h; s_ccert := if sv_reqcert cfg then cp_ccert cp else 0;
     s_origin := Z.of_nat (length (w_log w)) |}.

Definition cview12 (h : hello blob) : sess := client_view (view12 h) (cp_sni cp) (cp_srp cp) (cp_ccert cp).

(* held up before the client's Finished: the client knows the session, the server keeps nothing *)
Definition suspended12 (h : hello blob) used st1 : delta blob :=
  {| d_store := Some st1; d_used := used;
     d_newc := Some {| c_sess := cview12 h; c_res := true; c_t10 := []; c_t13 := []; c_rms := 0 |};
     d_conn := conn_of None None true;
     d_log := log_of ver (Some h) None OSuspended None None None; d_issue := None; d_bump := 4 |}.

Definition full12 (h : hello blob) used st1 : delta blob :=
  let issue := match h_ticket h with None => true | Some _ => false end
               && (0 <? sv_count cfg) && nonempty (sv_keys cfg) in
  let key := hd 0 (sv_keys cfg) in
  let pl := payload_of (view12 h) (created (w_now w)) in
  let newc := {| c_sess := cview12 h; c_res := true;
                 c_t10 := if issue then mk_tickets blob seal 1 key (w_fresh w + 3) pl (sv_life cfg) (w_now w)
                          else [];
                 c_t13 := []; c_rms := 0 |} in
  {| d_store := Some (if sv_usecache cfg then cache_put cfg (w_now w) (view12 h) st1 else st1);
     d_used := used; d_newc := Some newc;
     d_conn := conn_of (if sv_usecache cfg then Some sid12 else None)
                       (Some (Z.of_nat (length (w_clients w)))) true;
     d_log := log_of ver (Some h) None (ODone false false) (Some (view12 h)) (Some (cview12 h)) (Some newc);
     d_issue := if issue then Some (key, pl) else None; d_bump := 4 |}.

(* One case per way an attempt can end.  The cases in which a handshake takes place carry their whole
   guard (the decisions: offer, server_psk, try_resume, client_resume_branch); an abort says who sent the
   alert and after which decision of the server.  The relation is for reading an attempt backwards, from its
   outcome or from what it changed (a destruct leaves every premise under the name declared here: the decisions
   CO, PS, TR; the version Ver; Fs, a suite in common; Echo, the client's reading of the ServerHello, with Suite
   and Ms where it finds its session there; Why, the reason of an abort; Half, the transport); where the
   decisions are given (Props fallback_completes) conn_delta is computed forwards instead. *)
Inductive conn_case : delta blob -> Prop :=
| case_client_error c' (CO : offer = OfferErr blob c') : conn_case (failed None c' 0 None OClientErr)
| case_abort13 h used a (CO : offer = Offer blob h used) (Ver : 4 <= ver)
    (Why : o_fsuite cp = 0 /\ a = o_falert cp \/
           o_fsuite cp <> 0 /\ server_psk blob open cfg cp h (w_now w) = S13Abort a) :
    conn_case (failed None used ver (Some h) (OAbortS a))
| case_done13 h used psk (CO : offer = Offer blob h used)
    (PS : server_psk blob open cfg cp h (w_now w) = match psk with Some (k, p) => S13Psk k p | None => S13Full end)
    (Ver : 4 <= ver) (Fs : o_fsuite cp <> 0) :
    conn_case (done13 h used psk)
| case_abort12_server h used st1 d a (CO : offer = Offer blob h used) (TR : try_resume h = (st1, d)) (Ver : ver < 4)
    (Why : d = SAbort a \/ d = SFull /\ o_fsuite cp = 0 /\ a = o_falert cp) :
    conn_case (failed (Some st1) used ver (Some h) (OAbortS a))
(* the client does not recognise its session in the ServerHello, or takes a full handshake for a resumption; which
   alert it sends and, after SResume, why it refuses are left open: here alone the relation is wider than conn_delta *)
| case_abort12_client h used st1 d a (CO : offer = Offer blob h used) (TR : try_resume h = (st1, d)) (Ver : ver < 4)
    (Why : (exists s o, d = SResume s o) \/
           d = SFull /\ o_fsuite cp <> 0 /\ client_resume_branch blob used h sid12 = true) :
    conn_case (failed (Some st1) used ver (Some h) (OAbortC a))
| case_resumed12 h c st1 s o (CO : offer = Offer blob h (Some c)) (TR : try_resume h = (st1, SResume s o)) (Ver : ver < 4)
    (Echo : client_resume_branch blob (Some c) h (s_sid s) = true)
    (Suite : s_suite s = s_suite (c_sess c)) (Ms : s_ms s = s_ms (c_sess c)) :
    conn_case (resumed12 h c st1 s o)
| case_suspended12 h used st1 (CO : offer = Offer blob h used) (TR : try_resume h = (st1, SFull)) (Ver : ver < 4)
    (Fs : o_fsuite cp <> 0) (Echo : client_resume_branch blob used h sid12 = false) (Half : cp_half cp <> 0) :
    conn_case (suspended12 h used st1)
| case_full12 h used st1 (CO : offer = Offer blob h used) (TR : try_resume h = (st1, SFull)) (Ver : ver < 4)
    (Fs : o_fsuite cp <> 0) (Echo : client_resume_branch blob used h sid12 = false) (Half : cp_half cp = 0) :
    conn_case (full12 h used st1).

Lemma conn_delta_case : conn_case (conn_delta blob seal open w cp sv).
Proof.
  unfold conn_delta. cbv beta zeta.
  destruct offer as [c'|h used] eqn:CO; [exact (case_client_error c' CO)|].
  destruct (4 <=? ver) eqn:V; [apply Z.leb_le in V|apply Z.leb_gt in V].
  - destruct (o_fsuite cp =? 0) eqn:F; [apply Z.eqb_eq in F|apply Z.eqb_neq in F].
    { apply (case_abort13 h used _ CO V). auto. }
    destruct (server_psk blob open cfg cp h (w_now w)) as [k p| |a] eqn:PS.
    + exact (case_done13 h used (Some (k, p)) CO PS V F).
    + exact (case_done13 h used None CO PS V F).
    + apply (case_abort13 h used a CO V). auto.
  - destruct (try_resume h) as [st1 [s o| |a]] eqn:TR.
    + assert (forall a, conn_case (failed (Some st1) used ver (Some h) (OAbortC a))) as Abort
        by (intros a; apply (case_abort12_client h used st1 _ a CO TR V); eauto).
      destruct (client_resume_branch blob used h (s_sid s)) eqn:B; [|apply Abort].
      destruct used as [c|]; [|apply Abort].
      destruct (s_suite s =? s_suite (c_sess c)) eqn:E1; [apply Z.eqb_eq in E1|apply Abort].
      destruct (s_ms s =? s_ms (c_sess c)) eqn:E2; [apply Z.eqb_eq in E2|apply Abort].
      exact (case_resumed12 h c st1 s o CO TR V B E1 E2).
    + destruct (o_fsuite cp =? 0) eqn:F; [apply Z.eqb_eq in F|apply Z.eqb_neq in F].
      { apply (case_abort12_server h used st1 _ _ CO TR V). auto. }
      fold sid12. destruct (client_resume_branch blob used h sid12) eqn:B.
      * assert (forall a, conn_case (failed (Some st1) used ver (Some h) (OAbortC a))) as Abort
          by (intros a; apply (case_abort12_client h used st1 _ a CO TR V); auto).
        destruct used as [c|]; [destruct (negb _)|]; apply Abort.
      * destruct (nz (cp_half cp)) eqn:H; [apply nz_true in H|apply nz_false in H].
        -- exact (case_suspended12 h used st1 CO TR V F B H).
        -- exact (case_full12 h used st1 CO TR V F B H).
    + apply (case_abort12_server h used st1 _ a CO TR V). auto.
Qed.

End Attempt.
End Conn.

Arguments client_offer_sound {blob cp c0 now fresh h used}.
Arguments os_sid {blob c0 fresh h used}.
Arguments os_ticket {blob c0 fresh h used}.
Arguments os_psk {blob c0 fresh h used}.
Arguments os_used {blob c0 fresh h used}.

Arguments conn_delta : simpl never.

Ltac show_delta :=
  cbn [d_store d_used d_newc d_conn d_log d_issue d_bump failed done13 resumed12 suspended12 full12
       log_of r_ver r_hello r_src r_out r_sview r_offer_valid conn_of cr_sobj cr_ks].

Section Frame.
Variable blob : Type.
Variable seal : Z -> Z -> payload -> blob.
Variable open : Z -> blob -> option payload.
Variables (w : world blob) (cp : cparams) (sv : server).

Local Notation cfg := (sv_cfg sv).
Local Notation offer := (client_offer blob cp (offered_of w cp) (w_now w) (w_fresh w)).
Local Notation try_resume h := (server_try_resume blob open cfg (sv_store sv) (o_acc cp) h (w_now w)).
Local Notation conn_case := (conn_case blob seal open w cp sv).

Lemma case_offer d :
  conn_case d ->
  (exists c', offer = OfferErr blob c' /\ d_used blob d = c') \/
  (exists h used, offer = Offer blob h used /\ d_used blob d = used).
Proof. destruct 1; show_delta; eauto. Qed.

Lemma case_searched d st :
  conn_case d -> d_store blob d = Some st ->
  exists h st1 dec, try_resume h = (st1, dec) /\
    (st = st1 \/
     sv_usecache cfg = true /\ st = cache_put cfg (w_now w) (view12 blob w cp sv h) st1 /\
     exists used, d = full12 blob seal w cp sv h used st1).
Proof.
  destruct 1; show_delta; intros E; try discriminate E; injection E as <-; do 3 eexists; (split; [eassumption|]).
  - (* case_abort12_server *) left; reflexivity.
  - (* case_abort12_client *) left; reflexivity.
  - (* case_resumed12 *) left; reflexivity.
  - (* case_suspended12 *) left; reflexivity.
  - (* case_full12 *) destruct (sv_usecache cfg); [right; eauto|left; reflexivity].
Qed.

Lemma case_bump d : conn_case d -> 2 <= d_bump blob d.
Proof. destruct 1; show_delta; lia. Qed.

Lemma case_used d c :
  conn_case d -> d_used blob d = Some c -> exists c0, offered_of w cp = Some c0 /\ pruned blob c c0.
Proof.
  intros C E. pose proof (client_offer_cases blob cp (offered_of w cp) (w_now w) (w_fresh w)) as O.
  destruct (case_offer d C) as [(c' & CO & U)|(h & used & CO & U)]; rewrite CO in O; rewrite U in E.
  - exact (O c E).
  - destruct (os_used O c E) as [c1 [A [_ P]]]. eauto.
Qed.

Lemma case_store d st e :
  conn_case d -> d_store blob d = Some st -> In e st ->
  In e (sv_store sv) \/
  exists v, e = {| ce_sess := v; ce_res := true; ce_time := w_now w |} /\
            r_sview (d_log blob d) = Some v /\ r_out (d_log blob d) = ODone false false /\ s_sid v = w_fresh w + 1.
Proof.
  intros C E Hin. destruct (case_searched d st C E) as (h & st1 & dec & TR & [->|(U & -> & used & ->)]).
  - left. exact (try_resume_store_in TR Hin).
  - apply cache_put_in in Hin. destruct Hin as [Hin| ->]; [left; exact (try_resume_store_in TR Hin)|].
    right. exists (view12 blob w cp sv h). show_delta. cbn [s_sid view12]. unfold sid12. rewrite U. auto.
Qed.

Lemma case_store_sorted d st :
  conn_case d -> d_store blob d = Some st ->
  times_sorted (sv_store sv) -> (forall e, In e (sv_store sv) -> ce_time e <= w_now w) ->
  times_sorted st.
Proof.
  intros C E Hs Hle. destruct (case_searched d st C E) as (h & st1 & dec & TR & [->|(_ & -> & _)]).
  - exact (try_resume_store_sorted TR Hs).
  - apply cache_put_sorted; [exact (try_resume_store_sorted TR Hs)|].
    intros e He. exact (Hle e (try_resume_store_in TR He)).
Qed.

Lemma case_newc d c :
  conn_case d -> d_newc blob d = Some c ->
  (s_sid (c_sess c) = 0 \/ s_sid (c_sess c) = w_fresh w + 1) /\
  forall t, In t (c_t10 c ++ c_t13 c) ->
    exists k n p sid, tk_blob t = seal k n p /\ (exists a b, r_out (d_log blob d) = ODone a b) /\
                      r_sview (d_log blob d) = Some (sess_of_payload p sid).
Proof.
  assert (sid12 blob w sv = 0 \/ sid12 blob w sv = w_fresh w + 1) as Sid
    by (unfold sid12; destruct (sv_usecache cfg); auto).
  destruct 1; show_delta; intros E; try discriminate E; injection E as <-;
    (split; [cbn; auto|]); cbn [c_t10 c_t13 app]; intros t Hin.
  - (* case_done13 *) apply issued_in in Hin. destruct Hin as (n & p & sid & E & V).
    exists (hd 0 (sv_keys cfg)), n, p, sid. split; [exact E|]. split; [eauto|exact V].
  - (* case_suspended12 *) destruct Hin.
  - (* case_full12 *) rewrite app_nil_r in Hin. apply (issued_in blob seal _ 1%nat) in Hin.
    destruct Hin as (n & p & sid & E & V).
    exists (hd 0 (sv_keys cfg)), n, p, sid. split; [exact E|]. split; [eauto|exact V].
Qed.

Lemma case_unkilled d : conn_case d -> cr_ks (d_conn blob d) = false.
Proof. destruct 1; reflexivity. Qed.

Lemma case_conn d sid :
  conn_case d -> times_sorted (sv_store sv) -> cr_sobj (d_conn blob d) = Some sid ->
  sid = w_fresh w + 1 \/ exists e, In e (sv_store sv) /\ s_sid (ce_sess e) = sid.
Proof.
  intros C Hs. destruct C; show_delta; intros E; try discriminate E.
  - (* case_resumed12 *) destruct (server_try_resume_sound Hs TR) as [_ [_ Hacc]].
    destruct (accepted_cached Hacc) as [e [A [B _]]].
    { destruct o; try discriminate E; eauto. }
    right. exists e. rewrite B. destruct o; try discriminate E; injection E as <-; auto.
  - (* case_full12 *) destruct (sv_usecache cfg) eqn:U; [|discriminate E]. injection E as <-.
    left. unfold sid12. rewrite U. reflexivity.
Qed.

End Frame.

Arguments case_bump {blob seal open w cp sv d}.
Arguments case_used {blob seal open w cp sv d c}.
Arguments case_store {blob seal open w cp sv d st e}.
Arguments case_store_sorted {blob seal open w cp sv d st}.
Arguments case_newc {blob seal open w cp sv d c}.
Arguments case_unkilled {blob seal open w cp sv d}.
Arguments case_conn {blob seal open w cp sv d sid}.
