From Coq Require Import ZArith List Lia.
From TV Require Base.ListUpd.
From TV Require Import Model.C17_Lifecycle Model.C17_Sessions Proofs.C17_Lifecycle.
Import ListNotations.
Open Scope Z_scope.

(* upd is the list update of Base/ListUpd.v (the same Fixpoint): its lemmas apply as they stand *)
Lemma upd_is_upd {A} : @upd A = ListUpd.upd.
Proof. reflexivity. Qed.

Lemma nth_error_upd_same {A} (l : list A) : forall n x, (n < length l)%nat -> nth_error (upd l n x) n = Some x.
Proof. exact (ListUpd.nth_error_upd_same l). Qed.

Lemma nth_error_upd_other {A} (l : list A) : forall n m x, n <> m -> nth_error (upd l n x) m = nth_error l m.
Proof. intros n m x H. apply ListUpd.nth_error_upd_other. congruence. Qed.

Definition store_le (w w' : world) : Prop :=
  (length (store w) <= length (store w'))%nat /\
  forall l, (l < length (store w))%nat -> flag w l = false -> flag w' l = false.

Lemma wstep_store w e w' o : wstep w e = (w', o) -> store_le w w'.
Proof.
  unfold store_le. destruct e as [i ev|i|i l0|l0]; cbn [wstep].
  - destruct (nth_error (conns w) i) as [c|]; [|intros H; inverts H; auto].
    destruct (is_setsess ev) eqn:NS; [intros H; inverts H; auto|].
    destruct (step (set_sess (view w c) (cst c)) ev) as [s' o'] eqn:E. intros H. inverts H.
    cbn [store]. destruct (sref c) as [lc|] eqn:SR; [|auto].
    unfold view in E. rewrite SR in E. apply step_sess_le in E; [|intros b ->; discriminate NS].
    assert (exists b, sess s' = Some b /\ (flag w lc = false -> b = false)) as (b & SB & BF)
      by (destruct E as [->|(_ & ->)]; cbn; eauto).
    rewrite SB.
    rewrite ListUpd.upd_length. split; [lia|]. intros l L F. unfold flag in *. cbn [store].
    destruct (Nat.eq_dec lc l) as [->|NE].
    + rewrite ListUpd.nth_upd_same by exact L. apply BF. exact F.
    + rewrite ListUpd.nth_upd_other by congruence. exact F.
  - destruct (nth_error (conns w) i) as [c|]; intros H; inverts H; [|auto].
    cbn [store]. rewrite app_length. cbn. split; [lia|]. intros l L F. unfold flag in *. cbn [store].
    rewrite app_nth1 by exact L. exact F.
  - destruct (nth_error (conns w) i) as [c|]; [|intros H; inverts H; auto].
    destruct (l0 <? length (store w))%nat; intros H; inverts H; auto.
  - intros H; inverts H; auto.
Qed.

Lemma wrun_store : forall evs w w' os, wrun w evs = (w', os) -> store_le w w'.
Proof.
  induction evs as [|e evs IH]; intros w w' os H; cbn in H.
  - inverts H. split; auto.
  - destruct (wstep w e) as [w1 o] eqn:E. destruct (wrun w1 evs) as [w2 os2] eqn:E2. inverts H.
    destruct (wstep_store _ _ _ _ E) as (L1 & F1). destruct (IH _ _ _ E2) as (L2 & F2).
    split; [lia|]. intros l L F. apply F2; [lia|]. apply F1; auto.
Qed.

Lemma wrun_lookups_false : forall evs w w' os l, (l < length (store w))%nat -> flag w l = false ->
  wrun w evs = (w', os) ->
  forall k, nth_error evs k = Some (WLookup l) -> nth_error os k = Some (WFound false).
Proof.
  induction evs as [|e evs IH]; intros w w' os l L F H k K; [destruct k; discriminate|].
  cbn in H. destruct (wstep w e) as [w1 o] eqn:E. destruct (wrun w1 evs) as [w2 os2] eqn:E2.
  inverts H. destruct k as [|k]; cbn in *.
  - inverts K. cbn in E. inverts E. rewrite F. reflexivity.
  - destruct (wstep_store _ _ _ _ E) as (L1 & F1). eapply IH; try exact E2; try exact K; [lia|]. apply F1; auto.
Qed.

(* A step on ANY connection using session object l that leaves that connection's view of the
   flag off: the flag is off in the store, hence for every connection sharing the object, and it
   stays off, so that every later lookup fails, whatever happens afterwards. *)
Set Implicit Arguments.
Record session_dead (w w' : world) (l : nat) : Prop := {
  dead_flag : flag w' l = false;
  dead_store : length (store w') = length (store w);
  dead_views : forall j c', nth_error (conns w') j = Some c' -> sref c' = Some l -> view w' c' = Some false;
  dead_later : forall evs w2 os, wrun w' evs = (w2, os) ->
    flag w2 l = false /\ forall k, nth_error evs k = Some (WLookup l) -> nth_error os k = Some (WFound false) }.
Unset Implicit Arguments.

Lemma failure_kills_session w i c l ev s' o :
  nth_error (conns w) i = Some c -> sref c = Some l -> (l < length (store w))%nat -> is_setsess ev = false ->
  step (set_sess (view w c) (cst c)) ev = (s', o) -> sess s' = Some false ->
  exists w', wstep w (WConn i ev) = (w', WO o) /\ session_dead w w' l.
Proof.
  intros C SR L NS E SF. cbn [wstep]. rewrite C, NS, E, SR, SF.
  eexists. split; [reflexivity|].
  assert (flag {| conns := upd (conns w) i (mkwc s' (Some l)); store := upd (store w) l false |} l = false) as FL.
  { unfold flag. cbn [store]. apply ListUpd.nth_upd_same. exact L. }
  assert (length (upd (store w) l false) = length (store w)) as LEN by apply ListUpd.upd_length.
  split; cbn [store conns].
  - exact FL.
  - exact LEN.
  - intros j c' J SR'. unfold view. rewrite SR'. cbn [option_map]. f_equal. exact FL.
  - intros evs w2 os RUN. split.
    + apply (proj2 (wrun_store _ _ _ _ RUN)); [cbn [store]; lia|exact FL].
    + eapply wrun_lookups_false; [|exact FL|exact RUN]. cbn [store]. lia.
Qed.

(* example world: the session created on connection 0 (closed in an orderly way since), resumed on
   connection 1, where a fatal alert is waiting *)
Definition w_example : world :=
  mkw [mkwc (mkst true false 0 None false true false false 16384 false false [] [] [] RxOpen None []) (Some 0%nat);
       mkwc (mkst false false 1 None false true false false 16384 true false [] [] [IAlert 2 80] RxOpen None []) (Some 0%nat)]
      [true].
