(* C14 lemmas: BufferedSocket write side.  Whatever mixture of buffered and direct
   sends and flushes the layer above performs, over any schedule the bytes reach the
   wire in the order they were sent; and the witness that a would-block during the
   blocking-socket flush() breaks this.

   Every operation is one send loop (possibly of nothing) over [op_data] followed by
   the state change [op_sock]; the send loops are characterised by [sends] of
   Proofs/C14_Transport.v. *)
From Coq Require Import ZArith List Bool Lia.
From TV Require Import Base.Prelude Base.PreludeFacts Model.C14_Transport Model.C14_Buffered
  Proofs.C14_Transport.
Import ListNotations.
Open Scope Z_scope.

Definition o_of (r : Z * outcome unit * bsock * list Z * list sev) := snd (fst (fst (fst r))).
Definition b_of (r : Z * outcome unit * bsock * list Z * list sev) := snd (fst (fst r)).
Definition w_of (r : Z * outcome unit * bsock * list Z * list sev) := snd (fst r).
Definition s_of (r : Z * outcome unit * bsock * list Z * list sev) := snd r.
Definition real_error (e : exc) : Prop := exists n, e = SockError n /\ is_wb n = false.

Lemma sent_data_cons o ops :
  sent_data (o :: ops) = (match o with WSend d => d | _ => [] end) ++ sent_data ops.
Proof. reflexivity. Qed.

Lemma flush_loop_is_send_all : forall s buf y wire, flush_loop buf y wire s = send_all buf y wire s.
Proof.
  induction s as [|ev s IH]; intros buf y wire; [reflexivity|].
  destruct ev as [k|e]; cbn [flush_loop send_all].
  - pose proof (accepted_range k buf) as Hr. rewrite skipn_zlen by exact Hr.
    destruct (accepted k buf =? zlen buf) eqn:E.
    + apply Z.eqb_eq in E. rewrite E, Z.sub_diag. unfold zlen. rewrite Nat2Z.id, firstn_all. reflexivity.
    + destruct (zlen buf - accepted k buf =? 0) eqn:E2; [lia|]. apply IH.
  - destruct (is_wb e); [apply IH|reflexivity].
Qed.

(* tlslite's discipline: buffer_writes is only switched off (and a direct send only made)
   when the queue has been flushed.  [bwf] = buffering on, [qe] = queue known empty. *)
Fixpoint disciplined (ops : list wop) (bwf qe : bool) : bool :=
  match ops with
  | [] => true
  | WSend _ :: r => if bwf then disciplined r true false else qe && disciplined r false qe
  | WFlush :: r => disciplined r bwf true
  | WFlushA :: r => disciplined r bwf true
  | WBuffer v :: r => (v || qe) && disciplined r v qe
  end.

Definition q_empty (bsk : bsock) : bool := zlen (concat (queue bsk)) =? 0.

Lemma disciplined_weaken ops : forall bwf qe, disciplined ops bwf false = true -> disciplined ops bwf qe = true.
Proof.
  induction ops as [|op ops IH]; intros bwf qe H; [reflexivity|]. destruct qe; [|exact H].
  destruct op as [d| | |v]; cbn [disciplined] in *; [destruct bwf; [exact H|cbn in H; discriminate]|exact H..|].
  apply andb_true_iff in H. destruct H as [H1 H2]. rewrite orb_false_r in H1. subst v.
  exact (IH true true H2).
Qed.

Definition bs_step (op : wop) (bsk : bsock) (wire : list Z) (s : list sev)
  : Z * outcome unit * bsock * list Z * list sev :=
  match op with
  | WSend d => bs_send_all d bsk wire s
  | WFlush => let '(o, b, w, s') := bs_flush bsk wire s in (0, o, b, w, s')
  | WFlushA => bs_flush_async bsk wire s
  | WBuffer v => (0, Done tt, bs_set_buffering v bsk, wire, s)
  end.

Lemma bs_run_cons op ops y bsk wire s :
  bs_run (op :: ops) y bsk wire s =
  let '(y1, o, b, w, s') := bs_step op bsk wire s in
  match o with Done _ => bs_run ops (y + y1) b w s' | _ => (y + y1, o, b, w, s') end.
Proof.
  destruct op; cbn [bs_run bs_step].
  - destruct (bs_send_all data bsk wire s) as [[[[y1 o] b] w] s']. destruct o; reflexivity.
  - destruct (bs_flush bsk wire s) as [[[o b] w] s']. rewrite Z.add_0_r. destruct o; reflexivity.
  - destruct (bs_flush_async bsk wire s) as [[[[y1 o] b] w] s']. destruct o; reflexivity.
  - rewrite Z.add_0_r. reflexivity.
Qed.

Definition op_data (op : wop) (bsk : bsock) : list Z :=
  match op with
  | WSend d => if bw bsk then [] else d
  | WFlush | WFlushA => concat (queue bsk)
  | WBuffer _ => []
  end.
Definition op_sock (op : wop) (bsk : bsock) : bsock :=
  match op with
  | WSend d => if bw bsk then {| bw := true; queue := queue bsk ++ [d] |} else bsk
  | WFlush | WFlushA => {| bw := bw bsk; queue := [] |}
  | WBuffer v => bs_set_buffering v bsk
  end.

(* only flush() lets a would-block escape as an exception *)
Definition op_hard (op : wop) (n : Z) : Prop := op <> WFlush -> is_wb n = false.

Lemma op_hard_of_real op n : is_wb n = false -> op_hard op n.
Proof. intros H _. exact H. Qed.

Lemma op_hard_flush n : op_hard WFlush n.
Proof. intros H. contradiction H. reflexivity. Qed.

Lemma bs_step_sends op bsk wire s y o b w s' :
  bs_step op bsk wire s = (y, o, b, w, s') ->
  b = op_sock op bsk /\ sends (op_hard op) (op_data op bsk) wire s o w s'.
Proof.
  intros St.
  (* shown of the components of bs_step op bsk wire s, which is how the loop lemmas speak *)
  enough (let r := bs_step op bsk wire s in
          b_of r = op_sock op bsk /\ sends (op_hard op) (op_data op bsk) wire s (o_of r) (w_of r) (s_of r)) as H
    by (rewrite St in H; exact H).
  clear y o b w s' St. assert (Hempty : forall q, zlen (concat q) =? 0 = true ->
            sends (op_hard op) (concat q) wire s (Done tt) wire s).
  { intros q E. apply Z.eqb_eq, zlen_0_nil in E. rewrite E. apply sends_nothing. }
  destruct op as [d| | |v]; cbn [bs_step op_data op_sock]; cbn zeta.
  - unfold bs_send_all. destruct (bw bsk); [split; [reflexivity|apply sends_nothing]|].
    pose proof (send_all_sends (op_hard (WSend d)) (op_hard_of_real _) s d 0 wire) as H.
    destruct (send_all d 0 wire s) as [[[y o] w] s']. exact (conj eq_refl H).
  - unfold bs_flush. destruct (zlen (concat (queue bsk)) =? 0) eqn:E; [split; [reflexivity|apply Hempty, E]|].
    pose proof (sock_sendall_sends (op_hard WFlush) op_hard_flush s (concat (queue bsk)) wire) as H.
    destruct (sock_sendall (concat (queue bsk)) wire s) as [[o w] s']. exact (conj eq_refl H).
  - unfold bs_flush_async. destruct (zlen (concat (queue bsk)) =? 0) eqn:E; [split; [reflexivity|apply Hempty, E]|].
    rewrite flush_loop_is_send_all.
    pose proof (send_all_sends (op_hard WFlushA) (op_hard_of_real _) s (concat (queue bsk)) 0 wire) as H.
    destruct (send_all (concat (queue bsk)) 0 wire s) as [[[y o] w] s']. exact (conj eq_refl H).
  - split; [reflexivity|apply sends_nothing].
Qed.
Arguments bs_step_sends {op bsk wire s y o b w s'}.

Lemma op_order op ops bsk :
  disciplined (op :: ops) (bw bsk) (q_empty bsk) = true ->
  op_data op bsk ++ concat (queue (op_sock op bsk))
    = concat (queue bsk) ++ (match op with WSend d => d | _ => [] end) /\
  disciplined ops (bw (op_sock op bsk)) (q_empty (op_sock op bsk)) = true.
Proof.
  intros Hd. destruct op as [d| | |v]; cbn [disciplined op_data op_sock] in *.
  - destruct (bw bsk) eqn:Eb; cbn [queue bw app].
    + rewrite concat_app. cbn [concat]. rewrite app_nil_r.
      split; [reflexivity|apply disciplined_weaken, Hd].
    + apply andb_true_iff in Hd. destruct Hd as [Hq Hd].
      apply Z.eqb_eq, zlen_0_nil in Hq. rewrite Eb, Hq, app_nil_r. split; [reflexivity|exact Hd].
  - rewrite !app_nil_r. split; [reflexivity|exact Hd].
  - rewrite !app_nil_r. split; [reflexivity|exact Hd].
  - apply andb_true_iff in Hd. rewrite app_nil_r. split; [reflexivity|apply Hd].
Qed.

Record bs_ran (ops : list wop) (bsk : bsock) (wire : list Z) (s : list sev)
              (r : Z * outcome unit * bsock * list Z * list sev) : Prop := {
  ran_done : o_of r = Done tt ->
    w_of r ++ concat (queue (b_of r)) = wire ++ concat (queue bsk) ++ sent_data ops;
  ran_raised : forall e, o_of r = Raised e ->
    sock_error_in (fun n => no_sync_flush ops = true -> is_wb n = false) s e;
  ran_pending : o_of r = Pending -> s_of r = [] }.

Theorem bs_run_spec : forall ops y bsk wire s,
  disciplined ops (bw bsk) (q_empty bsk) = true -> bs_ran ops bsk wire s (bs_run ops y bsk wire s).
Proof.
  induction ops as [|op ops IH]; intros y bsk wire s Hd.
  { split; [intros _; cbn; rewrite app_nil_r; reflexivity|discriminate..]. }
  rewrite bs_run_cons.
  destruct (op_order op ops bsk Hd) as [Hord Hd'].
  destruct (bs_step op bsk wire s) as [[[[y1 o] b] w] s'] eqn:St.
  destruct (bs_step_sends St) as [-> Hs]. destruct o as [[]|e|]; cbv beta iota.
  - pose proof (sends_all Hs) as ->.
    destruct (IH (y + y1) (op_sock op bsk) (wire ++ op_data op bsk) s' Hd') as [Idone Iraised Ipending].
    split; [| |exact Ipending].
    + intros Hdone. rewrite sent_data_cons, (Idone Hdone), <- !app_assoc, (app_assoc (op_data op bsk)), Hord, <- app_assoc.
      reflexivity.
    + intros e He. destruct (Iraised e He) as [n Hexc Hhard Hin].
      apply (Sock_error_in _ _ _ n Hexc); [|apply (sends_incl Hs), Hin].
      intros Hns. apply Hhard. cbn [no_sync_flush forallb] in Hns. apply andb_true_iff in Hns. apply Hns.
  - split; [discriminate| |discriminate].
    intros e0 He. destruct (sends_error Hs He) as [n Hexc Hhard Hin].
    apply (Sock_error_in _ _ _ n Hexc); [|exact Hin].
    intros Hns. apply Hhard. intros ->. discriminate.
  - split; [discriminate..|exact (sends_exhausted Hs)].
Qed.

Lemma run_buffered_sends : forall msgs y bsk wire s tail,
  bw bsk = true ->
  bs_run (map WSend msgs ++ tail) y bsk wire s =
  bs_run tail y {| bw := true; queue := queue bsk ++ msgs |} wire s.
Proof.
  induction msgs as [|m ms IH]; intros y bsk wire s tail Hb; cbn [map app].
  - rewrite app_nil_r. destruct bsk as [b q]. cbn in Hb. subst b. reflexivity.
  - cbn [bs_run]. unfold bs_send_all. rewrite Hb, Z.add_0_r.
    rewrite IH by reflexivity. cbn [queue]. rewrite <- app_assoc. reflexivity.
Qed.

Lemma flight_run fl msgs wire s : fl = WFlush \/ fl = WFlushA ->
  bs_run (WBuffer true :: map WSend msgs ++ [fl; WBuffer false]) 0 bs_init wire s =
  let '(y, o, _, w, s') := bs_step fl {| bw := true; queue := msgs |} wire s in
  (y, o, match o with Done _ => bs_init | _ => {| bw := true; queue := [] |} end, w, s').
Proof.
  intros Hfl. cbn [bs_run]. rewrite run_buffered_sends by reflexivity.
  cbn [bs_init bs_set_buffering queue app]. rewrite bs_run_cons.
  destruct (bs_step fl _ wire s) as [[[[y1 o] b] w] s'] eqn:St.
  destruct (bs_step_sends St) as [-> _].
  destruct Hfl as [-> | ->]; destruct o as [[]|e|]; reflexivity.
Qed.

Lemma flight_order msgs wire s :
  forallb sev_accept_only s = true ->
  let r := bs_run (flight msgs) 0 bs_init wire s in
  (forall e, o_of r <> Raised e) /\
  (o_of r = Done tt -> w_of r = wire ++ concat msgs /\ b_of r = bs_init).
Proof.
  intros Hs. cbn zeta. unfold flight. rewrite (flight_run WFlush) by (left; reflexivity).
  destruct (bs_step WFlush _ wire s) as [[[[y1 o] b] w] s'] eqn:St.
  destruct (bs_step_sends St) as [_ Hsends].
  unfold o_of, w_of, b_of. cbn [fst snd op_data queue] in *. split.
  - intros e He. destruct (sends_error Hsends He) as [n _ _ Hin]. exact (accept_only_no_fail s n Hs Hin).
  - intros Hdone. subst o. rewrite (sends_all Hsends). split; reflexivity.
Qed.

Definition wb_witness_msgs : list (list Z) := [[1; 2; 3]].
Definition wb_witness_script : list sev := [Accept 1; SBlock; Accept 5].

Lemma flush_would_block_loses_data :
  forallb sev_ok wb_witness_script = true /\
  (* the unbuffered generator path delivers everything over this schedule ... *)
  send_all (concat wb_witness_msgs) 0 [] wb_witness_script = (2, Done tt, [1; 2; 3], []) /\
  (* ... the buffered flight raises EWOULDBLOCK, one byte on the wire, the rest gone *)
  bs_run (flight wb_witness_msgs) 0 bs_init [] wb_witness_script
    = (0, Raised (SockError EWOULDBLOCK), {| bw := true; queue := [] |}, [1], [Accept 5]).
Proof. vm_compute. repeat split. Qed.

Lemma flush_would_block_refutes :
  exists msgs (s : list sev),
  forallb sev_ok s = true /\
  snd (fst (fst (send_all (concat msgs) 0 [] s))) = Done tt /\
  o_of (bs_run (flight msgs) 0 bs_init [] s) = Raised (SockError EWOULDBLOCK) /\
  w_of (bs_run (flight msgs) 0 bs_init [] s) <> concat msgs /\
  queue (b_of (bs_run (flight msgs) 0 bs_init [] s)) = [].
Proof.
  exists wb_witness_msgs, wb_witness_script.
  destruct flush_would_block_loses_data as (_ & -> & ->).
  repeat split. discriminate.
Qed.

Lemma flight_a_empty msgs wire s :
  zlen (concat msgs) = 0 ->
  bs_run (flight_a msgs) 0 bs_init wire s = (0, Done tt, bs_init, wire, s).
Proof.
  intros He. unfold flight_a. rewrite (flight_run WFlushA) by (right; reflexivity).
  cbn [bs_step]. unfold bs_flush_async. cbn [queue]. rewrite He. reflexivity.
Qed.
