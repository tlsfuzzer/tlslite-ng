(* AES-GCM field arithmetic: the generated 4-bit table multiply AESGCM._mul (with the table built by AESGCM.__init__)
   is the GF(2^128) product of SP 800-38D 6.3 Algorithm 1 (Spec.C09_AEAD.gf128_mul) by H = AES_K(0^128). *)
From Coq Require Import ZArith List Bool Lia.
From TV Require Import Base.Prelude Base.PreludeFacts Base.C09_Lib Base.C09_Oracle Gen.C09_AesModes Gen.C09_GCM
  Spec.C09_AEAD Proofs.C09_Lists.
Import ListNotations.
Open Scope list_scope.
Open Scope Z_scope.

Definition W128 : Z := 2 ^ 128.
(* v -> x.v, the step on V in Algorithm 1: bit 0 is the coefficient of x^127, so multiplying by x shifts right *)
Definition mulx (v : Z) : Z := if Z.testbit v 0 then Z.lxor (Z.shiftr v 1) gcm_R else Z.shiftr v 1.
Definition mulxn (n : nat) (v : Z) : Z := Nat.iter n mulx v.

Lemma mulx_bound v : 0 <= v < W128 -> 0 <= mulx v < W128.
Proof.
  intros H. unfold W128 in *.
  assert (Hs : 0 <= Z.shiftr v 1 < 2 ^ 128).
  { rewrite Z.shiftr_div_pow2 by lia. change (2 ^ 1) with 2. split; [apply Z.div_pos|apply Z.div_lt_upper_bound]; lia. }
  unfold mulx. destruct (Z.testbit v 0); [|exact Hs].
  apply lxor_lt_pow2; [exact Hs|]. vm_compute. split; [discriminate|reflexivity].
Qed.

Lemma mulxn_bound n v : 0 <= v < W128 -> 0 <= mulxn n v < W128.
Proof. intros H. induction n as [|n IH]; [exact H|]. unfold mulxn in *. simpl. apply mulx_bound. exact IH. Qed.

Lemma mulx_0 : mulx 0 = 0.
Proof. reflexivity. Qed.

Lemma mulxn_0 n : mulxn n 0 = 0.
Proof. induction n as [|n IH]; [reflexivity|]. unfold mulxn in *. simpl. rewrite IH. reflexivity. Qed.

Lemma mulx_lxor a b : mulx (Z.lxor a b) = Z.lxor (mulx a) (mulx b).
Proof.
  unfold mulx. rewrite Z.lxor_spec, Z.shiftr_lxor.
  destruct (Z.testbit a 0), (Z.testbit b 0); unfold Datatypes.xorb; cbv iota;
    apply Z.bits_inj'; intros n Hn; rewrite ?Z.lxor_spec;
    destruct (Z.testbit (Z.shiftr a 1) n), (Z.testbit (Z.shiftr b 1) n), (Z.testbit gcm_R n); reflexivity.
Qed.

Lemma mulxn_lxor n a b : mulxn n (Z.lxor a b) = Z.lxor (mulxn n a) (mulxn n b).
Proof. induction n as [|n IH]; [reflexivity|]. unfold mulxn in *. simpl. rewrite IH. apply mulx_lxor. Qed.

Lemma mulx_shiftl a k : 0 <= k -> mulx (Z.shiftl a (k + 1)) = Z.shiftl a k.
Proof.
  intros Hk. unfold mulx. rewrite Z.shiftl_spec_low by lia.
  rewrite Z.shiftr_shiftl_l by lia. f_equal. lia.
Qed.

Lemma mulxn_shiftl k a : mulxn k (Z.shiftl a (Z.of_nat k)) = a.
Proof.
  induction k as [|k IH]; [apply Z.shiftl_0_r|].
  unfold mulxn in *. change (Nat.iter (S k) mulx (Z.shiftl a (Z.of_nat (S k)))) with (mulx (Nat.iter k mulx (Z.shiftl a (Z.of_nat (S k))))).
  rewrite <- iter_shift. rewrite Nat2Z.inj_succ, <- Z.add_1_r. rewrite mulx_shiftl by lia. exact IH.
Qed.

(* the reduction table written out in AESGCM._mul *)
Definition RT : list Z := [0; 7200; 14400; 9312; 28800; 27808; 18624; 21728; 57600; 64800; 55616; 50528; 37248; 36256; 43456; 46560].

Lemma red4_low : forallb (fun l => mulxn 4 l =? Z.shiftl (nthZ RT l) 112) (zrange 0 16) = true.
Proof. vm_compute. reflexivity. Qed.

Lemma split_nibble r : r = Z.lxor (Z.shiftl (Z.shiftr r 4) 4) (Z.land r 15).
Proof.
  apply Z.bits_inj'. intros n Hn. rewrite Z.lxor_spec, Z.land_spec. change 15 with (Z.ones 4).
  destruct (Z_lt_le_dec n 4) as [L|L].
  - rewrite Z.shiftl_spec_low by lia. rewrite Z.ones_spec_low by lia. rewrite andb_true_r. destruct (Z.testbit r n); reflexivity.
  - rewrite Z.shiftl_spec by lia. rewrite Z.shiftr_spec by lia. rewrite Z.ones_spec_high by lia.
    rewrite andb_false_r, xorb_false_r. f_equal. lia.
Qed.

(* the 4-bit reduction step of AESGCM._mul is multiplication by x^4: the nibble shifted out is reduced by the table,
   the rest moves down unchanged *)
Lemma red4 r : Z.lxor (Z.shiftr r 4) (Z.shiftl (nthZ RT (Z.land r 15)) 112) = mulxn 4 r.
Proof.
  rewrite (split_nibble r) at 3. rewrite mulxn_lxor. change 4 with (Z.of_nat 4) at 3. rewrite mulxn_shiftl. f_equal.
  pose proof red4_low as F. rewrite forallb_forall in F.
  symmetry. apply Z.eqb_eq, F, in_zrange, land15.
Qed.

Definition xs (c : Z -> bool) (f : Z -> Z) (l : list Z) (z0 : Z) : Z :=
  fold_left (fun z i => if c i then Z.lxor z (f i) else z) l z0.

Lemma xs_start c f l z0 : xs c f l z0 = Z.lxor z0 (xs c f l 0).
Proof.
  unfold xs. revert z0. induction l as [|i l IH]; intros z0; cbn [fold_left]; [rewrite Z.lxor_0_r; reflexivity|].
  rewrite IH. rewrite (IH (if c i then Z.lxor 0 (f i) else 0)).
  destruct (c i); [rewrite Z.lxor_0_l, Z.lxor_assoc; reflexivity|rewrite Z.lxor_0_l; reflexivity].
Qed.

Lemma xs_app c f l1 l2 : xs c f (l1 ++ l2) 0 = Z.lxor (xs c f l1 0) (xs c f l2 0).
Proof. unfold xs at 1. rewrite fold_left_app. fold (xs c f l1 0). fold (xs c f l2 (xs c f l1 0)). apply xs_start. Qed.

Lemma xs_ext c d f g l z : (forall i, In i l -> c i = d i /\ f i = g i) -> xs c f l z = xs d g l z.
Proof. intros H. apply fold_left_ext_in. intros a i Hi. destruct (H i Hi) as [-> ->]. reflexivity. Qed.

Lemma xs_map c f (g : Z -> Z) l z : xs c f (map g l) z = xs (fun i => c (g i)) (fun i => f (g i)) l z.
Proof. apply fold_left_map. Qed.

Lemma xs_mulxn n c f l : mulxn n (xs c f l 0) = xs c (fun i => mulxn n (f i)) l 0.
Proof.
  induction l as [|i l IH] using rev_ind; [apply mulxn_0|].
  rewrite !xs_app, mulxn_lxor, IH. f_equal. unfold xs. cbn [fold_left].
  destruct (c i); [rewrite !Z.lxor_0_l; reflexivity|apply mulxn_0].
Qed.

Lemma xs_bound c f l z : 0 <= z < W128 -> (forall i, In i l -> 0 <= f i < W128) -> 0 <= xs c f l z < W128.
Proof.
  unfold xs. revert z. induction l as [|i l IH]; intros z Hz H; cbn [fold_left]; [exact Hz|].
  apply IH; [|intros j Hj; apply H; right; exact Hj].
  destruct (c i); [|exact Hz]. apply (lxor_lt_pow2 128); [exact Hz|apply H; left; reflexivity].
Qed.

Lemma gf128_fold x y : forall k a z, 0 <= a ->
  fold_left (fun '(z, v) i =>
               (if Z.testbit x (127 - i) then Z.lxor z v else z,
                if Z.testbit v 0 then Z.lxor (Z.shiftr v 1) gcm_R else Z.shiftr v 1))
            (zrange a (a + Z.of_nat k)) (z, mulxn (Z.to_nat a) y)
  = (xs (fun i => Z.testbit x (127 - i)) (fun i => mulxn (Z.to_nat i) y) (zrange a (a + Z.of_nat k)) z,
     mulxn (Z.to_nat (a + Z.of_nat k)) y).
Proof.
  induction k as [|k IH]; intros a z Ha.
  - rewrite Z.add_0_r, zrange_empty by lia. reflexivity.
  - rewrite zrange_cons by lia. unfold xs. cbn [fold_left]. fold (mulx (mulxn (Z.to_nat a) y)).
    change (mulx (mulxn (Z.to_nat a) y)) with (mulxn (S (Z.to_nat a)) y).
    replace (S (Z.to_nat a)) with (Z.to_nat (a + 1)) by lia.
    replace (a + Z.of_nat (S k)) with (a + 1 + Z.of_nat k) by lia.
    rewrite IH by lia. reflexivity.
Qed.

Lemma gf128_mul_xs x y :
  gf128_mul x y = xs (fun i => Z.testbit x (127 - i)) (fun i => mulxn (Z.to_nat i) y) (zrange 0 128) 0.
Proof.
  unfold gf128_mul. pose proof (gf128_fold x y 128 0 0 ltac:(lia)) as H.
  change (0 + Z.of_nat 128) with 128 in H. change (mulxn (Z.to_nat 0) y) with y in H. rewrite H. reflexivity.
Qed.

Section Nibbles.
  Variables (y h : Z).
  Hypothesis Hh : 0 <= h < W128.

  Let c := fun i => Z.testbit y (127 - i).

  (* the contribution of the 4k lowest-order bits of y (the highest powers of x), divided by x^(128-4k) *)
  Definition psum (k : Z) : Z :=
    xs c (fun i => mulxn (Z.to_nat (i - (128 - 4 * k))) h) (zrange (128 - 4 * k) 128) 0.

  (* the product of a 4-bit polynomial (bit 3 = x^0 ... bit 0 = x^3) with h *)
  Definition tsum (nib : Z) : Z :=
    xs (fun b => Z.testbit nib (3 - b)) (fun b => mulxn (Z.to_nat b) h) [0; 1; 2; 3] 0.

  Lemma tsum_bound nib : 0 <= tsum nib < W128.
  Proof. apply xs_bound; [unfold W128; lia|]. intros i _. apply mulxn_bound. exact Hh. Qed.

  Lemma psum_32 : psum 32 = gf128_mul y h.
  Proof.
    rewrite gf128_mul_xs. unfold psum. change (128 - 4 * 32) with 0. apply xs_ext. intros i Hi.
    split; [reflexivity|]. rewrite Z.sub_0_r. reflexivity.
  Qed.

  Lemma nibble_bit k b : 0 <= b < 4 ->
    Z.testbit (Z.land (Z.shiftr y (4 * k)) 15) (3 - b) = Z.testbit y (127 - (128 - 4 * (k + 1) + b)).
  Proof.
    intros Hb. rewrite Z.land_spec, Z.shiftr_spec by lia. change 15 with (Z.ones 4).
    rewrite Z.ones_spec_low by lia. rewrite andb_true_r. f_equal. lia.
  Qed.

  Lemma psum_step k : 0 <= k ->
    psum (k + 1) = Z.lxor (mulxn 4 (psum k)) (tsum (Z.land (Z.shiftr y (4 * k)) 15)).
  Proof.
    intros Hk. unfold psum at 1. set (a := 128 - 4 * (k + 1)).
    rewrite (zrange_split a (a + 4) 128) by lia. rewrite xs_app. rewrite Z.lxor_comm. f_equal.
    - (* the old terms, one nibble further *)
      unfold psum. rewrite xs_mulxn. replace (128 - 4 * k) with (a + 4) by lia.
      apply xs_ext. intros i Hi. apply in_zrange in Hi. split; [reflexivity|].
      unfold mulxn. rewrite <- iter_add. f_equal. lia.
    - (* the four new terms *)
      unfold tsum.
      replace (zrange a (a + 4)) with (map (fun b => a + b) [0; 1; 2; 3]).
      2:{ unfold zrange. replace (a + 4 - a) with 4 by lia. reflexivity. }
      rewrite xs_map. apply xs_ext. intros b Hb.
      assert (0 <= b < 4) by (cbn [In] in Hb; lia).
      split.
      + unfold c. symmetry. apply nibble_bit. lia.
      + f_equal. lia.
  Qed.
End Nibbles.

Definition table_ok (T : list Z) (h : Z) : Prop :=
  List.length T = 16%nat /\ forall j, 0 <= j < 16 -> nthZ T j = tsum h j.

(* after k rounds the accumulator is psum k and the 4k low bits of y are gone *)
Lemma gcm_mul_table (O : BlockOracle) g h : table_ok (gcm__productTable g) h -> forall y0, 0 <= y0 < W128 ->
  gcm_mul O g y0 = Ok (gf128_mul y0 h).
Proof.
  intros [LT PT] y0 Hy. unfold gcm_mul. cbv zeta. fold RT.
  change (0, y0) with (psum y0 h 0, Z.shiftr y0 (4 * 0)).
  rewrite (foldM_steps _ (fun k => (psum y0 h k, Z.shiftr y0 (4 * k))) _ 0).
  - rewrite bind_of_Ok. change (0 + zlen (py_range 0 128 4)) with 32. change (4 * 32) with 128.
    rewrite Z.shiftr_div_pow2, Z.div_small, psum_32 by (exact Hy || lia). reflexivity.
  - change (zlen (py_range 0 128 4)) with 32. intros k _ Hk. cbv beta iota zeta.
    rewrite py_index_ok, bind_of_Ok, py_index_ok, bind_of_Ok by (unfold zlen; rewrite ?LT; apply land15).
    rewrite red4, PT, <- psum_step, Z.shiftr_shiftr by (apply land15 || lia).
    do 3 f_equal. lia.
Qed.

Lemma gcmShift_mulx O x : gcm_gcmShift O x = mulx x.
Proof.
  unfold gcm_gcmShift, mulx. cbv zeta.
  assert (E : z_true (Z.land x 1) = Z.testbit x 0).
  { unfold z_true. change 1 with (Z.ones 1). rewrite Z.land_ones by lia. change (2 ^ 1) with 2.
    pose proof (Z.bit0_mod x) as B. destruct (Z.testbit x 0); cbn [Z.b2z] in B; rewrite <- B; reflexivity. }
  rewrite E. destruct (Z.testbit x 0); reflexivity.
Qed.

(* Entry reverseBits(i) is made from entry reverseBits(i/2) by a shift (i even) or from entry reverseBits(i-1) by
   adding H: the sixteen stores are evaluated with shift, add and H left symbolic.  Each entry is then the product of
   its index, read as a 4-bit polynomial, with H: sixteen cases, each an identity between XORs of h, x h, x^2 h, x^3 h
   once multiplication by x is distributed. *)
Lemma gcm_init_table O key impl raw g : gcm_init O key impl raw = Ok g ->
  table_ok (gcm__productTable g) (bytesToNumber (bo_enc O key (repeat 0 16))).
Proof.
  unfold gcm_init.
  destruct (if zlen key =? 16 then Ok tt else if zlen key =? 32 then Ok tt else Err AssertionError) as [u|e];
    cbn [bind]; [|discriminate].
  destruct (ctr_init O key 6 (py_repeat [0] 16)) as [ctr|e]; cbn [bind]; [|discriminate].
  change (py_zeros 16) with (Ok (repeat 0 16)). cbn [bind]. cbv zeta.
  generalize (gcmShift_mulx O), (eq_refl : gcm_gcmAdd O = Z.lxor).
  generalize (gcm_gcmShift O), (gcm_gcmAdd O), (bytesToNumber (bo_enc O key (repeat 0 16))).
  intros sh ad h Hsh Had G. vm_compute in G. injection G as <-. subst ad. cbn [gcm__productTable].
  split; [reflexivity|]. intros j Hj. apply in_zrange in Hj. vm_compute in Hj.
  repeat (destruct Hj as [<-|Hj]); [..|destruct Hj];
    cbv -[mulx Z.lxor]; rewrite ?Hsh, ?mulx_lxor;
    apply Z.bits_inj'; intros n _; rewrite ?Z.lxor_spec, ?Z.bits_0;
    destruct (Z.testbit h n), (Z.testbit (mulx h) n), (Z.testbit (mulx (mulx h)) n), (Z.testbit (mulx (mulx (mulx h))) n);
    reflexivity.
Qed.
