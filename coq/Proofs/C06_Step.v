(* C06: one event of the automaton, for every gate table.  [step_t] is split into the answer of
   [getmsg] and what the coroutine does with it ([step_res]); the state-wise theorems follow from
   what [getmsg] answers on a class of records, and need the table at most through one named
   condition that Proofs/C06_Incl.v evaluates.  The last part lists, state by state, the events
   that can keep the automaton alive: the inclusion check need step no others. *)
From Coq Require Import ZArith List Bool String.
From TV Require Import Model.C06_GateTypes Model.C06_HsOrder Spec.C06_HsGrammar Model.C06_Check
                       Proofs.C06_Sound.
Import ListNotations.

Definition stay (p : pos) : pos := match p with P_Done => P_Post | _ => p end.

(* early_data_ok once a record has been processed *)
Definition ed_after (c : cfg) (s : st) (e : sym) : bool :=
  if is_buf (snd e) then ed s
  else if (v13_at c (pc s) && match snd e with PCcs _ => true | _ => false end)%bool then ed s
  else false.

Definition step_res (c : cfg) (s : st) (e : sym) (r : gres) : st * option Z :=
  let p := pc s in
  let buf' := buf_after (buf s) (snd e) in
  let bep' := if is_hs_record (snd e) then fst e else bep s in
  let ed' := ed_after c s e in
  match r with
  | GSkip w => (mk_st (stay p) buf' (gotc s) bep' ed', w)
  | GSkipU => (mk_st (stay p) (buf s) (gotc s) (bep s) (ed s), None)
  | GAbort rs => (mk_st (P_Abort rs) (buf s) (gotc s) (bep s) (ed s), None)
  | GDeliver d =>
      let '(p', gc') := flow c p (gotc s) (match buf' with BEmpty => false | _ => true end) d in
      let ed'' := match p, d with
                  | S_CH, DHs CH => (c_v13 c && c_early c)%bool
                  | _, _ => ed'
                  end in
      (mk_st p' buf' gc' bep' ed'', None)
  end.

Definition answer (t : gtab) (c : cfg) (s : st) (e : sym) : gres :=
  getmsg (ctx_at c (pc s)) (tab_get t (pc s)) (pend s) (ed s) e.

Lemma step_t_live t c s e :
  is_abort s = false ->
  step_t t c s e =
  if wf_event s e then step_res c s e (answer t c s e)
  else (mk_st (P_Abort R_any) (buf s) (gotc s) (bep s) (ed s), None).
Proof.
  unfold step_t, step_res, ed_after, answer, is_abort.
  destruct (pc s), (wf_event s e); try reflexivity; discriminate.
Qed.

Lemma step_t_aborted t c s e : is_abort s = true -> step_t t c s e = (s, None).
Proof. unfold step_t, is_abort. destruct (pc s); try discriminate. reflexivity. Qed.

Lemma handshaking_live s : handshaking s = true -> is_abort s = false.
Proof. unfold handshaking, is_abort. destruct (pc s); congruence. Qed.

Lemma is_post_live s : is_post s = true -> is_abort s = false.
Proof. unfold is_post, is_abort. destruct (pc s); congruence. Qed.

Lemma dead_is_post_or_abort s : dead s = post_or_abort s.
Proof. reflexivity. Qed.

Lemma epoch_eqb_refl e : epoch_eqb e e = true.
Proof. destruct e; reflexivity. Qed.

Lemma tab_get_gate_tab G c p : tab_get (gate_tab G c) p = gate_at G c p.
Proof. destruct p as [| | | | | | | | | | | | | | | | | | | | | | | | | |r]; try destruct r; reflexivity. Qed.

Ltac case_ifs := repeat match goal with |- context [if ?b then _ else _] => destruct b end.

(* the record is refused, or dropped unread inside the early-data window *)
Definition refused (edw : bool) (r : gres) : bool :=
  match r with GAbort _ => true | GSkipU => edw | _ => false end.

Lemma getmsg_hs_cases x g t a :
  getmsg_hs x g t a = GSkip (Some 100%Z) \/ getmsg_hs x g t a = GAbort R_unexpected \/
  getmsg_hs x g t a = GDeliver (DHs t).
Proof. unfold getmsg_hs. destruct g as [cts hts]. case_ifs; auto. Qed.

Lemma getmsg_hs_delivers x g t a d : getmsg_hs x g t a = GDeliver d -> d = DHs t.
Proof.
  destruct (getmsg_hs_cases x g t a) as [-> | [-> | ->]]; intros H; [discriminate H|discriminate H|].
  injection H as <-. reflexivity.
Qed.

Lemma getmsg_hs_not_dropped x g t a : getmsg_hs x g t a <> GSkipU.
Proof. destruct (getmsg_hs_cases x g t a) as [-> | [-> | ->]]; discriminate. Qed.

(* getmsg in the order of RecordLayer.recvRecord and _getMsg: application data that arrives
   before there are read keys is dropped inside the early-data window; a record that does not
   open under the read keys, and is not a TLS 1.3 plaintext ChangeCipherSpec, gets the answer
   [unopened]; the others, and the bytes already in the defragmenter, reach the tests of
   _getMsg ([opened]). *)
Definition opens (x : gctx) (ep : epoch) (p : payload) : bool :=
  is_buf p || epoch_eqb ep (x_rd x) ||
  (x_v13 x && epoch_eqb ep E0 && match p with PCcs _ => true | _ => false end).

Definition unopened (x : gctx) (edw : bool) (ep : epoch) (p : payload) : gres :=
  if x_v13 x && epoch_eqb ep E0 && negb (epoch_eqb (x_rd x) E0)
     && match p with PAlert _ => true | _ => false end then GAbort R_any
  else if edw then GSkipU
  else GAbort (match x_rd x with E0 => R_any | _ => R_badmac end).

Definition opened (x : gctx) (g : gate) (pd : bool) (ep : epoch) (p : payload) : gres :=
  let '(cts, hts) := g in
  match p with
  | PFrag | PBufFrag => GSkip None
  | PH t a | PBufH t a => getmsg_hs x g t a
  | PCcs ok =>
      if x_v13 x && negb (epoch_eqb ep E0) then GAbort R_unexpected
      else if x_v13 x && pd then GAbort R_unexpected
      else if x_v13 x && zin 22 cts && x_mb x then (if ok then GSkip None else GAbort R_unexpected)
      else if negb (zin 20 cts) then GAbort R_unexpected
      else GDeliver (DCcs ok)
  | PAlert k =>
      if x_v13 x && pd then GAbort R_unexpected
      else if negb (zin 21 cts) then GAbort R_remote
      else GDeliver (DAlert k)
  | PHb =>
      if x_v13 x && pd then GAbort R_unexpected
      else if negb (zin 24 cts) then (if x_hb x then GSkip None else GAbort R_unexpected)
      else GAbort R_any
  | PApp e =>
      if x_v13 x && pd then GAbort R_unexpected
      else if negb (zin 23 cts) then GAbort R_unexpected
      else if e then GSkip None
      else GDeliver DApp
  end.

Lemma getmsg_cases x g pd edw ep p :
  getmsg x g pd edw (ep, p) =
  if edw && epoch_eqb (x_rd x) E0 && match p with PApp _ => true | _ => false end then GSkipU
  else if negb (opens x ep p) then unopened x edw ep p
  else opened x g pd ep p.
Proof. destruct g as [cts hts], p; unfold getmsg, opens, unopened; rewrite ?andb_false_r; reflexivity. Qed.

Lemma unopened_refused x edw ep p : refused edw (unopened x edw ep p) = true.
Proof. unfold unopened. destruct (_ && _ && _ && _); [reflexivity|]. destruct edw; reflexivity. Qed.

Lemma getmsg_refused x g pd edw ep p :
  (opens x ep p = true -> refused edw (opened x g pd ep p) = true) ->
  refused edw (getmsg x g pd edw (ep, p)) = true.
Proof.
  intros Ho. rewrite getmsg_cases.
  destruct edw; cbn [andb]; [destruct (epoch_eqb (x_rd x) E0 && _); [reflexivity|]|];
    (destruct (opens x ep p); [exact (Ho eq_refl)|apply unopened_refused]).
Qed.

Lemma getmsg_undec x g pd edw ep p :
  is_buf p = false -> epoch_eqb ep (x_rd x) = false ->
  (x_v13 x && epoch_eqb ep E0 && match p with PCcs _ => true | _ => false end)%bool = false ->
  refused edw (getmsg x g pd edw (ep, p)) = true.
Proof.
  intros Hb He Hp. apply getmsg_refused. unfold opens. rewrite Hb, He, Hp. discriminate.
Qed.

Lemma getmsg_opens x g pd edw ep t a :
  epoch_eqb ep (x_rd x) = true -> getmsg x g pd edw (ep, PH t a) = getmsg_hs x g t a.
Proof.
  intros He. rewrite getmsg_cases. unfold opens. rewrite He, !andb_false_r. destruct g. reflexivity.
Qed.

Lemma getmsg_app x cts hts pd edw ep b :
  zin 23 cts = false -> refused edw (getmsg x (cts, hts) pd edw (ep, PApp b)) = true.
Proof.
  intros H. apply getmsg_refused. intros _. cbn [opened]. rewrite H.
  destruct (x_v13 x && pd); reflexivity.
Qed.

Lemma getmsg_partial13 x g edw ep p :
  x_v13 x = true -> is_buf p = false -> is_hs_record p = false ->
  refused edw (getmsg x g true edw (ep, p)) = true.
Proof.
  intros Hv Hb Hh. apply getmsg_refused. intros _. destruct g as [cts hts].
  destruct p as [t a|t a| | |ok|k|b|]; try discriminate Hb; try discriminate Hh;
    cbn [opened]; rewrite Hv; cbn [andb]; [destruct (negb (epoch_eqb ep E0))|..]; reflexivity.
Qed.

Lemma opened_not_dropped x g pd ep p : opened x g pd ep p <> GSkipU.
Proof.
  destruct g as [cts hts], p; cbn [opened];
    [apply getmsg_hs_not_dropped|apply getmsg_hs_not_dropped|case_ifs; discriminate..].
Qed.

Lemma opened_delivers_hs x g pd ep p t :
  opened x g pd ep p = GDeliver (DHs t) -> exists a, p = PH t a \/ p = PBufH t a.
Proof.
  destruct g as [cts hts], p as [t' a|t' a| | |ok|k|b|]; cbn [opened];
    [| |case_ifs; discriminate..];
    intros H; apply getmsg_hs_delivers in H; injection H as <-; exists a; auto.
Qed.

Lemma getmsg_dropped x g pd edw ep p :
  getmsg x g pd edw (ep, p) = GSkipU ->
  (negb (is_buf p) && negb (epoch_eqb ep (x_rd x)) &&
   negb (x_v13 x && epoch_eqb ep E0 && match p with PCcs _ => true | _ => false end))
  || (epoch_eqb (x_rd x) E0 && match p with PApp _ => true | _ => false end) = true.
Proof.
  rewrite getmsg_cases, <- !negb_orb. fold (opens x ep p). intros H.
  destruct (opens x ep p); [|reflexivity]. cbn [negb orb] in *.
  (* it opens: dropped as early application data, since _getMsg drops nothing *)
  destruct edw; cbn [andb] in H; [destruct (epoch_eqb (x_rd x) E0 && _); [reflexivity|]|];
    exfalso; exact (opened_not_dropped _ _ _ _ _ H).
Qed.

Lemma getmsg_delivers_hs x g pd edw ep p t :
  getmsg x g pd edw (ep, p) = GDeliver (DHs t) -> exists a, p = PH t a \/ p = PBufH t a.
Proof.
  rewrite getmsg_cases. destruct (_ && _ && _); [discriminate|].
  destruct (opens x ep p); cbn [negb]; [apply opened_delivers_hs|].
  intros H. pose proof (unopened_refused x edw ep p) as R. rewrite H in R. discriminate R.
Qed.

(* the early-data window is open after an event only if it was open before and something kept
   it open ([kept]: the event was dropped, buffered bytes or a ChangeCipherSpec), or the event is
   the first ClientHello ([hello]) of a configuration that offered early data *)
Inductive window_open (c : cfg) (s : st) (kept hello : Prop) : Prop :=
| window_kept : ed s = true -> kept -> window_open c s kept hello
| window_first_hello :
    c_early c = true -> c_v13 c = true -> pc s = S_CH -> hello -> window_open c s kept hello.

Lemma step_res_ed_why c s e r :
  ed (fst (step_res c s e r)) = true -> is_abort (fst (step_res c s e r)) = false ->
  window_open c s (r = GSkipU \/ is_buf (snd e) = true \/
                   match snd e with PCcs _ => true | _ => false end = true)
              (r = GDeliver (DHs CH)).
Proof.
  assert (Hed' : ed_after c s e = true ->
                 window_open c s (r = GSkipU \/ is_buf (snd e) = true \/
                                  match snd e with PCcs _ => true | _ => false end = true)
                             (r = GDeliver (DHs CH))).
  { unfold ed_after. intros H. destruct (is_buf (snd e)).
    - apply window_kept; [exact H|tauto].
    - destruct (v13_at c (pc s)); [|discriminate H].
      destruct (match snd e with PCcs _ => true | _ => false end); [|discriminate H].
      apply window_kept; [exact H|tauto]. }
  unfold step_res. destruct r as [w| |rs|d]; cbn [fst ed is_abort pc].
  - intros H _. exact (Hed' H).
  - intros H _. apply window_kept; [exact H|left; reflexivity].
  - discriminate.
  - destruct (flow c (pc s) (gotc s) _ d) as [p' gc']. cbn [fst ed].
    destruct (pc s) eqn:Hpc; auto. destruct d as [t| | |]; auto. destruct t; auto.
    intros H _. apply andb_prop in H. apply window_first_hello; tauto.
Qed.

Section AnyTable.
  Variables (t : gtab) (c : cfg).

  Theorem post_closed_t s e : is_post s = true -> post_or_abort (fst (step_t t c s e)) = true.
  Proof.
    intros Hp. rewrite step_t_live by (apply is_post_live; exact Hp).
    destruct (wf_event s e); [|reflexivity].
    unfold is_post, step_res in *. destruct (pc s); try discriminate Hp;
      (destruct (answer t c s e) as [w| |rs|[h| | |]]; [| | |destruct h| | |]; reflexivity).
  Qed.

  Lemma step_dead s e : dead s = true -> dead (fst (step_t t c s e)) = true.
  Proof.
    intros Hd. destruct (is_abort s) eqn:Ha.
    - rewrite step_t_aborted by exact Ha. exact Hd.
    - rewrite dead_is_post_or_abort. apply post_closed_t.
      unfold dead, is_abort, is_post in *. destruct (pc s); congruence.
  Qed.

  Lemma step_t_refused s e :
    handshaking s = true -> refused (ed s) (answer t c s e) = true ->
    let s' := fst (step_t t c s e) in is_abort s' = true \/ (ed s = true /\ s' = s).
  Proof.
    intros Hh Hr. cbv zeta. rewrite step_t_live by (apply handshaking_live; exact Hh).
    destruct (wf_event s e); [|left; reflexivity].
    destruct (answer t c s e) as [w| |rs|d]; try discriminate Hr; [right|left; reflexivity].
    split; [exact Hr|]. destruct s as [p b g be d0]. unfold handshaking in Hh. cbn in *.
    destruct p; try discriminate Hh; reflexivity.
  Qed.

  Theorem interleave_t s ep p :
    handshaking s = true -> v13_at c (pc s) = true -> buf s = BPartial -> In p non_hs_payloads ->
    let s' := fst (step_t t c s (ep, p)) in is_abort s' = true \/ (ed s = true /\ s' = s).
  Proof.
    intros Hh Hv Hb Hp. apply step_t_refused; [exact Hh|].
    unfold answer, pend. rewrite Hb.
    apply getmsg_partial13; [exact Hv| |];
      repeat destruct Hp as [<-|Hp]; try reflexivity; destruct Hp.
  Qed.

  (* provided the gate of the position does not expect application data (for the table of a
     configuration: gate_at_hs below) *)
  Theorem noapp_t s ep b :
    handshaking s = true -> zin 23 (fst (tab_get t (pc s))) = false ->
    let s' := fst (step_t t c s (ep, PApp b)) in is_abort s' = true \/ (ed s = true /\ s' = s).
  Proof.
    intros Hh Hg. apply step_t_refused; [exact Hh|].
    unfold answer. destruct (tab_get t (pc s)) as [cts hts]. apply getmsg_app. exact Hg.
  Qed.

  (* The early-data window.  Outside it a record that does not open aborts; without read keys
     application data counts as such a record, whence the condition on the gate. *)
  Theorem undec_aborts_t s e :
    handshaking s = true -> zin 23 (fst (tab_get t (pc s))) = false ->
    undec_sym c s e = true -> ed s = false -> is_abort (fst (step_t t c s e)) = true.
  Proof.
    intros Hh Hg Hu He.
    assert (H : is_abort (fst (step_t t c s e)) = true \/
                (ed s = true /\ fst (step_t t c s e) = s)).
    { destruct e as [ep p]. unfold undec_sym in Hu. cbn [fst snd] in Hu.
      apply orb_true_iff in Hu. destruct Hu as [Hu|Hu].
      - apply andb_prop in Hu. destruct Hu as [Hu H3]. apply andb_prop in Hu. destruct Hu as [H1 H2].
        apply negb_true_iff in H1, H2, H3.
        apply step_t_refused; [exact Hh|]. apply getmsg_undec; assumption.
      - apply andb_prop in Hu. destruct p; try discriminate (proj2 Hu).
        apply noapp_t; assumption. }
    destruct H as [H|[H _]]; [exact H|congruence].
  Qed.

  Theorem window_open_t s e :
    handshaking s = true ->
    let s' := fst (step_t t c s e) in
    ed s' = true -> is_abort s' = false ->
    window_open c s (undec_sym c s e = true \/ is_buf (snd e) = true \/
                     match snd e with PCcs _ => true | _ => false end = true)
                (exists a, snd e = PH CH a \/ snd e = PBufH CH a).
  Proof.
    intros Hh. cbv zeta. rewrite step_t_live by (apply handshaking_live; exact Hh).
    destruct (wf_event s e); [|intros _ H; discriminate H].
    intros He Ha. destruct e as [ep p].
    destruct (step_res_ed_why c s _ _ He Ha) as [Hed [Hr|Hp]|Hc Hv Hs Hr].
    - apply window_kept; [exact Hed|left]. exact (getmsg_dropped _ _ _ _ _ _ Hr).
    - apply window_kept; [exact Hed|right; exact Hp].
    - apply window_first_hello; try assumption. exact (getmsg_delivers_hs _ _ _ _ _ _ _ Hr).
  Qed.

  Theorem second_hello_t s a :
    pc s = S13_CH2 ->
    let s' := fst (step_t t c s (E0, PH CH a)) in ed s' = false \/ is_abort s' = true.
  Proof.
    intros Hp. cbv zeta. rewrite step_t_live by (unfold is_abort; rewrite Hp; reflexivity).
    destruct (wf_event s _); [|right; reflexivity].
    unfold answer, step_res, ed_after. rewrite Hp, getmsg_opens by reflexivity.
    cbn [snd is_buf v13_at andb].
    destruct (getmsg_hs_cases (ctx_at c S13_CH2) (tab_get t S13_CH2) CH a) as [-> | [-> | ->]].
    - left. reflexivity.
    - right. reflexivity.
    - destruct (flow c S13_CH2 _ _ _). left. reflexivity.
  Qed.

  (* the gate of the post-handshake positions refuses the renegotiation trigger of the role:
     below TLS 1.3 it expects no handshake record at all (the trigger is then answered by a
     warning), in TLS 1.3 it expects handshake records but not this message *)
  Definition reneg_gate_ok (g : gate) : bool :=
    if c_v13 c then zin 22 (fst g) && negb (zin (hs_code (reneg_msg c)) (snd g))
    else negb (zin 22 (fst g)).

  Lemma getmsg_hs_reneg x g a :
    x_v13 x = c_v13 c -> x_client x = match c_role c with Client => true | Server => false end ->
    x_sess x = true -> reneg_gate_ok g = true ->
    getmsg_hs x g (reneg_msg c) a = if c_v13 c then GAbort R_unexpected else GSkip (Some 100%Z).
  Proof.
    intros Hv Hc Hs Hg. unfold getmsg_hs, reneg_gate_ok in *. destruct g as [cts hts].
    cbn [fst snd] in Hg. rewrite Hc, Hs. destruct (c_v13 c).
    - apply andb_prop in Hg. destruct Hg as [H1 H2]. rewrite H1, H2. reflexivity.
    - rewrite Hg. unfold reneg_msg. destruct (c_role c); reflexivity.
  Qed.

  Theorem reneg_t s a :
    is_post s = true -> buf s = BEmpty -> reneg_gate_ok (tab_get t (pc s)) = true ->
    let r := step_t t c s (rd_at c (pc s), PH (reneg_msg c) a) in
    if c_v13 c
    then pc (fst r) = P_Abort R_unexpected /\ snd r = None
    else pc (fst r) = P_Post /\ gotc (fst r) = gotc s /\ snd r = Some 100%Z.
  Proof.
    intros Hp Hb Hg. cbv zeta. rewrite step_t_live by (apply is_post_live; exact Hp).
    unfold wf_event, answer, pend. rewrite Hb. cbn [snd is_buf negb].
    rewrite getmsg_opens by apply epoch_eqb_refl.
    assert (Hpc : pc s = P_Done \/ pc s = P_Post).
    { unfold is_post in Hp. destruct (pc s); try discriminate Hp; auto. }
    rewrite (getmsg_hs_reneg _ _ a) by (exact Hg || (destruct Hpc as [-> | ->]; reflexivity)).
    unfold step_res. destruct (c_v13 c); cbn [fst snd pc gotc]; [split; reflexivity|].
    destruct Hpc as [-> | ->]; repeat split.
  Qed.
End AnyTable.

Lemma stp_of_dead G c q a : dead q = true -> dead (stp_of G c q a) = true.
Proof. unfold stp_of. apply step_dead. Qed.

(* some _getMsg call of method fn expects content type ct *)
Definition fn_expects (G : list gate_row) (ct : Z) (fn : string) : bool :=
  existsb (fun r => String.eqb (g_fn r) fn && existsb (fun a => zin ct (snd (fst a))) (g_alts r)) G.

Lemma gate_of_expects G ct fn ord alt :
  zin ct (fst (gate_of G fn ord alt)) = true -> fn_expects G ct fn = true.
Proof.
  unfold fn_expects. induction G as [|r G IH]; cbn [gate_of existsb]; [discriminate|].
  destruct (String.eqb (g_fn r) fn); cbn [andb orb]; [|exact IH].
  destruct (Z.eqb (g_ord r) ord); [|intros H; rewrite (IH H); apply orb_true_r].
  destruct (nth_error (g_alts r) alt) as [[[cond cts] hts]|] eqn:En; [|discriminate].
  intros H. apply orb_true_iff. left. apply existsb_exists.
  exists (cond, cts, hts). split; [exact (nth_error_In _ _ En)|exact H].
Qed.

(* the handshake positions look up rows of these methods only *)
Definition hs_methods : list string :=
  ["_handshakeClientAsyncHelper"; "_handshakeServerAsyncHelper"; "_getFinished"]%string.
Definition hs_expects (G : list gate_row) (ct : Z) : bool := existsb (fn_expects G ct) hs_methods.

(* S_Cert and S_CKE choose the row, the two client-certificate positions the alternative, by
   the configuration *)
Lemma gate_at_hs_method G c s :
  handshaking s = true ->
  exists fn ord alt, In fn hs_methods /\ gate_at G c (pc s) = gate_of G fn ord alt.
Proof.
  unfold handshaking. intros Hh. destruct (pc s); try discriminate Hh; cbn [gate_at];
    repeat match goal with |- context [match ?x with _ => _ end] => destruct x end;
    eexists _, _, _; (split; [|reflexivity]); in_list.
Qed.

Lemma gate_at_hs G c s ct :
  handshaking s = true -> hs_expects G ct = false -> zin ct (fst (gate_at G c (pc s))) = false.
Proof.
  intros Hh Hn. destruct (gate_at_hs_method G c s Hh) as (fn & ord & alt & Hfn & ->).
  destruct (zin ct _) eqn:H; [|reflexivity]. apply gate_of_expects in H.
  rewrite <- Hn. symmetry. apply existsb_exists. exists fn. split; assumption.
Qed.

(* Most of Sigma kills the automaton at a given state for a reason that can be read off the
   state: the event does not fit the buffer, the record does not open outside the early-data
   window, or the handshake message is not among those the gate expects.  [may_live] is false
   of such events (and of every event after completion); [live_events] lists the others. *)
Definition hs_ok (g : gate) (t : hst) : bool := negb (zin 22 (fst g)) || zin (hs_code t) (snd g).

Definition may_live (g : gate) (c : cfg) (s : st) (e : sym) : bool :=
  negb (is_post s) && wf_event s e &&
  (is_buf (snd e) || (ed s || epoch_eqb (fst e) (rd_at c (pc s))) ||
   (v13_at c (pc s) && epoch_eqb (fst e) E0 && match snd e with PCcs _ => true | _ => false end)) &&
  match snd e with
  | PBufH t _ => hs_ok g t
  | PH t _ => ed s || hs_ok g t
  | _ => true
  end.

Definition rec_payloads : list payload :=
  [PFrag; PCcs true; PCcs false; PAlert AWarnNoCert; PAlert AWarn; PAlert AClose; PAlert AFatal;
   PApp true; PApp false; PHb].

Definition live_records (g : gate) (c : cfg) (s : st) : list sym :=
  flat_map (fun ep =>
    if ed s || epoch_eqb ep (rd_at c (pc s))
    then map (fun p => (ep, p))
             (flat_map (fun t => if ed s || hs_ok g t then [PH t true; PH t false] else [])
                       all_hst ++ rec_payloads)
    else if v13_at c (pc s) && epoch_eqb ep E0 then [(ep, PCcs true); (ep, PCcs false)]
    else []) all_epoch.

Definition live_events (g : gate) (c : cfg) (s : st) : list sym :=
  if is_post s then [] else
  match buf s with
  | BUnknown =>
      map (fun p => (bep s, p))
          (PBufFrag :: flat_map (fun t => if hs_ok g t then [PBufH t true; PBufH t false] else [])
                                all_hst)
  | _ => live_records g c s
  end.

Lemma may_live_listed g c s e : may_live g c s e = true -> In e (live_events g c s).
Proof.
  destruct e as [ep p]. unfold may_live, live_events, wf_event. cbn [fst snd]. intros H.
  apply andb_prop in H. destruct H as [H H4]. apply andb_prop in H. destruct H as [H H3].
  apply andb_prop in H. destruct H as [H1 H2]. apply negb_true_iff in H1. rewrite H1.
  assert (Hrec : negb (is_buf p) = true -> In (ep, p) (live_records g c s)).
  { intros Hb. unfold live_records. apply negb_true_iff in Hb. rewrite Hb in H3. cbn [orb] in H3.
    apply in_flat_map. exists ep. split; [apply all_epoch_complete|].
    destruct (ed s || epoch_eqb ep (rd_at c (pc s))).
    - apply in_map. apply in_or_app.
      destruct p as [t a|t a| | |ok|k|b|]; try discriminate Hb.
      + left. apply in_flat_map. exists t. split; [apply all_hst_complete|rewrite H4; destruct a; in_list].
      + right. in_list.
      + right. destruct ok; in_list.
      + right. destruct k; in_list.
      + right. destruct b; in_list.
      + right. in_list.
    - cbn [orb] in H3. apply andb_prop in H3. destruct H3 as [H3 Hc]. rewrite H3.
      destruct p as [| | | |ok| | |]; try discriminate Hc. destruct ok; in_list. }
  destruct (buf s); try exact (Hrec H2).
  apply andb_prop in H2. destruct H2 as [Hb He]. apply epoch_eqb_eq in He. subst ep.
  apply in_map. destruct p as [|t a| | | | | |]; try discriminate Hb; [right|left; reflexivity].
  apply in_flat_map. exists t. split; [apply all_hst_complete|rewrite H4; destruct a; in_list].
Qed.

Lemma getmsg_hs_unexpected x cts hts t a :
  hs_ok (cts, hts) t = false -> getmsg_hs x (cts, hts) t a = GAbort R_unexpected.
Proof.
  intros H. apply orb_false_elim in H. destruct H as [H1 H2]. cbn [fst snd] in *.
  unfold getmsg_hs. rewrite H1, H2. reflexivity.
Qed.

Lemma step_res_aborts c s e r : refused false r = true -> dead (fst (step_res c s e r)) = true.
Proof. destruct r; try discriminate. reflexivity. Qed.

Lemma not_live_dead t c s e :
  may_live (tab_get t (pc s)) c s e = false -> dead (fst (step_t t c s e)) = true.
Proof.
  intros H. destruct (dead s) eqn:Hd; [apply step_dead; exact Hd|].
  destruct (is_post s) eqn:Hp; [rewrite dead_is_post_or_abort; exact (post_closed_t t c s e Hp)|].
  assert (Ha : is_abort s = false).
  { unfold dead, is_abort in *. destruct (pc s); congruence. }
  rewrite step_t_live by exact Ha. unfold may_live in H. rewrite Hp in H. cbn [negb andb] in H.
  destruct (wf_event s e); [|reflexivity]. cbn [andb] in H.
  apply step_res_aborts. unfold answer. destruct e as [ep p]. cbn [fst snd] in H.
  destruct (tab_get t (pc s)) as [cts hts].
  apply andb_false_iff in H. destruct H as [H|H].
  - apply orb_false_elim in H. destruct H as [H H4]. apply orb_false_elim in H. destruct H as [H1 H].
    apply orb_false_elim in H. destruct H as [H2 H3]. rewrite H2.
    apply getmsg_undec; assumption.
  - destruct p as [h a|h a| | | | | |]; try discriminate H.
    + apply orb_false_elim in H. destruct H as [H1 H2].
      rewrite H1. apply getmsg_refused. intros _. cbn [opened].
      rewrite getmsg_hs_unexpected by exact H2. reflexivity.
    + cbn [getmsg]. rewrite getmsg_hs_unexpected by exact H. reflexivity.
Qed.

Definition stp_t (t : gtab) (c : cfg) (s : st) (e : sym) : st := fst (step_t t c s e).
Definition live_t (t : gtab) (c : cfg) (s : st) : list sym := live_events (tab_get t (pc s)) c s.

Section Inclusion.
  Variables (t : gtab) (c : cfg).

  Lemma runs_is_run_from s w : runs (stp_t t c) s w = run_from t c s w.
  Proof. reflexivity. Qed.

  Lemma live_t_complete q a : In a (live_t t c q) \/ dead (stp_t t c q a) = true.
  Proof.
    destruct (may_live (tab_get t (pc q)) c q a) eqn:Hl;
      [left; apply may_live_listed; exact Hl|right; apply not_live_dead; exact Hl].
  Qed.

  Lemma check_live_sound_t X dX nulX eqX (pr : X -> re) x0 R w :
    (forall a x, pr (dX a x) = deriv a (pr x)) ->
    (forall x, nulX x = true -> nullable (pr x) = true) ->
    (forall x y, eqX x y = true -> re_eqb (pr x) (pr y) = true) ->
    check_live (stp_t t c) (live_t t c) X dX nulX eqX (init c) x0 R = true ->
    is_done (run_from t c (init c) w) = true -> matches (pr x0) w = true.
  Proof.
    intros Hd Hn He H Hw. rewrite <- runs_is_run_from in Hw.
    exact (check_live_sound (stp_t t c) (step_dead t c) (live_t t c) X dX nulX eqX pr Hd Hn He Sigma
             (fun q a _ => live_t_complete q a) (init c) x0 R H w (Sigma_Forall w) Hw).
  Qed.
End Inclusion.
