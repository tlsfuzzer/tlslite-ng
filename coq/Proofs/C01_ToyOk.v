(* The contracts of Spec/C01_Contracts.v are satisfiable: they hold of the toy primitives
   used by the byte-exact correspondence (stream cipher, AEAD, MAC) and of the identity
   "cipher" for every block size. *)
From Coq Require Import ZArith List Lia.
From TV Require Import Base.Prelude Base.PreludeFacts Toy.ToyMac Model.C01_RecordPipe Toy.C01_ToyCipher
  Spec.C01_Contracts Proofs.C01_Lists.
Import ListNotations.
Open Scope Z_scope.

Lemma tm_out_length fuel : forall h n, (Z.to_nat n < fuel)%nat -> zlen (tm_out fuel h n) = Z.max 0 n.
Proof.
  induction fuel as [|f IH]; intros h n Hf; [lia|]. cbn [tm_out].
  destruct (n <=? 0) eqn:E; [rewrite zlen_nil; lia|].
  rewrite zlen_app. unfold zlen at 1. rewrite map_length, firstn_length. cbn [length].
  destruct (Z_le_gt_dec n 4).
  - rewrite IH by lia. lia.
  - rewrite IH by lia. lia.
Qed.

Lemma toy2_mac_length key n msg : 0 <= n -> zlen (toy2_mac key n msg) = n.
Proof. intros H. unfold toy2_mac. rewrite tm_out_length by lia. lia. Qed.

Lemma ts_run_involutive x : forall h,
  snd (ts_run h (snd (ts_run h x))) = x /\ fst (ts_run h (snd (ts_run h x))) = fst (ts_run h x) /\
  length (snd (ts_run h x)) = length x.
Proof.
  induction x as [|b t IH]; intros h; cbn [ts_run fst snd]; [auto|].
  destruct (IH (ts_step h)) as [H1 [H2 H3]]. cbn [length]. rewrite H1, H2, H3.
  rewrite Z.lxor_assoc, Z.lxor_nilpotent, Z.lxor_0_r. auto.
Qed.

Lemma toy_stream_cipher_ok mk mds mbs : cipher_ok (toy_prim_stream mk mds mbs) eq 1.
Proof.
  intros s r x <- _. cbn [toy_prim_stream pr_enc pr_dec]. unfold ts_crypt. cbn [fst snd].
  destruct (ts_run_involutive x (nthZ s 0)) as [H1 [H2 H3]].
  split; [exact H1|]. split; [unfold zlen; rewrite H3; reflexivity|]. rewrite H2. reflexivity.
Qed.

Definition id_prim (mac : HMac) (seal : list Z -> list Z -> list Z -> list Z)
           (opn : list Z -> list Z -> list Z -> option (list Z)) : Prim unit :=
  {| pr_enc := fun s x => (s, x); pr_dec := fun s x => (s, x); pr_mac := mac; pr_seal := seal; pr_open := opn |}.

Lemma id_cipher_ok mac sl op bs : cipher_ok (id_prim mac sl op) eq bs.
Proof. intros s r x <- _. cbn. auto. Qed.

Lemma id_cipher_onto mac sl op bs : cipher_onto (id_prim mac sl op) eq bs.
Proof. intros s r x <- _. cbn. auto. Qed.

Lemma toy_mac_ok_id key n bs sl op : 0 <= n -> mac_ok (id_prim (toy_hmac key n bs) sl op).
Proof. intros H m. unfold ds. cbn. apply toy_mac_length. exact H. Qed.

Lemma toy_aead_ok key tl : 0 <= tl -> aead_ok (toy_prim_aead key tl) tl.
Proof.
  intros Htl n p a. cbn [toy_prim_aead pr_seal pr_open]. unfold ta_seal, ta_open.
  set (ct := snd (ts_run (ta_ks0 key n) p)).
  assert (Htag : zlen (ta_tag key tl n a ct) = tl) by (apply toy2_mac_length; exact Htl).
  assert (Hct : zlen ct = zlen p).
  { unfold zlen, ct. destruct (ts_run_involutive p (ta_ks0 key n)) as [_ [_ H]]. rewrite H. reflexivity. }
  rewrite zlen_app, Htag. replace (zlen ct + tl - tl) with (zlen ct) by lia.
  pose proof (zlen_nonneg ct).
  destruct (zlen ct <? 0) eqn:E; [lia|].
  rewrite ztake_app_exact, zdrop_app_exact by reflexivity. rewrite list_eqb_refl.
  split; [|lia]. f_equal. unfold ct. apply ts_run_involutive.
Qed.

Lemma id_aead_ok key tl mac : 0 <= tl -> aead_ok (id_prim mac (ta_seal key tl) (ta_open key tl)) tl.
Proof. intros H. exact (toy_aead_ok key tl H). Qed.

(* concrete configurations, at least one per protection path (two for TLS 1.2 AEAD); that they meet mode_ok is Props/C01.v *)
Definition ex_cfg (ver : Z * Z) (enc mac blk aead etm aes chacha : bool) (bs tag nl : Z) (fn fiv : list Z)
           (cb : option (Z -> Z -> Z -> Z)) : Cfg :=
  {| c_ver := ver; c_tls13 := ver_lt (3, 3) ver; c_has_enc := enc; c_has_mac := mac; c_block := blk;
     c_aead := aead; c_etm := etm; c_bs := bs; c_aes := aes; c_chacha := chacha; c_tag := tag;
     c_nonce_len := nl; c_fixed_nonce := fn; c_fixed_iv := fiv; c_send_limit := 16384;
     c_recv_limit := 16384; c_pad_cb := cb; c_plain_alert := false |}.

Definition ex_stream := ex_cfg (3, 1) true true false false false false false 0 0 0 [] [] None.
Definition ex_cbc := ex_cfg (3, 2) true true true false false false false 16 0 0 [] (repeat 7 16) None.
Definition ex_etm := ex_cfg (3, 3) true true true false true false false 16 0 0 [] (repeat 9 16) None.
Definition ex_gcm := ex_cfg (3, 3) true false false true false true false 16 16 12 [1; 2; 3; 4] [] None.
Definition ex_chacha := ex_cfg (3, 3) true false false true false false true 16 16 12 (repeat 5 12) [] None.
Definition ex_tls13 := ex_cfg (3, 4) true false false true false true false 16 16 12 (repeat 6 12) []
                              (Some (fun l _ m => Z.max 0 (Z.min m ((16 - l mod 16) mod 16)))).

Definition ex_mac := toy_hmac [1; 2; 3] 20 64.
Definition ex_prim_stream := toy_prim_stream [1; 2; 3] 20 64.
Definition ex_prim_id := id_prim ex_mac (ta_seal [4; 5] 16) (ta_open [4; 5] 16).

Lemma ex_limits_ok c : c_send_limit c = 16384 -> c_recv_limit c = 16384 -> limits_ok c.
Proof. intros H1 H2. unfold limits_ok. lia. Qed.

Lemma ex_legacy_ok {CS} (P : Prim CS) c : pr_mac P = ex_mac \/ pr_mac P = toy2_hmac [1; 2; 3] 20 64 ->
  ver_macable (c_ver c) = true ->
  c_tls13 c = false -> c_aead c = false -> c_has_mac c = true -> legacy_ok P c.
Proof.
  intros Hm Hv H13 Ha Hmc. unfold legacy_ok.
  split; [assumption|]. split; [assumption|]. split; [assumption|]. split; [assumption|]. split.
  - intros m. unfold ds. destruct Hm as [Hm|Hm]; rewrite Hm.
    + change (zlen (toy_mac [1; 2; 3] 20 m) = 20). apply toy_mac_length. lia.
    + change (zlen (toy2_mac [1; 2; 3] 20 m) = 20). apply toy2_mac_length. lia.
  - unfold ds. destruct Hm as [Hm|Hm]; rewrite Hm; cbn; lia.
Qed.

Lemma ex_block_ok c : c_block c = true -> c_bs c = 16 ->
  (ver_le (3, 2) (c_ver c) = true -> zlen (c_fixed_iv c) = 16) -> block_ok ex_prim_id eq c.
Proof.
  intros Hb Hbs Hiv. unfold block_ok. rewrite Hbs.
  split; [assumption|]. split; [lia|]. split; [apply id_cipher_ok|assumption].
Qed.
