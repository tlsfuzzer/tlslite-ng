(* The specification's verdict on ANY body of the sender's shape payload ++ tag' ++ pad' ++ [p]:
   what an honest sender builds is accepted, and a body of that shape with a wrong MAC field, a
   wrong padding byte or too long an SSLv3 padding is rejected, all follow from it. *)
From Coq Require Import ZArith List Bool Lia.
From TV Require Import Base.Prelude Base.PreludeFacts Spec.CbcCheck.
Import ListNotations.
Open Scope Z_scope.

Lemma forallb_zrange_window (f : Z -> bool) (pre win post : list Z) :
  forallb (fun i => f (nthZ (pre ++ win ++ post) i)) (zrange (zlen pre) (zlen pre + zlen win)) =
  forallb f win.
Proof.
  revert pre. induction win as [|x xs IH]; intros pre.
  - rewrite zrange_empty by (rewrite zlen_nil; lia). reflexivity.
  - pose proof (zlen_nonneg xs). rewrite zlen_cons, zrange_cons by lia.
    cbn [forallb]. f_equal.
    + rewrite nthZ_app_r, Z.sub_diag by lia. reflexivity.
    + specialize (IH (pre ++ [x])). rewrite <- app_assoc, zlen_app, zlen_cons, zlen_nil in IH.
      rewrite <- IH. f_equal. f_equal. lia.
Qed.

Lemma well_formed_fits (ver : Z * Z) (bs : Z) (mac : HMac) (seq : list Z) (ty : Z) (data : list Z) :
  well_formed ver bs mac seq ty data = true ->
  mac_ds mac + 1 <= zlen data /\ nthZ data (zlen data - 1) + 1 + mac_ds mac <= zlen data.
Proof.
  unfold well_formed. cbv zeta.
  destruct (Z.ltb_spec (zlen data) (mac_ds mac + 1)); [discriminate|].
  destruct (Z.ltb_spec (zlen data) (nthZ data (zlen data - 1) + 1 + mac_ds mac)); [discriminate|]. lia.
Qed.

Lemma wf_shape (ver : Z * Z) (bs : Z) (mac : HMac) (seq : list Z) (ty : Z)
      (payload tagx padx : list Z) (p : Z) :
  zlen tagx = mac_ds mac ->
  zlen padx = p ->
  well_formed ver bs mac seq ty (payload ++ tagx ++ padx ++ [p]) =
    (if is_ssl3 ver then p <=? bs else forallb (fun x => x =? p) padx)
    && list_eqb tagx (mac_fn mac (mac_acc mac ++ mac_header seq ty ver (zlen payload) ++ payload)).
Proof.
  intros Htag Hpad.
  pose proof (zlen_nonneg payload) as Hp0. pose proof (zlen_nonneg padx) as Hpb0.
  pose proof (zlen_nonneg tagx) as Ht0.
  set (data := payload ++ tagx ++ padx ++ [p]).
  assert (Hn : zlen data = zlen payload + mac_ds mac + p + 1).
  { unfold data. autorewrite with zlen. lia. }
  assert (Hlast : nthZ data (zlen data - 1) = p).
  { replace (zlen data - 1) with (zlen (payload ++ tagx ++ padx)) by (rewrite Hn; autorewrite with zlen; lia).
    unfold data. rewrite !app_assoc, nthZ_app_r, Z.sub_diag by lia. reflexivity. }
  unfold well_formed. cbv zeta. fold data. rewrite Hlast.
  destruct (Z.ltb_spec (zlen data) (mac_ds mac + 1)); [lia|].
  destruct (Z.ltb_spec (zlen data) (p + 1 + mac_ds mac)); [lia|].
  replace (zlen data - p - 1 - mac_ds mac) with (zlen payload) by lia.
  f_equal.
  - destruct (is_ssl3 ver); [reflexivity|].
    replace (zlen data - 1 - p) with (zlen (payload ++ tagx)) by (rewrite Hn, zlen_app; lia).
    replace (zlen data - 1) with (zlen (payload ++ tagx) + zlen padx) by (rewrite Hn, zlen_app; lia).
    unfold data. rewrite (app_assoc payload).
    apply (forallb_zrange_window (fun x => x =? p)).
  - unfold zlen at 1 3. rewrite !Nat2Z.id.
    unfold data. rewrite skipn_app_exact, firstn_app_exact.
    replace (Z.to_nat (mac_ds mac)) with (length tagx) by (unfold zlen in Htag; lia).
    rewrite firstn_app_exact. reflexivity.
Qed.
