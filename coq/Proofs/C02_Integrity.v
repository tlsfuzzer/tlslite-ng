(* C02: the authenticated input binds sequence number, content type and payload; under the
   ideal (collision-free) reading of the MAC / AEAD a record protected for another sequence
   number, or under another key, is rejected. *)
From Coq Require Import ZArith List Bool Lia.
From TV Require Import Base.Prelude Base.PreludeFacts Base.Bytes Spec.CbcCheck Model.C01_RecordPipe
  Model.C02_RecordAccept Spec.C02_Ideal Proofs.C01_Lists Proofs.C01_RoundTrip.
Import ListNotations.
Open Scope Z_scope.

Lemma two_bytes_inj a b : 0 <= a < 65536 -> 0 <= b < 65536 -> a / 256 = b / 256 -> a mod 256 = b mod 256 -> a = b.
Proof. intros Ha Hb H1 H2. rewrite (Z.div_mod a 256), (Z.div_mod b 256) by lia. lia. Qed.

Lemma mac_input_inj (c : Cfg) n1 ty1 d1 n2 ty2 d2 :
  0 <= n1 < 18446744073709551616 -> 0 <= n2 < 18446744073709551616 ->
  mac_input c n1 ty1 d1 = mac_input c n2 ty2 d2 -> n1 = n2 /\ ty1 = ty2 /\ d1 = d2.
Proof.
  intros Hn1 Hn2 H. unfold mac_input, mac_header in H. rewrite <- !app_assoc in H.
  apply app_inv_len in H; [|rewrite !be_length; reflexivity]. destruct H as [Hs H].
  apply be_inj in Hs; [|exact Hn1|exact Hn2].
  cbn [app] in H. injection H as Hty H.
  apply app_inv_head in H. cbn [app] in H. injection H as Ha Hb Hd.
  repeat split; auto.
Qed.

Section Mac.
Context {CS : Type}.

Lemma check_mac_binds (c : Cfg) (P : Prim CS) (r1 r1' r2 r2' : St CS) ty1 ty2 d p1 p2 :
  mac_injective_ideal P ->
  check_mac P c r1 ty1 d = ROk (r1', p1) -> check_mac P c r2 ty2 d = ROk (r2', p2) ->
  st_seq r1 = st_seq r2 /\ ty1 = ty2 /\ p1 = p2.
Proof.
  intros Hinj H1 H2.
  apply check_mac_inv in H1. destruct H1 as (Hpre1 & _ & Hd1 & Hp1). destruct Hpre1 as [Hr1 _].
  apply check_mac_inv in H2. destruct H2 as (Hpre2 & _ & Hd2 & Hp2). destruct Hpre2 as [Hr2 _].
  rewrite <- Hp1 in Hp2. subst p2. rewrite Hd1 in Hd2 at 1.
  apply app_inv_head, Hinj, app_inv_head in Hd2.
  apply (mac_input_inj c (st_seq r1) ty1 p1 (st_seq r2) ty2 p1) in Hd2; assumption.
Qed.

Lemma check_mac_cross (c1 c2 : Cfg) (P1 P2 : Prim CS) (r1 r1' r2 r2' : St CS) ty1 ty2 d p1 p2 :
  mac_disjoint_ideal P1 P2 -> ds P1 = ds P2 ->
  check_mac P1 c1 r1 ty1 d = ROk (r1', p1) -> check_mac P2 c2 r2 ty2 d = ROk (r2', p2) -> False.
Proof.
  intros Hdis Hds H1 H2.
  apply check_mac_inv in H1. destruct H1 as (_ & _ & Hd1 & Hp1).
  apply check_mac_inv in H2. destruct H2 as (_ & _ & Hd2 & Hp2).
  rewrite Hds, <- Hp2 in Hp1. subst p2. rewrite Hd1 in Hd2 at 1.
  apply app_inv_head in Hd2. exact (Hdis _ _ Hd2).
Qed.

Lemma etm_recv_mac (c : Cfg) (P : Prim CS) (r r' : St CS) ty body data :
  c_has_mac c = true -> mac_then_decrypt c P r ty body = ROk (r', data) ->
  exists s1 ct, check_mac P c r ty body = ROk (s1, ct).
Proof.
  intros Hm H. rewrite etm_recv in H by exact Hm. apply rbind_ok_inv in H. destruct H as [[s1 ct] [H _]]. eauto.
Qed.

Lemma etm_cross_key (c1 c2 : Cfg) (P1 P2 : Prim CS) (r1 r1' r2 r2' : St CS) ty1 ty2 body p1 p2 :
  c_has_mac c1 = true -> c_has_mac c2 = true -> mac_disjoint_ideal P1 P2 -> ds P1 = ds P2 ->
  mac_then_decrypt c1 P1 r1 ty1 body = ROk (r1', p1) ->
  mac_then_decrypt c2 P2 r2 ty2 body = ROk (r2', p2) -> False.
Proof.
  intros Hm1 Hm2 Hdis Hds H1 H2.
  destruct (etm_recv_mac c1 P1 _ _ _ _ _ Hm1 H1) as [s1 [ct1 A1]].
  destruct (etm_recv_mac c2 P2 _ _ _ _ _ Hm2 H2) as [s2 [ct2 A2]].
  exact (check_mac_cross c1 c2 P1 P2 _ _ _ _ _ _ _ _ _ Hdis Hds A1 A2).
Qed.
End Mac.

Section Aead.
Context {CS : Type}.

(* AEAD (TLS 1.2 and 1.3): what opened is a sealing under the nonce (TLS 1.3) or the additional data
   (TLS 1.2) of the receiver's sequence number *)
Lemma aead_accept_sealed (c : Cfg) (P : Prim CS) (r r' : St CS) hty hver body data :
  aead_tight P -> decrypt_and_unseal c P r (hty, hver, body) = ROk (r', data) ->
  0 <= st_seq r < 18446744073709551616 /\
  exists nonce aad, zdrop (if explicit_nonce c then 8 else 0) body = pr_seal P nonce data aad /\
    (if is_tls13_plus c then get_nonce c (be_bytes 8 (st_seq r)) = ROk nonce /\ hty = 23
     else exists n, aad = aad12 c (be_bytes 8 (st_seq r)) hty n).
Proof.
  intros Htight Hacc.
  destruct (unseal_inv P c _ _ _ _ _ _ Hacc) as [nonce [buf [aad [Hr _ Eo _ Hnb Haad]]]].
  apply Htight in Eo. split; [exact Hr|]. exists nonce, aad.
  destruct (nonce_recv_inv c _ _ _ _ Hnb) as [ch [H8 [Hno ->]]]. rewrite <- Eo. split.
  - unfold frame. destruct (explicit_nonce c); [apply zdrop_app_exact; symmetry; exact (H8 eq_refl)|reflexivity].
  - revert Haad. destruct (is_tls13_plus c) eqn:E13.
    + intros [H23 _]. split; [|exact H23]. unfold explicit_nonce in Hno. rewrite E13, andb_false_r in Hno. exact Hno.
    + intros [_ ->]. eauto.
Qed.

(* explicit_nonce c1 = explicit_nonce c2: both receivers drop the same prefix before they open *)
Lemma aead_cross_key (c1 c2 : Cfg) (P1 P2 : Prim CS) (r1 r1' r2 r2' : St CS) hty1 hver1 hty2 hver2 body p1 p2 :
  aead_tight P1 -> aead_tight P2 -> seal_disjoint_ideal P1 P2 -> explicit_nonce c1 = explicit_nonce c2 ->
  decrypt_and_unseal c1 P1 r1 (hty1, hver1, body) = ROk (r1', p1) ->
  decrypt_and_unseal c2 P2 r2 (hty2, hver2, body) = ROk (r2', p2) -> False.
Proof.
  intros Ht1 Ht2 Hdis Hex H1 H2.
  destruct (aead_accept_sealed c1 P1 r1 r1' hty1 hver1 body p1 Ht1 H1) as (_ & n1 & a1 & Hs1 & _).
  destruct (aead_accept_sealed c2 P2 r2 r2' hty2 hver2 body p2 Ht2 H2) as (_ & n2 & a2 & Hs2 & _).
  rewrite Hex, Hs2 in Hs1. exact (Hdis _ _ _ _ _ _ (eq_sym Hs1)).
Qed.
End Aead.

Section Integrity.
Context {CS : Type}.
Variable c : Cfg.

Lemma etm_binds_ideal (P : Prim CS) (r1 r1' r2 r2' : St CS) ty1 ty2 body p1 p2 :
  c_has_mac c = true -> mac_injective_ideal P ->
  mac_then_decrypt c P r1 ty1 body = ROk (r1', p1) ->
  mac_then_decrypt c P r2 ty2 body = ROk (r2', p2) ->
  st_seq r1 = st_seq r2 /\ ty1 = ty2.
Proof.
  intros Hm Hinj H1 H2.
  destruct (etm_recv_mac c P _ _ _ _ _ Hm H1) as [s1 [ct1 A1]].
  destruct (etm_recv_mac c P _ _ _ _ _ Hm H2) as [s2 [ct2 A2]].
  destruct (check_mac_binds c P _ _ _ _ _ _ _ _ _ Hinj A1 A2) as [A [B _]]. auto.
Qed.

Lemma etm_cross_key_ideal (P1 P2 : Prim CS) (r1 r1' r2 r2' : St CS) ty1 ty2 body p1 p2 :
  c_has_mac c = true -> mac_disjoint_ideal P1 P2 -> ds P1 = ds P2 ->
  mac_then_decrypt c P1 r1 ty1 body = ROk (r1', p1) ->
  mac_then_decrypt c P2 r2 ty2 body = ROk (r2', p2) -> False.
Proof. intros Hm. exact (etm_cross_key c c P1 P2 _ _ _ _ _ _ _ _ _ Hm Hm). Qed.

Lemma aad12_inj seq1 ty1 n1 seq2 ty2 n2 : zlen seq1 = 8 -> zlen seq2 = 8 ->
  aad12 c seq1 ty1 n1 = aad12 c seq2 ty2 n2 -> seq1 = seq2 /\ ty1 = ty2.
Proof.
  intros H1 H2 H. unfold aad12 in H. apply app_inv_len in H; [|unfold zlen in *; lia].
  destruct H as [A B]. injection B as B _. auto.
Qed.

Lemma xor_nonce_inj fixed s1 s2 : zlen s1 = 8 -> zlen s2 = 8 -> 8 <= zlen fixed ->
  xor_nonce fixed s1 = xor_nonce fixed s2 -> s1 = s2.
Proof.
  intros H1 H2 Hf H. unfold xor_nonce in H. rewrite H1, H2 in H.
  apply xor_inj_l in H.
  - apply app_inv_head in H. exact H.
  - rewrite app_length. unfold zeros. rewrite repeat_length. unfold zlen in *. lia.
  - rewrite app_length. unfold zeros. rewrite repeat_length. unfold zlen in *. lia.
Qed.

Lemma aead_binds_ideal (P : Prim CS) (r1 r1' r2 r2' : St CS) hty1 hver1 hty2 hver2 body p1 p2 :
  aead_tight P -> seal_injective_ideal P ->
  (is_tls13_plus c = true -> uses_xor_nonce c = true /\ 8 <= zlen (c_fixed_nonce c)) ->
  decrypt_and_unseal c P r1 (hty1, hver1, body) = ROk (r1', p1) ->
  decrypt_and_unseal c P r2 (hty2, hver2, body) = ROk (r2', p2) ->
  st_seq r1 = st_seq r2 /\ hty1 = hty2 /\ p1 = p2.
Proof.
  intros Htight Hinj H13 H1 H2.
  destruct (aead_accept_sealed c P r1 r1' hty1 hver1 body p1 Htight H1) as (Hr1 & n1 & a1 & Hs1 & Hx1).
  destruct (aead_accept_sealed c P r2 r2' hty2 hver2 body p2 Htight H2) as (Hr2 & n2 & a2 & Hs2 & Hx2).
  rewrite Hs1 in Hs2. apply Hinj in Hs2. destruct Hs2 as [Hn [Hp Ha]].
  destruct (is_tls13_plus c) eqn:E13.
  - destruct (H13 eq_refl) as [Hux Hf8]. destruct Hx1 as [Hg1 ->]. destruct Hx2 as [Hg2 ->].
    split; [|split; [reflexivity|exact Hp]].
    rewrite (get_nonce_xor c) in Hg1, Hg2 by (try rewrite be_zlen; assumption).
    injection Hg1 as <-. injection Hg2 as <-.
    apply xor_nonce_inj in Hn; try apply (be_zlen 8); [|exact Hf8].
    apply be_inj in Hn; assumption.
  - destruct Hx1 as [m1 ->]. destruct Hx2 as [m2 ->].
    apply aad12_inj in Ha; try apply (be_zlen 8). destruct Ha as [A B].
    apply be_inj in A; try assumption. auto.
Qed.

Lemma aead_cross_key_ideal (P1 P2 : Prim CS) (r1 r1' r2 r2' : St CS) hty1 hver1 hty2 hver2 body p1 p2 :
  aead_tight P1 -> aead_tight P2 -> seal_disjoint_ideal P1 P2 ->
  decrypt_and_unseal c P1 r1 (hty1, hver1, body) = ROk (r1', p1) ->
  decrypt_and_unseal c P2 r2 (hty2, hver2, body) = ROk (r2', p2) -> False.
Proof. intros Ht1 Ht2 Hdis. exact (aead_cross_key c c P1 P2 _ _ _ _ _ _ _ _ _ _ _ Ht1 Ht2 Hdis eq_refl). Qed.

Lemma stream_binds_ideal (P : Prim CS) (r1 r1' r2 r2' : St CS) ty1 ty2 body p1 p2 :
  c_has_mac c = true -> mac_injective_ideal P -> st_cs r1 = st_cs r2 ->
  decrypt_stream_then_mac c P r1 ty1 body = ROk (r1', p1) ->
  decrypt_stream_then_mac c P r2 ty2 body = ROk (r2', p2) ->
  st_seq r1 = st_seq r2 /\ ty1 = ty2 /\ p1 = p2.
Proof.
  intros Hm Hinj Hcs H1 H2.
  apply (stream_recv _ _ _ _ _ _ Hm) in H1. apply (stream_recv _ _ _ _ _ _ Hm) in H2. rewrite Hcs in H1.
  destruct (check_mac_binds c P _ _ _ _ _ _ _ _ _ Hinj H1 H2) as [A B]. split; [|exact B].
  destruct (c_has_enc c); exact A.
Qed.
End Integrity.
