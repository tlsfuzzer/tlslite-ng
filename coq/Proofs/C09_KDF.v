(* HKDF-Expand, P_hash and the TLS PRFs: generated code (Gen/C09_KDF.v) vs the RFC definitions
   (Spec/C09_KDF.v).  HKDF-Expand for arbitrary hash/HMAC oracles; P_hash for an HMAC whose output has the declared size
   (the specification takes the number of blocks from that size, the loop from the output it gets); the PRFs for oracle_ok:
   that size, and bytes (PRF XORs its two streams in place). *)
From Coq Require Import ZArith List Bool Lia String.
From TV Require Import Base.Prelude Base.PreludeFacts Base.C09_Lib Base.C09_Oracle Gen.C09_KDF Spec.C09_KDF
  Proofs.C09_Lists.
Import ListNotations.
Open Scope list_scope.
Open Scope Z_scope.

Lemma digest_size_pos alg hl : digest_size alg = Some hl -> 0 < hl.
Proof.
  intros Hd. unfold digest_size in Hd.
  repeat match type of Hd with (if ?c then _ else _) = _ => destruct c; [injection Hd as <-; lia|] end. discriminate.
Qed.

Section HKDF.
  Variable Orc : Oracles.
  Variables (alg : string) (prk info : list Z).

  Let body := (fun '(Titer, T0) x =>
      t4_ <- mk_bytes [x] ;;
      let Titer := o_hmac Orc alg prk ((Titer ++ info) ++ t4_) in
      let T0 := T0 ++ Titer in
      Ok (Titer, T0)).

  (* after n iterations Titer = T(n) and T = T(1) | ... | T(n); a 256th block would need the counter byte 256 *)
  Lemma hkdf_loop (n : nat) :
    foldM body (zrange 1 (Z.of_nat n + 1)) ([], []) =
    if (n <=? 255)%nat then Ok (hkdf_T Orc alg prk info n, hkdf_okm Orc alg prk info n) else Err ValueError.
  Proof.
    induction n as [|n IH]; [reflexivity|].
    replace (Z.of_nat (S n) + 1) with (Z.of_nat n + 1 + 1) by lia.
    rewrite zrange_snoc, foldM_app, IH by lia.
    destruct (Nat.leb_spec n 255) as [Hn|Hn].
    2:{ (* the loop has failed already *) destruct (Nat.leb_spec (S n) 255); [lia|reflexivity]. }
    rewrite bind_of_Ok. cbn [foldM]. unfold body at 1, mk_bytes, all_bytes. cbn [forallb].
    destruct (Nat.leb_spec (S n) 255) as [Hn'|Hn'].
    - replace (is_byte (Z.of_nat n + 1)) with true by (symmetry; apply is_byte_iff; lia).
      cbn [andb]. rewrite !bind_of_Ok. unfold hkdf_okm. rewrite concat_map_seq_S. cbn [hkdf_T plus].
      rewrite <- app_assoc. repeat f_equal; lia.
    - (* n = 255: the counter byte of block 256 is refused *)
      replace (is_byte (Z.of_nat n + 1)) with false by (symmetry; unfold is_byte; lia). reflexivity.
  Qed.

  Lemma HKDF_expand_eq hl L : digest_size alg = Some hl -> 0 <= L ->
    HKDF_expand Orc prk info L alg =
    match hkdf_expand_rfc Orc alg prk info L with Some okm => Ok okm | None => Err ValueError end.
  Proof.
    intros Hd HL. pose proof (digest_size_pos alg hl Hd) as Hhl.
    unfold HKDF_expand, hkdf_expand_rfc, py_digest_size. rewrite Hd, bind_of_Ok.
    unfold divceil. rewrite py_divmod_ok, !bind_of_Ok by lia.
    rewrite divceil_pos_val by lia. fold body.
    pose proof (ceil_bounds L hl Hhl) as HN. set (N := (L + hl - 1) / hl) in *.
    rewrite <- (Z2Nat.id N) at 1 by nia. rewrite hkdf_loop.
    (* the RFC's test L <= 255 hl and the loop's N <= 255 agree *)
    destruct ((0 <=? L) && (L <=? 255 * hl)) eqn:EL, (Nat.leb_spec (Z.to_nat N) 255) as [H255|H255];
      [|nia|nia|reflexivity].
    rewrite bind_of_Ok, py_slice_to by lia. reflexivity.
  Qed.
End HKDF.

(* one round of P_hash's loop on the output buffer, the stream so far (si) followed by zeros up to len: the first hm zeros give
   way to the first hm bytes of the new block bS *)
Lemma fill_round (si bS : list Z) (len hm : Z) : zlen si < len -> hm = Z.min (len - zlen si) (zlen bS) ->
  py_slice_assign (si ++ repeat 0 (Z.to_nat (len - zlen si))) (Some (zlen si)) (Some (zlen si + hm)) (py_slice bS None (Some hm))
  = firstn (Z.to_nat (zlen si + hm)) (si ++ bS) ++ repeat 0 (Z.to_nat (len - (zlen si + hm))).
Proof.
  intros Hp Hm. pose proof (zlen_nonneg si). pose proof (zlen_nonneg bS). rewrite py_slice_to by lia.
  replace (Z.to_nat (len - zlen si)) with (Z.to_nat hm + Z.to_nat (len - (zlen si + hm)))%nat by lia.
  rewrite repeat_app, py_slice_assign_mid by (rewrite ?zlen_repeat; lia).
  replace (Z.to_nat (zlen si + hm)) with (List.length si + Z.to_nat hm)%nat by (unfold zlen in *; lia).
  rewrite firstn_app_2, <- app_assoc. reflexivity.
Qed.

Section PHash.
  Variable Orc : Oracles.
  Variables (alg : string) (secret seed : list Z) (ds len : Z).
  Hypothesis Hds : digest_size alg = Some ds.
  Hypothesis Hlen : forall msg, zlen (o_hmac Orc alg secret msg) = ds.
  Hypothesis Hlen0 : 0 <= len.

  Let A := p_A Orc alg secret seed.
  Let stream := p_hash_stream Orc alg secret seed.

  Lemma stream_len n : zlen (stream n) = Z.of_nat n * ds.
  Proof.
    unfold stream, p_hash_stream. rewrite (zlen_concat_map _ ds) by (intros; apply Hlen).
    unfold zlen. rewrite seq_length. reflexivity.
  Qed.

  (* loop state after i full iterations *)
  Let idx (i : nat) : Z := Z.min (Z.of_nat i * ds) len.
  Let St (i : nat) : list Z * list Z * Z :=
    (A i, firstn (Z.to_nat (idx i)) (stream i) ++ repeat 0 (Z.to_nat (len - idx i)), idx i).

  Lemma P_hash_ok : P_hash Orc alg secret seed len = Ok (p_hash_rfc Orc alg ds secret seed len).
  Proof.
    pose proof (digest_size_pos alg ds Hds) as Hp.
    unfold P_hash. rewrite py_zeros_ok, bind_of_Ok by lia.
    unfold mk_hmac. rewrite Hds, bind_of_Ok.
    set (n := Z.to_nat ((len + ds - 1) / ds)).
    assert (Hn1 : ds * Z.of_nat n - ds < len <= ds * Z.of_nat n).
    { unfold n. rewrite Z2Nat.id by (apply Z.div_pos; lia). apply ceil_bounds, Hp. }
    replace (seed, repeat 0 (Z.to_nat len), 0) with (St 0).
    2:{ unfold St, idx. cbn [Z.of_nat Z.mul]. replace (Z.min 0 len) with 0 by lia. rewrite Z.sub_0_r. reflexivity. }
    match goal with |- context [while_fuel _ ?c ?b _] => rewrite (while_fuel_steps c b St n) end.
    - (* after the loop: at St n the buffer is full *)
      rewrite bind_of_Ok. unfold St, p_hash_rfc. fold n. fold (stream n).
      assert (idx n = len) as -> by (unfold idx; lia).
      rewrite Z.sub_diag. cbn [Z.to_nat repeat]. rewrite app_nil_r. reflexivity.
    - intros i Hi. assert (Z.of_nat i * ds < len) by nia. split; [change (idx i <? len = true); unfold idx; lia|].
      (* one round *)
      unfold St. cbv zeta. unfold mac_update, mac_digest. cbn [mac_fn mac_acc mac_ds mac_bs app].
      change (o_hmac Orc alg secret (A i)) with (A (S i)).
      rewrite (concat_map_seq_S _ 1 i : stream (S i) = stream i ++ o_hmac Orc alg secret (A (S i) ++ seed)).
      pose proof (stream_len i) as Lp. pose proof (Hlen (A (S i) ++ seed)) as Lb.
      replace (idx i) with (zlen (stream i)) by (unfold idx; lia).
      replace (idx (S i)) with (zlen (stream i) + Z.min (len - zlen (stream i)) ds) by (unfold idx; lia).
      rewrite firstn_all2, (fill_round (stream i) _ len) by (reflexivity || (unfold zlen in *; lia)). rewrite Lb. reflexivity.
    - (* the loop stops at St n *) change (idx n <? len = false). unfold idx. lia.
    - (* n rounds are within the fuel len + 1 *) assert (Z.of_nat n <= len) by nia. lia.
  Qed.
End PHash.

Definition oracle_ok (Orc : Oracles) : Prop :=
  forall alg ds key msg, digest_size alg = Some ds ->
    zlen (o_hmac Orc alg key msg) = ds /\ all_bytes (o_hmac Orc alg key msg) = true.

Section PRFs.
  Variable Orc : Oracles.
  Hypothesis HO : oracle_ok Orc.

  Lemma P_hash_oracle alg ds secret seed len : digest_size alg = Some ds -> 0 <= len ->
    P_hash Orc alg secret seed len = Ok (p_hash_rfc Orc alg ds secret seed len).
  Proof. intros Hd Hl. apply P_hash_ok; [exact Hd| |exact Hl]. intros msg. apply (HO alg ds secret msg Hd). Qed.

  Lemma PRF_1_2_ok secret label seed len : 0 <= len ->
    PRF_1_2 Orc secret label seed len = Ok (prf12_rfc Orc "sha256" 32 secret label seed len).
  Proof. intros Hl. unfold PRF_1_2. rewrite (P_hash_oracle "sha256" 32) by (reflexivity || exact Hl). reflexivity. Qed.

  Lemma PRF_1_2_SHA384_ok secret label seed len : 0 <= len ->
    PRF_1_2_SHA384 Orc secret label seed len = Ok (prf12_rfc Orc "sha384" 48 secret label seed len).
  Proof. intros Hl. unfold PRF_1_2_SHA384. rewrite (P_hash_oracle "sha384" 48) by (reflexivity || exact Hl). reflexivity. Qed.

  Lemma p_hash_rfc_len alg ds secret seed len : digest_size alg = Some ds -> 0 <= len ->
    zlen (p_hash_rfc Orc alg ds secret seed len) = len /\ all_bytes (p_hash_rfc Orc alg ds secret seed len) = true.
  Proof.
    intros Hd Hl. pose proof (digest_size_pos alg ds Hd) as Hp. unfold p_hash_rfc, p_hash_stream.
    apply (stream_prefix _ ds); [intros; apply (HO alg ds secret _ Hd)..|].
    pose proof (ceil_bounds len ds Hp). unfold zlen. rewrite seq_length, Z2Nat.id by (apply Z.div_pos; lia). lia.
  Qed.

  (* odd-length secrets: the two halves share the middle byte *)
  Lemma PRF_ok secret label seed len : 0 <= len ->
    PRF Orc secret label seed len = Ok (prf10_rfc Orc secret label seed len).
  Proof.
    intros Hl. unfold PRF, prf10_rfc. pose proof (zlen_nonneg secret) as Hs.
    assert (Hh : 0 <= (zlen secret + 1) / 2 <= zlen secret /\ zlen secret / 2 = zlen secret - (zlen secret + 1) / 2).
    { Z.div_mod_to_equations. lia. }
    rewrite py_slice_to, py_slice_from by lia.
    replace (Z.to_nat (zlen secret / 2)) with (List.length secret - Z.to_nat ((zlen secret + 1) / 2))%nat
      by (unfold zlen in *; lia).
    rewrite (P_hash_oracle "md5" 16) by (reflexivity || exact Hl). rewrite bind_of_Ok.
    rewrite (P_hash_oracle "sha1" 20) by (reflexivity || exact Hl). rewrite bind_of_Ok.
    set (a := p_hash_rfc Orc "md5" 16 _ _ len). set (b := p_hash_rfc Orc "sha1" 20 _ _ len).
    destruct (p_hash_rfc_len "md5" 16 (firstn (Z.to_nat ((zlen secret + 1) / 2)) secret) (label ++ seed) len eq_refl Hl) as [La Ba].
    destruct (p_hash_rfc_len "sha1" 20 (skipn (List.length secret - Z.to_nat ((zlen secret + 1) / 2)) secret) (label ++ seed) len eq_refl Hl) as [Lb Bb].
    fold a in La, Ba. fold b in Lb, Bb.
    rewrite (xor_loop a b len La) by (assumption || (unfold zlen in *; lia)). reflexivity.
  Qed.
End PRFs.
