(* C10: a modulus of 8k+1 bits, the size for which RSASSA-PSS needs the encoded message left-padded. *)
From Coq Require Import ZArith.
Open Scope Z_scope.

(* 65 bits, 9 bytes, emLen = 8.  Before /repo cc7bf57 RSASSA_PSS_sign raised MessageTooLongError for every
   modulus of 8k+1 bits; it succeeds for this one (Props/C10.v pss_sign_works_for_modbits_1_mod_8). *)
Definition n65 : Z := 23910316408052783509.
