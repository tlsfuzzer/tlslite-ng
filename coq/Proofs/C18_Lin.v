(* From step-level serializability to object-level serializability: if every method call
   is a step program that respects the lock discipline, has one critical section and,
   executed alone from the locals that hold its arguments, does what the sequential model says,
   then any number of concurrent calls under any schedule produce results and a final object
   state that the sequential model produces for some order of the calls
   (object_serializable_args; the invariant lin_inv of the induction over that order: the model's
   result list is what the threads have returned so far, `map slot`).  Hence an invariant of the object and a postcondition of its
   calls need only be shown of one call executed alone (mserial_ok, object_invariant); the RSA key
   of Proofs/C18_Rsa.v is used that way. *)
From Coq Require Import ZArith String List.
From TV Require Base.ListUpd.
From TV Require Import Base.C18_Lib Model.C18_Cache Model.C18_Conc Model.C18_LockSteps
     Proofs.C18_Conc Proofs.C18_Locks Gen.Locks.
Import ListNotations.

Lemma Forall2_nth_r {A B} (R : A -> B -> Prop) l1 l2 i b :
  Forall2 R l1 l2 -> nth_error l2 i = Some b -> exists a, nth_error l1 i = Some a /\ R a b.
Proof.
  intros H. revert i. induction H as [|x y l1 l2 Hxy H IH]; intros [|i] Hi; try discriminate.
  - inversion Hi; subst. exists x. auto.
  - exact (IH i Hi).
Qed.

Lemma Forall2_upd_nth {A B} (R : A -> B -> Prop) : forall l1 l2 i a b',
  Forall2 R l1 l2 -> nth_error l1 i = Some a -> R a b' -> Forall2 R l1 (upd_nth i l2 b').
Proof.
  intros l1 l2 i a b' H. revert i. induction H as [|x y l1 l2 Hxy H IH]; intros i Hi Hr.
  - destruct i; discriminate.
  - destruct i as [|i]; cbn [nth_error upd_nth] in *.
    + inversion Hi; subst. constructor; assumption.
    + constructor; [exact Hxy|]. apply IH; assumption.
Qed.

Lemma Forall2_map_r {A B C} (P : A -> C -> Prop) (f : B -> C) : forall l2 l1,
  Forall2 P l1 (map f l2) -> Forall2 (fun a b => P a (f b)) l1 l2.
Proof. induction l2 as [|b l2 IH]; intros l1 H; inversion H; subst; constructor; auto. Qed.

Section SeqModel.
  Variables W Call R : Type.
  Variable mstep : W -> Call -> W * R.          (* the sequential model of one call *)
  Variable calls : list Call.                   (* one call per thread *)

  Definition mconf := (W * list (option R))%type.

  Definition mrun_op (m : mconf) (i : nat) : mconf :=
    match nth_error calls i, nth_error (snd m) i with
    | Some call, Some None => (fst (mstep (fst m) call), upd_nth i (snd m) (Some (snd (mstep (fst m) call))))
    | _, _ => m
    end.
  Definition mserial (order : list nat) (m : mconf) : mconf := fold_left mrun_op order m.

  Lemma mrun_op_idle (m : mconf) i : nth_error (snd m) i <> Some None -> mrun_op m i = m.
  Proof.
    unfold mrun_op. destruct (nth_error calls i); [|reflexivity].
    destruct (nth_error (snd m) i) as [[r|]|]; congruence.
  Qed.
End SeqModel.

Section Lin.
  Variables Lo V W Call R : Type.
  Variable mstep : W -> Call -> W * R.          (* the sequential model of one call *)
  Variable sem : Call -> list (step Lo V).      (* a small-step reading of the method bodies *)
  Variable absS : store V -> W.                 (* what the shared store represents *)
  Variable res : Lo -> option R.                (* the result a finished call left in its locals *)
  Variable lo_of : Call -> Lo.                  (* the locals a call starts with: its arguments *)
  Variable calls : list Call.
  Notation mconf := (mconf W R).
  Notation mrun_op := (mrun_op W Call R mstep calls).
  Notation mserial := (mserial W Call R mstep calls).

  Hypothesis sem_wl : forall call, In call calls -> well_locked (sem call) = true.
  Hypothesis sem_one : forall call, In call calls -> (count_acq (sem call) <= 1)%nat.
  Hypothesis sem_nonempty : forall call, In call calls -> sem call <> [].
  Hypothesis sem_effect : forall call st, In call calls ->
    absS (fst (run_all st (lo_of call) (sem call))) = fst (mstep (absS st) call) /\
    res (snd (run_all st (lo_of call) (sem call))) = Some (snd (mstep (absS st) call)).

  Definition thread_of (call : Call) : thread Lo V := {| t_lo := lo_of call; t_prog := sem call |}.

  Definition slot (t : thread Lo V) : option R := match t_prog t with [] => res (t_lo t) | _ => None end.

  Definition call_status (call : Call) (t : thread Lo V) : Prop :=
    t = thread_of call \/ (t_prog t = [] /\ res (t_lo t) <> None).

  Set Implicit Arguments.
  Record lin_inv (sc : sconf Lo V) (m : mconf) : Prop := {
    li_abs : absS (fst sc) = fst m;
    li_results : snd m = map slot (snd sc);
    li_status : Forall2 call_status calls (snd sc) }.
  Unset Implicit Arguments.

  Lemma slot_untouched call : In call calls -> slot (thread_of call) = None.
  Proof.
    intros Hin. unfold slot. cbn [thread_of t_prog]. destruct (sem call) eqn:E; [|reflexivity].
    elim (sem_nonempty call Hin E).
  Qed.

  Lemma run_chunk_whole call st : In call calls ->
    run_chunk false st (lo_of call) (sem call) = (fst (run_all st (lo_of call) (sem call)), snd (run_all st (lo_of call) (sem call)), []).
  Proof.
    intros Hin. exact (run_chunk_single Lo V (sem call) false false st (lo_of call) (sem_wl call Hin) (sem_one call Hin)).
  Qed.

  Lemma lin_step sc m i : lin_inv sc m -> lin_inv (run_op sc i) (mrun_op m i).
  Proof.
    intros H. destruct H as [Ha Hr Hs]. destruct sc as [st ths]. destruct m as [w rs]. cbn [fst snd] in *. subst w rs.
    destruct (nth_error ths i) as [t|] eqn:Ht;
      [destruct (Forall2_nth_r _ _ _ _ _ Hs Ht) as [call [Hc [->|[Hnil Hres]]]]|].
    - (* the call runs now, as a whole *)
      pose proof (nth_error_In _ _ Hc) as Hin. unfold run_op, mrun_op. cbn [fst snd].
      rewrite Ht, Hc, nth_error_map, Ht. cbn [option_map]. rewrite (slot_untouched call Hin).
      cbn [thread_of t_lo t_prog]. rewrite (run_chunk_whole call st Hin).
      destruct (sem_effect call st Hin) as [E1 E2]. unfold set_thread.
      constructor; cbn [fst snd].
      + exact E1.
      + rewrite !upd_nth_upd, ListUpd.map_upd. f_equal. symmetry. exact E2.
      + apply (Forall2_upd_nth _ _ _ i call _ Hs Hc). right. split; [reflexivity|]. cbn [t_lo]. rewrite E2. discriminate.
    - (* already finished *)
      rewrite run_op_finished by (cbn [snd]; congruence).
      rewrite mrun_op_idle; [constructor; auto|]. cbn [snd]. rewrite nth_error_map, Ht. cbn [option_map]. unfold slot. rewrite Hnil. congruence.
    - (* no such thread *)
      rewrite run_op_finished by (cbn [snd]; congruence).
      rewrite mrun_op_idle; [constructor; auto|]. cbn [snd]. rewrite nth_error_map, Ht. discriminate.
  Qed.

  Lemma lin_serial order : forall sc m, lin_inv sc m -> lin_inv (serial order sc) (mserial order m).
  Proof.
    induction order as [|i order IH]; intros sc m H; [exact H|].
    unfold serial, mserial. cbn [fold_left]. apply IH. apply lin_step. exact H.
  Qed.

  Definition obj_config (st0 : store V) : config Lo V :=
    {| g_store := st0; g_lock := None; g_threads := map thread_of calls |}.

  Lemma lin_init st0 : lin_inv (st0, map thread_of calls) (absS st0, map (fun _ => None) calls).
  Proof.
    constructor; cbn [fst snd]; [reflexivity| |].
    - rewrite map_map. apply map_ext_in. intros call Hin. symmetry. exact (slot_untouched call Hin).
    - generalize calls as l. induction l; constructor; [left; reflexivity|assumption].
  Qed.

  Lemma object_serializable_args : forall st0 sched cf,
    run_sched (obj_config st0) sched = Some cf -> terminal cf ->
    exists order,
      absS (g_store cf) = fst (mserial order (absS st0, map (fun _ => None) calls)) /\
      map (fun t => res (t_lo t)) (g_threads cf) = snd (mserial order (absS st0, map (fun _ => None) calls)) /\
      Forall (fun r => r <> None) (snd (mserial order (absS st0, map (fun _ => None) calls))).
  Proof.
    intros st0 sched cf Hrun Hterm.
    destruct (serializable_all Lo V (obj_config st0) cf sched) as [order Hser]; [reflexivity| |exact Hrun|exact Hterm|].
    { intros t Ht. cbn [obj_config g_threads] in Ht. apply in_map_iff in Ht. destruct Ht as [call [<- Hin]].
      exact (sem_wl call Hin). }
    exists order. pose proof (lin_serial order _ _ (lin_init st0)) as Hf.
    change (st0, map thread_of calls) with (g_store (obj_config st0), g_threads (obj_config st0)) in Hf.
    rewrite Hser in Hf. destruct Hf as [Ha Hr Hs]. cbn [fst snd] in *. rewrite Hr.
    (* cf is terminal, so no thread is still untouched: every call has left its result *)
    assert (forall t, In t (g_threads cf) -> slot t = res (t_lo t) /\ slot t <> None) as Hfin.
    { intros t Ht. pose proof (Hterm t Ht) as Hnil. unfold slot. rewrite Hnil. split; [reflexivity|].
      destruct (In_nth_error _ _ Ht) as [i Hi]. destruct (Forall2_nth_r _ _ _ _ _ Hs Hi) as [call [Hc [->|[_ H]]]]; [|exact H].
      elim (sem_nonempty call (nth_error_In _ _ Hc) Hnil). }
    split; [exact Ha|]. split.
    - apply map_ext_in. intros t Ht. symmetry. exact (proj1 (Hfin t Ht)).
    - apply Forall_map, Forall_forall. intros t Ht. exact (proj2 (Hfin t Ht)).
  Qed.

  (* Sequential reasoning about the model: an invariant of the object that every call preserves,
     and what a call returns while it holds *)
  Variables (I : W -> Prop) (Post : Call -> R -> Prop).
  Hypothesis mstep_ok : forall w call, In call calls -> I w ->
    I (fst (mstep w call)) /\ Post call (snd (mstep w call)).

  Definition results_ok (m : mconf) : Prop :=
    I (fst m) /\ Forall2 (fun call r => match r with Some x => Post call x | None => True end) calls (snd m).

  Lemma mserial_ok order : forall m, results_ok m -> results_ok (mserial order m).
  Proof.
    induction order as [|i order IH]; intros m H; [exact H|].
    unfold mserial. cbn [fold_left]. apply IH. clear IH. destruct H as [Hi Hr]. unfold mrun_op.
    destruct (nth_error calls i) as [call|] eqn:Hc; [|split; assumption].
    destruct (nth_error (snd m) i) as [[r|]|]; try (split; assumption).
    destruct (mstep_ok (fst m) call (nth_error_In _ _ Hc) Hi) as [Hi' Hp].
    split; [exact Hi'|]. exact (Forall2_upd_nth _ _ _ i call (Some _) Hr Hc Hp).
  Qed.

  Lemma results_ok_init w : I w -> results_ok (w, map (fun _ => None) calls).
  Proof. intros H. split; [exact H|]. cbn [snd]. generalize calls as l. induction l; constructor; auto. Qed.

  Lemma object_invariant st0 sched cf : I (absS st0) ->
    run_sched (obj_config st0) sched = Some cf -> terminal cf ->
    I (absS (g_store cf)) /\
    Forall2 (fun call t => match res (t_lo t) with Some x => Post call x | None => True end) calls (g_threads cf).
  Proof.
    intros H0 Hrun Hterm. destruct (object_serializable_args st0 sched cf Hrun Hterm) as [order [Hst [Hres _]]].
    destruct (mserial_ok order _ (results_ok_init _ H0)) as [Hi Hr].
    rewrite <- Hst in Hi. rewrite <- Hres in Hr. exact (conj Hi (Forall2_map_r _ _ _ _ Hr)).
  Qed.
End Lin.

Section SameLocals.
  Variables Lo V Call : Type.
  Variable sem : Call -> list (step Lo V).
  Variable lo0 : Lo.
  Variable calls : list Call.

  Definition call_thread (call : Call) : thread Lo V := {| t_lo := lo0; t_prog := sem call |}.

  Definition lin_config (st0 : store V) : config Lo V :=
    {| g_store := st0; g_lock := None; g_threads := map call_thread calls |}.
End SameLocals.

Lemma lin_config_obj Lo V Call (sem : Call -> list (step Lo V)) lo0 calls st0 :
  lin_config Lo V Call sem lo0 calls st0 = obj_config Lo V Call sem (fun _ => lo0) calls st0.
Proof. reflexivity. Qed.

(* SessionCache: calls are __getitem__ / __setitem__, the clock is part of the object *)
Open Scope Z_scope.

Definition ccall := (op * Z)%type.           (* the call and how far the clock has moved on since the previous read *)

Definition cache_mstep (wc : world * Z) (call : ccall) : (world * Z) * outcome :=
  let now := snd wc + snd call in
  let '(w', r) := apply (fst wc) now (fst call) in ((w', now), r).

Definition cache_method (o : op) : option (list shape) :=
  match o with
  | Get _ => Some (shapes all_methods ("SessionCache", "__getitem__", SessionCache_getitem)%string)
  | Put _ _ => Some (shapes all_methods ("SessionCache", "__setitem__", SessionCache_setitem)%string)
  | _ => None
  end.

Lemma cache_method_cases (P : list shape -> Prop) :
  P (shapes all_methods ("SessionCache", "__getitem__", SessionCache_getitem)%string) ->
  P (shapes all_methods ("SessionCache", "__setitem__", SessionCache_setitem)%string) ->
  forall o sh, cache_method o = Some sh -> P sh.
Proof. intros Hg Hp [id|id s| |s b] sh H; cbn [cache_method] in H; congruence. Qed.

(* both methods are rows of the extracted table, so its lock discipline covers them *)
Lemma cache_shapes_ok : forall o sh, cache_method o = Some sh ->
  well_locked_shape sh = true /\ (count_acq_shape sh <= 1)%nat /\ sh <> [].
Proof.
  assert (forall n p ps, In ("SessionCache", n, ps)%string all_method_paths -> In p ps -> p <> [] ->
            let sh := shapes all_methods ("SessionCache", n, p)%string in
            well_locked_shape sh = true /\ (count_acq_shape sh <= 1)%nat /\ sh <> []) as H.
  { intros n p ps He Hp Hne sh.
    destruct (extracted_shape_ok _ (in_all_methods _ _ _ _ He Hp)) as [Hw Hc].
    split; [exact Hw|]. split; [exact Hc|]. destruct p; [contradiction|discriminate]. }
  apply cache_method_cases.
  - apply (H _ _ [SessionCache_getitem]); [left; reflexivity|left; reflexivity|discriminate].
  - apply (H _ _ [SessionCache_setitem]); [right; left; reflexivity|left; reflexivity|discriminate].
Qed.
