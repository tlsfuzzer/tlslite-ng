(* Regression histories.

   On the code before the fix "SessionCache must not drop a live entry when a session ID is stored
   twice" (tlslite-ng commit 7684882) the statements of Props/C18.v hold for pairwise distinct
   stored IDs only, and these two histories refute them.  dup_history: the lookup of id 1 raises
   KeyError although session 11 is live, and the next store raises KeyError from inside
   __setitem__ (refinement, no internal error).  leak_history: 3 dict entries in a cache with
   maxEntries = 2, growing without bound (size bound).  On the repaired code both histories
   satisfy the specification; they are replayed on the real class every run. *)
From Coq Require Import ZArith List.
From TV Require Import Base.Prelude Base.C18_Lib Model.C18_Cache Spec.C18_CacheSpec.
Import ListNotations.
Open Scope Z_scope.

Definition dup_history : history :=
  [(0, Put 1 10); (0, Put 1 11); (0, Put 2 12); (0, Get 1); (0, Put 3 13)].

Definition leak_history : history :=
  [(0, Put 1 10); (0, Put 1 11); (0, Put 2 12);
   (0, Put 3 13); (0, Put 3 14); (0, Put 4 15);
   (0, Put 5 16)].

Lemma dup_history_now_ok :
  outcomes 3 100 dup_history = [ORet None; ORet None; ORet None; ORet (Some 11); ORet None] /\
  spec_outcomes 3 100 dup_history = [ORet None; ORet None; ORet None; ORet (Some 11); ORet None].
Proof. split; vm_compute; reflexivity. Qed.

Lemma leak_history_now_ok : zlen (c_dict (final_cache 2 100 leak_history)) = 1.
Proof. vm_compute. reflexivity. Qed.
