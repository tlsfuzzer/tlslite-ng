(* Bit-level lemmas for 32-bit words: the mask-and-shift rotation used by
   tlslite/utils/chacha.py equals the rotation defined bit by bit in Spec/C09_ChaCha.v. *)
From Coq Require Import ZArith List Bool Lia.
From TV Require Import Base.Prelude Base.PreludeFacts Spec.C09_ChaCha.
Import ListNotations.
Open Scope Z_scope.

Definition u32 (x : Z) : Prop := 0 <= x < 4294967296.

Lemma u32_0 : u32 0.
Proof. unfold u32. lia. Qed.

Lemma testbit_bits_to_Z l : forall i, 0 <= i -> Z.testbit (bits_to_Z l) i = nth (Z.to_nat i) l false.
Proof.
  induction l as [|b l IH]; intros i Hi; cbn [bits_to_Z].
  - rewrite Z.bits_0. destruct (Z.to_nat i); reflexivity.
  - rewrite Z.add_comm.
    destruct (Z.eq_dec i 0) as [->|Hne].
    + rewrite Z.testbit_0_r. reflexivity.
    + replace i with (Z.succ (i - 1)) by lia.
      rewrite Z.testbit_succ_r by lia. rewrite IH by lia.
      replace (Z.to_nat (Z.succ (i - 1))) with (S (Z.to_nat (i - 1))) by lia. reflexivity.
Qed.

Lemma bits_to_Z_range l : 0 <= bits_to_Z l < 2 ^ Z.of_nat (length l).
Proof.
  induction l as [|b l IH]; cbn [bits_to_Z length].
  - cbn. lia.
  - rewrite Nat2Z.inj_succ, Z.pow_succ_r by lia. destruct b; cbn [Z.b2z]; lia.
Qed.

Lemma rotl32_u32 x n : u32 (rotl32 x n).
Proof.
  unfold rotl32, u32. pose proof (bits_to_Z_range (map (fun i => Z.testbit x ((i - n) mod 32)) (zrange 0 32))) as H.
  rewrite map_length, zrange_length in H. exact H.
Qed.

Lemma rotl32_testbit x n i : 0 <= i ->
  Z.testbit (rotl32 x n) i = if i <? 32 then Z.testbit x ((i - n) mod 32) else false.
Proof.
  intros Hi. unfold rotl32. rewrite testbit_bits_to_Z by lia.
  destruct (i <? 32) eqn:E.
  - rewrite nth_map_zrange by lia. reflexivity.
  - apply nth_overflow. rewrite map_length, zrange_length. lia.
Qed.

(* m is a variable of its own: quarter_round has the literal pairs 16/16, 12/20, 8/24, 7/25 *)
Lemma rot_mask_shift x n m : u32 x -> 0 < n < 32 -> n + m = 32 ->
  Z.lor (Z.land (Z.shiftl x n) 4294967295) (Z.shiftr x m) = rotl32 x n.
Proof.
  intros Hx Hn Hm. apply Z.bits_inj'. intros i Hi.
  rewrite rotl32_testbit by lia.
  rewrite Z.lor_spec, Z.land_spec, Z.shiftl_spec, Z.shiftr_spec by lia.
  change 4294967295 with (Z.ones 32).
  destruct (i <? 32) eqn:E.
  - rewrite Z.ones_spec_low by lia. rewrite andb_true_r.
    destruct (Z_lt_le_dec i n) as [L|L].
    + rewrite (Z.testbit_neg_r x (i - n)) by lia. cbn [orb].
      f_equal. apply Z.mod_unique with (q := -1); lia.
    + rewrite (testbit_high 32 x (i + m)) by (assumption || lia). rewrite orb_false_r.
      f_equal. symmetry. apply Z.mod_small. lia.
  - rewrite Z.ones_spec_high by lia. rewrite andb_false_r. cbn [orb].
    apply (testbit_high 32); [assumption|lia].
Qed.

Lemma add32_u32 a b : u32 (add32 a b).
Proof. unfold add32, u32, W32. apply Z.mod_pos_bound. reflexivity. Qed.

Lemma lxor_u32 a b : u32 a -> u32 b -> u32 (Z.lxor a b).
Proof. apply (lxor_lt_pow2 32). Qed.

Lemma add32_land a b : Z.land (a + b) 4294967295 = add32 a b.
Proof. change 4294967295 with (Z.ones 32). apply Z.land_ones. lia. Qed.

Global Hint Resolve u32_0 lxor_u32 add32_u32 rotl32_u32 : u32.
