(* C13 -- the invariant of the world of Model/C13_Resume.v: stated element by element, all clauses but kill_ok
   in terms that only grow along a history, preserved by every event, hence true after every history *)
From Coq Require Import ZArith List Bool Lia.
From TV Require Base.ListUpd.
From TV Require Import Model.C13_Resume Proofs.C13_Decide.
Import ListNotations.
Open Scope Z_scope.

Lemma zget_in {A} (l : list A) i x : zget l i = Some x -> In x l.
Proof. unfold zget. destruct (i <? 0); [discriminate|]. apply nth_error_In. Qed.
Arguments zget_in {A l i x}.

(* set_nth is the list update upd of Base/ListUpd.v (the same Fixpoint): in_upd and nth_error_upd apply to it *)
Lemma set_nth_is_upd {A} : @set_nth A = ListUpd.upd.
Proof. reflexivity. Qed.

Lemma in_zset {A} (l : list A) i x y : In y (zset l i x) -> y = x \/ In y l.
Proof. unfold zset. destruct (i <? 0); [intros H; right; exact H|apply ListUpd.in_upd]. Qed.

Lemma zget_zset {A} (l : list A) i x j y :
  zget (zset l i x) j = Some y -> j = i /\ y = x \/ j <> i /\ zget l j = Some y.
Proof.
  unfold zget, zset. intros Hj. destruct (Z.eq_dec j i) as [->|N]; [left|right]; (split; [reflexivity || exact N|]).
  - destruct (i <? 0); [discriminate|]. rewrite ListUpd.nth_error_upd, Nat.eqb_refl in Hj.
    destruct (nth_error l (Z.to_nat i)); [injection Hj as <-; reflexivity|discriminate].
  - destruct (j <? 0) eqn:J; [discriminate|]. destruct (i <? 0) eqn:I; [exact Hj|].
    rewrite ListUpd.nth_error_upd in Hj. apply Z.ltb_ge in J, I.
    replace (Z.to_nat j =? Z.to_nat i)%nat with false in Hj by (symmetry; apply Nat.eqb_neq; lia). exact Hj.
Qed.

Arguments zget_zset {A l i x j y}.

Lemma all_zset {A} (P : A -> Prop) l i x :
  (forall y, In y l -> P y) -> P x -> forall y, In y (zset l i x) -> P y.
Proof. intros Hl Hx y H. apply in_zset in H. destruct H as [->|H]; auto. Qed.

Lemma all_snoc {A} (P : A -> Prop) l x :
  (forall y, In y l -> P y) -> P x -> forall y, In y (l ++ [x]) -> P y.
Proof. intros Hl Hx y H. apply in_app_or in H. destruct H as [H|[<-|[]]]; auto. Qed.

Section Hist.
Variable blob : Type.
Variable seal : Z -> Z -> payload -> blob.
Variable open : Z -> blob -> option payload.
Variable tamper : blob -> Z -> blob.
Variable junk : Z -> blob.

Notation world' := (world blob).
Notation step' := (step blob seal open tamper junk).
Notation run' := (run blob seal open tamper junk).

Definition is_done (o : outcome) : Prop := exists a b, o = ODone a b.

(* closed world of ticket bytes: sealed by a server for a completed connection of the log, whose session is
   the one _ticket_to_session rebuilds from the payload; altered; or made without a key *)
Definition blob_ok (log : list (cres blob)) (b : blob) : Prop :=
  (exists k n p r sid, b = seal k n p /\ In r log /\ is_done (r_out r) /\ r_sview r = Some (sess_of_payload p sid)) \/
  (exists b' i, b = tamper b' i) \/ (exists n, b = junk n).

Lemma blob_ok_incl log log' b : incl log log' -> blob_ok log b -> blob_ok log' b.
Proof.
  intros Hi [(k & n & p & r & sid & E & I & R)|H]; [|right; exact H].
  left. exists k, n, p, r, sid. split; [exact E|]. split; [apply Hi; exact I|exact R].
Qed.

Definition entries (w : world') (e : centry) : Prop :=
  exists sv, In sv (w_servers w) /\ In e (sv_store sv).

(* But for kill_ok, each clause of the invariant looks at the world through w_fresh, w_now and w_log only,
   and these only grow (extends). *)
Definition entry_ok (w : world') (e : centry) : Prop :=
  s_sid (ce_sess e) < w_fresh w /\ ce_time e <= w_now w /\
  exists r, In r (w_log w) /\ r_out r = ODone false false /\ r_sview r = Some (ce_sess e).

Definition server_ok (w : world') (sv : server) : Prop :=
  times_sorted (sv_store sv) /\ forall e, In e (sv_store sv) -> entry_ok w e.

Lemma entry_origin w sv e :
  server_ok w sv -> In e (sv_store sv) ->
  exists r, In r (w_log w) /\ r_out r = ODone false false /\ r_sview r = Some (ce_sess e).
Proof. intros [_ E] He. apply (E e He). Qed.

Definition client_ok (w : world') (c : cobj blob) : Prop :=
  s_sid (c_sess c) < w_fresh w /\
  forall t, In t (c_t10 c ++ c_t13 c) -> blob_ok (w_log w) (tk_blob t).

Definition conn_ok (w : world') (cr : connrec) : Prop :=
  forall sid, cr_sobj cr = Some sid -> sid < w_fresh w.

(* a session killed at the server end of cr is not resumable in that server's cache *)
Definition kill_ok (svs : list server) (cr : connrec) : Prop :=
  forall sid sv, cr_ks cr = true -> cr_sobj cr = Some sid -> zget svs (cr_srv cr) = Some sv ->
                 dead_in (sv_store sv) sid.

Record Inv (w : world') : Prop := {
  inv_pos : 0 < w_fresh w;
  inv_clients : forall c, In c (w_clients w) -> client_ok w c;
  inv_servers : forall sv, In sv (w_servers w) -> server_ok w sv;
  inv_conns : forall cr, In cr (w_conns w) -> conn_ok w cr;
  inv_ks : forall cr, In cr (w_conns w) -> kill_ok (w_servers w) cr
}.

Record extends (w w' : world') : Prop := {
  ext_fresh : w_fresh w <= w_fresh w';
  ext_now : w_now w <= w_now w';
  ext_log : incl (w_log w) (w_log w')
}.

Section Extends.
Variables w w' : world'.
Hypothesis X : extends w w'.

Lemma entry_ok_mono e : entry_ok w e -> entry_ok w' e.
Proof.
  destruct X as [F N L]. intros [A [B [r [R1 R2]]]].
  split; [lia|]. split; [lia|]. exists r. split; [apply L; exact R1|exact R2].
Qed.

Lemma server_ok_mono sv : server_ok w sv -> server_ok w' sv.
Proof. intros [S E]. split; [exact S|]. intros e He. apply entry_ok_mono, E, He. Qed.

Lemma client_ok_mono c : client_ok w c -> client_ok w' c.
Proof.
  intros [A B]. split; [pose proof (ext_fresh _ _ X); lia|].
  intros t Ht. exact (blob_ok_incl _ _ _ (ext_log _ _ X) (B t Ht)).
Qed.

Lemma conn_ok_mono cr : conn_ok w cr -> conn_ok w' cr.
Proof. intros H sid E. specialize (H sid E). pose proof (ext_fresh _ _ X). lia. Qed.

End Extends.

Lemma pruned_offered_ok w cp c c0 :
  Inv w -> offered_of w cp = Some c0 ->
  pruned blob c c0 -> client_ok w c.
Proof.
  intros HI G P. destruct (cp_offer cp); [|discriminate G]. destruct (inv_clients w HI c0 (zget_in G)) as [A B].
  split; [rewrite (pr_sess _ _ _ P); exact A|].
  intros t Ht. apply B. apply in_app_or in Ht. apply in_or_app.
  destruct Ht as [Ht|Ht]; [left; apply (pr_t10 _ _ _ P)|right; apply (pr_t13 _ _ _ P)]; exact Ht.
Qed.

Lemma server_ok_invalidate w sv sid :
  server_ok w sv -> server_ok w (set_store sv (cache_invalidate sid (sv_store sv))).
Proof.
  intros [S E]. split; cbn [sv_store set_store]; [apply cache_invalidate_sorted, S|].
  intros e' He. apply in_cache_invalidate in He. destruct He as [e [A [Es [Et _]]]].
  unfold entry_ok. rewrite Es, Et. exact (E e A).
Qed.

Lemma kill_ok_zset svs i sv sv' cr :
  zget svs i = Some sv ->
  (forall sid, cr_sobj cr = Some sid -> dead_in (sv_store sv) sid -> dead_in (sv_store sv') sid) ->
  kill_ok svs cr -> kill_ok (zset svs i sv') cr.
Proof.
  intros Z Keep K sid sv1 Hks Hs Zg.
  destruct (zget_zset Zg) as [[E ->]|[_ Zg']]; [|exact (K sid sv1 Hks Hs Zg')].
  apply (Keep sid Hs), (K sid sv Hks Hs). rewrite E. exact Z.
Qed.

Lemma init_inv cfgs : Inv (init_world blob cfgs).
Proof.
  unfold init_world. constructor; cbn [w_fresh w_clients w_servers w_conns w_log mk_world].
  - lia.
  - intros c [].
  - intros sv Hin. apply in_map_iff in Hin. destruct Hin as [c [<- _]]. split; [exact I|intros e []].
  - intros cr [].
  - intros cr [].
Qed.

(* One connection attempt.  Each clause of Inv for the world after it follows from the facts case_* about
   what the attempt changes. *)
Section ApplyDelta.
Variables (w : world') (cp : cparams) (sv : server) (d : delta blob).
Hypothesis HI : Inv w.
Hypothesis Z : zget (w_servers w) (cp_srv cp) = Some sv.
Hypothesis C : conn_case blob seal open w cp sv d.

Local Notation w' := (apply_delta blob w cp d).

Lemma delta_extends : extends w w'.
Proof.
  pose proof (case_bump C).
  constructor; cbn [apply_delta mk_world w_fresh w_now w_log]; [lia|lia|apply incl_appl, incl_refl].
Qed.

Lemma delta_logged : In (d_log blob d) (w_log w').
Proof. apply in_or_app. right. left. reflexivity. Qed.

Lemma delta_clients c : In c (w_clients w') -> client_ok w' c.
Proof.
  cbn [apply_delta mk_world w_clients]. intros Hc.
  assert (In c (put_client blob (w_clients w) (cp_offer cp) (d_used blob d)) \/ d_newc blob d = Some c) as [H|H].
  { destruct (d_newc blob d); [apply in_app_or in Hc; destruct Hc as [Hc|[<-|[]]]|]; auto. }
  - (* an object of w, or the offered one without its expired tickets *)
    apply (client_ok_mono _ _ delta_extends). clear Hc. revert c H. unfold put_client.
    destruct (cp_offer cp) as [i|] eqn:Ho; [|apply HI]. destruct (d_used blob d) as [u|] eqn:Hu; [|apply HI].
    apply all_zset; [apply HI|].
    destruct (case_used C Hu) as [c0 [G P]]. exact (pruned_offered_ok w cp u c0 HI G P).
  - (* the new object: its handle is 0 or the first fresh one, its tickets were sealed for this attempt,
       which completed and is logged *)
    destruct (case_newc C H) as [S T]. pose proof (inv_pos w HI). pose proof (case_bump C). split.
    + cbn. destruct S as [->| ->]; lia.
    + intros t Ht. destruct (T t Ht) as (k & n & p & sid & E & D & V). left.
      exists k, n, p, (d_log blob d), sid. auto using delta_logged.
Qed.

Lemma delta_servers sv' : In sv' (w_servers w') -> server_ok w' sv'.
Proof.
  assert (forall sv1, In sv1 (w_servers w) -> server_ok w' sv1) as Old
    by (intros sv1 H; exact (server_ok_mono _ _ delta_extends _ (inv_servers w HI sv1 H))).
  revert sv'. cbn [apply_delta mk_world w_servers]. rewrite Z.
  destruct (d_store blob d) as [st|] eqn:Hst; [apply all_zset; [exact Old|]|exact Old].
  destruct (inv_servers w HI sv (zget_in Z)) as [Hsorted Hent].
  split; cbn [sv_store set_store].
  - apply (case_store_sorted C Hst Hsorted). intros e He. apply (Hent e He).
  - intros e He. destruct (case_store C Hst He) as [Ho|[v [-> [A [B Sid]]]]].
    + exact (entry_ok_mono _ _ delta_extends _ (Hent e Ho)).
    + (* stored by this attempt: a completed full handshake, logged *)
      pose proof (case_bump C). split; [cbn; lia|]. split; [cbn; lia|]. exists (d_log blob d). auto using delta_logged.
Qed.

Lemma delta_conns cr : In cr (w_conns w') -> conn_ok w' cr.
Proof.
  destruct (inv_servers w HI sv (zget_in Z)) as [Hsorted Hent]. pose proof (case_bump C).
  revert cr. apply all_snoc; [intros cr H0; exact (conn_ok_mono _ _ delta_extends _ (inv_conns w HI cr H0))|].
  intros sid Hs. cbn. destruct (case_conn C Hsorted Hs) as [->|[e [A <-]]]; [lia|].
  destruct (Hent e A) as [F _]. lia.
Qed.

Lemma delta_kills cr : In cr (w_conns w') -> kill_ok (w_servers w') cr.
Proof.
  revert cr. cbn [apply_delta mk_world w_servers w_conns]. rewrite Z. apply all_snoc.
  - intros cr Hcr. pose proof (inv_ks w HI cr Hcr) as K.
    destruct (d_store blob d) as [st|] eqn:Hst; [|exact K].
    apply (kill_ok_zset _ _ sv); [exact Z| |exact K].
    (* a new cache entry has a session ID that no connection of w knows *)
    intros sid Hs Dead e He Hsid. cbn [sv_store set_store] in He.
    destruct (case_store C Hst He) as [Ho|[v [-> [_ [_ E]]]]]; [exact (Dead e Ho Hsid)|].
    cbn [ce_sess] in Hsid. pose proof (inv_conns w HI cr Hcr sid Hs). lia.
  - intros sid sv' Hks. rewrite (case_unkilled C) in Hks. discriminate Hks.
Qed.

Lemma apply_delta_inv : Inv w'.
Proof.
  constructor.
  - pose proof (inv_pos w HI). pose proof (case_bump C). cbn. lia.
  - exact delta_clients.
  - exact delta_servers.
  - exact delta_conns.
  - exact delta_kills.
Qed.

End ApplyDelta.

Lemma close_step_inv w c kind : Inv w -> Inv (close_step blob w c kind).
Proof.
  intros HI. unfold close_step. destruct (zget (w_conns w) c) as [cr|] eqn:Zc; [|exact HI].
  destruct (negb (cr_open cr)); [exact HI|].
  pose proof (zget_in Zc) as Hcr.
  set (inval_s := (kind =? 1) || (kind =? 2)). set (inval_c := (kind =? 1) || (kind =? 3)).
  constructor; cbn [w_fresh w_clients w_servers w_conns w_log mk_world]; try apply HI.
  - destruct (cr_cobj cr) as [i|]; [|apply HI]. destruct inval_c; [|apply HI].
    destruct (zget (w_clients w) i) as [co|] eqn:Zi; [|apply HI].
    apply all_zset; [apply HI|exact (inv_clients w HI co (zget_in Zi))].
  - destruct (cr_sobj cr) as [sid|]; [|apply HI].
    destruct (zget (w_servers w) (cr_srv cr)) as [sv|] eqn:Zs; [|apply HI]. destruct inval_s; [|apply HI].
    apply all_zset; [apply HI|]. apply server_ok_invalidate. exact (inv_servers w HI sv (zget_in Zs)).
  - apply all_zset; [apply HI|exact (inv_conns w HI cr Hcr)].
  - apply all_zset.
    + intros cr' Hcr'. pose proof (inv_ks w HI cr' Hcr') as K.
      destruct (cr_sobj cr) as [sid0|]; [|exact K].
      destruct (zget (w_servers w) (cr_srv cr)) as [sv|] eqn:Zs; [|exact K]. destruct inval_s; [|exact K].
      apply (kill_ok_zset _ _ sv); [exact Zs| |exact K].
      intros sid _ D. apply dead_in_invalidate. right. exact D.
    + intros sid sv' Hks Hs Zg. cbn [cr_ks cr_sobj cr_srv] in Hks, Hs, Zg. rewrite Hs in Zg.
      destruct (zget (w_servers w) (cr_srv cr)) as [sv|] eqn:Zs; [|rewrite Zs in Zg; discriminate Zg].
      rewrite Hks in Zg.
      destruct (zget_zset Zg) as [[_ ->]|[N _]]; [|contradiction N; reflexivity].
      apply dead_in_invalidate. left. reflexivity.
Qed.

Lemma on_client_inv w ci f :
  (forall c, client_ok w c -> client_ok w (f c)) -> Inv w -> Inv (on_client blob w ci f).
Proof.
  intros Hf HI. unfold on_client. destruct (zget (w_clients w) ci) as [c0|] eqn:Z; [|exact HI].
  constructor; cbn [with_clients w_fresh w_clients w_servers w_conns w_log mk_world]; try apply HI.
  apply all_zset; [apply HI|]. exact (Hf c0 (inv_clients w HI c0 (zget_in Z))).
Qed.

Lemma alter_first_inv w ci which g :
  (forall b, (exists b' i, g b = tamper b' i) \/ (exists n, g b = junk n)) ->
  Inv w ->
  Inv (on_client blob w ci (fun c => if which =? 0 then set_t10 blob c (map_first (tk_map blob g) (c_t10 c))
                                      else set_t13 blob c (map_first (tk_map blob g) (c_t13 c)))).
Proof.
  intros Hg. apply on_client_inv. intros c [S B]. split; [destruct (which =? 0); exact S|].
  assert (forall l t, In t (map_first (tk_map blob g) l) -> In t l \/ exists b, tk_blob t = g b) as K.
  { intros [|a r] t; cbn [map_first In]; [tauto|]. intros [<-|H]; [right; exists (tk_blob a); reflexivity|auto]. }
  assert (forall t, In t (c_t10 c ++ c_t13 c) \/ (exists b, tk_blob t = g b) -> blob_ok (w_log w) (tk_blob t)) as Ok.
  { intros t [Ht|[b ->]]; [exact (B t Ht)|right; apply Hg]. }
  intros t Ht. apply Ok.
  destruct (which =? 0); cbn [c_t10 c_t13 set_t10 set_t13] in Ht; apply in_app_or in Ht; destruct Ht as [Ht|Ht].
  (* t is in the altered list (first and last case) or in the one left alone *)
  1,4: apply K in Ht; destruct Ht as [Ht|Ht]; [left; apply in_or_app; auto|right; exact Ht].
  all: left; apply in_or_app; auto.
Qed.

Lemma step_inv w e : Inv w -> Inv (step' w e).
Proof.
  intros HI. destruct e as [cp|c k|dt|i cfg|ci which bit|ci which n|ci|ci|ci x|ci]; cbn [step].
  - (* EConn *) unfold conn_step. destruct (zget (w_servers w) (cp_srv cp)) as [sv|] eqn:Z; [|exact HI].
    exact (apply_delta_inv w cp sv _ HI Z (conn_delta_case blob seal open w cp sv)).
  - (* EClose *) apply close_step_inv. exact HI.
  - (* ETick *) constructor; cbn [w_fresh w_clients w_servers w_conns w_log mk_world]; try apply HI.
    intros sv H. apply (server_ok_mono w); [|exact (inv_servers w HI sv H)].
    constructor; cbn; try apply incl_refl; lia.
  - (* ECfg: the store stays *) destruct (zget (w_servers w) i) as [sv|] eqn:Z; [|exact HI].
    constructor; cbn [w_fresh w_clients w_servers w_conns w_log mk_world]; try apply HI.
    + apply all_zset; [apply HI|exact (inv_servers w HI sv (zget_in Z))].
    + intros cr Hcr. apply (kill_ok_zset _ _ sv); [exact Z|intros sid _ D; exact D|exact (inv_ks w HI cr Hcr)].
  - (* ETamper *) apply alter_first_inv; [intros b; left; eauto|exact HI].
  - (* EForge *) apply alter_first_inv; [intros b; right; eauto|exact HI].
  - (* EDevKeep: the tickets are the old ones with another reception time *)
    apply on_client_inv; [|exact HI]. intros c [S B]. split; [exact S|].
    intros t Ht. cbn [c_t10 c_t13 set_t10 set_t13] in Ht. rewrite <- map_app in Ht.
    apply in_map_iff in Ht. destruct Ht as [t0 [<- A]]. exact (B t0 A).
  (* EDevRevive, EDevSni, EDevRms change c_res, s_sni, c_rms, none of which client_ok reads *)
  - apply on_client_inv; [intros c H; exact H|exact HI].
  - apply on_client_inv; [intros c H; exact H|exact HI].
  - apply on_client_inv; [intros c H; exact H|exact HI].
Qed.

Lemma run_inv h w : Inv w -> Inv (run' h w).
Proof.
  revert w. induction h as [|e h IH]; intros w HI; cbn [run fold_left]; [exact HI|].
  apply IH. apply step_inv. exact HI.
Qed.

Definition reachable (w : world') : Prop :=
  exists cfgs h, w = run' h (init_world blob cfgs).

Lemma reachable_inv w : reachable w -> Inv w.
Proof. intros [cfgs [h ->]]. apply run_inv. apply init_inv. Qed.

End Hist.

Arguments inv_pos {blob seal tamper junk w}.
Arguments inv_clients {blob seal tamper junk w}.
Arguments inv_servers {blob seal tamper junk w}.
Arguments inv_conns {blob seal tamper junk w}.
Arguments inv_ks {blob seal tamper junk w}.
Arguments reachable_inv {blob seal open tamper junk w}.
Arguments entry_origin {blob w sv e}.
Arguments pruned_offered_ok {blob seal tamper junk w cp c c0}.
