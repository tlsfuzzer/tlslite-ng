(* C02 through the dispatchers of sendRecord / recvRecord: the notions the statements of Props/C02.v
   are written in (choice_legal, onto_ok, ideal_one_key); what tlslite's own sender produces is accepted
   by the receiver in step with it, which is how the rejection theorems of Props/C02.v get at the record
   they speak of. *)
From Coq Require Import ZArith List.
From TV Require Import Base.Prelude Model.C01_RecordPipe Spec.C01_Contracts Model.C02_RecordAccept Spec.C02_Ideal
  Proofs.C01_RoundTrip Proofs.C01_Tls13 Proofs.C01_Delivery Proofs.C02_Accept.
Import ListNotations.
Open Scope Z_scope.

Section Image.
Context {CS : Type}.
Variable P : Prim CS.
Variable R : CS -> CS -> Prop.
Variable c : Cfg.

Definition choice_legal (md : mode) (ch : Choice) : Prop :=
  match md with
  | MStream => True
  | MCbc => pad_legal c ch
  | MEtm => c_has_enc c = true -> pad_legal_etm c ch
  | MAead12 => explicit_nonce c = true -> zlen (ch_nonce ch) = 8
  | MTls13 => 0 <= ch_zeros ch
  end.

Definition onto_ok (md : mode) : Prop :=
  match md with
  | MStream => c_has_enc c = true -> cipher_onto P R 1
  | MCbc => cipher_onto P R (c_bs c)
  | MEtm => c_has_enc c = true -> cipher_onto P R (c_bs c)
  | _ => aead_tight P
  end.

(* both are notions of the path lemmas, spelled out again for the statements of Props/C02.v *)
Lemma choice_legal_eq md ch : choice_legal md ch = legal c md ch.
Proof. reflexivity. Qed.

Lemma onto_ok_eq md : onto_ok md = onto P R c md.
Proof. reflexivity. Qed.

Lemma protect_accepted md (s s' rj : St CS) ty data hty hver body :
  mode_ok P R md c -> sync R s rj -> rec_ok c ty data -> (md = MTls13 -> ty <> 20) -> st_seq s < SEQ_MAX ->
  protect c P s (ty, data) = ROk (s', (hty, hver, body)) ->
  (exists rj', unprotect c P rj (hty, hver, body) = ROk (rj', (ty, data))) /\ (md = MTls13 -> hty = 23).
Proof.
  intros Hmode Hsync Hrec H20 Hs Hp.
  destruct (protect_unprotect_len P R c md s rj ty data Hmode Hsync Hrec H20 Hs) as [s2 [w2 [rj' [[Hp2 Hu _ _] _]]]].
  rewrite Hp in Hp2. injection Hp2 as <- <-. split; [eauto|]. intros ->.
  rewrite (protect13 (mode_tls13 Hmode) _ _ _ (H20 eq_refl)) in Hp.
  apply rbind_ok_inv in Hp. destruct Hp as [d [_ Hp]]. apply rbind_ok_inv in Hp. destruct Hp as [[s1 b] [_ Hp]].
  destruct (65536 <=? zlen b); [discriminate|]. injection Hp as _ <- _ _. reflexivity.
Qed.

Definition ideal_one_key (md : mode) : Prop :=
  (md = MEtm -> mac_injective_ideal P) /\ (md <> MEtm -> aead_tight P /\ seal_injective_ideal P).
End Image.
