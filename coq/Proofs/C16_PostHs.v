(* C16: Spec.Inv (records in flight are in step with their reader's keys, application data is a FIFO,
   KeyUpdate counters, post-handshake-auth bookkeeping) holds in every reachable state. *)
From Coq Require Import ZArith List Bool Lia.
From TV Require Import Base.Prelude Base.PreludeFacts Model.C14_Fragment Proofs.C14_Fragment Model.C16_PostHs Spec.C16_Spec Proofs.C16_Step.
Import ListNotations.
Open Scope Z_scope.

Lemma in_step_trans : forall ch g w l w',
  in_step g ch w -> in_step w l w' -> in_step g (ch ++ l) w'.
Proof.
  induction ch as [|r ch IH]; intros g w l w' H1 H2; cbn [app in_step] in *.
  - subst. exact H2.
  - destruct H1 as [Ht H1]. split; [exact Ht|]. eapply IH; eassumption.
Qed.

Lemma in_step_nk l w : Forall (fun r => tag r = w /\ valid_ku (body r) = false) l -> in_step w l w.
Proof. induction 1 as [|r l [Ht Hk] _ IH]; cbn [in_step]; [reflexivity|]. rewrite Hk. split; assumption. Qed.

Lemma in_step_skip cons g l w :
  Forall (fun r => valid_ku (body r) = false) cons -> in_step g (cons ++ l) w -> in_step g l w.
Proof. induction 1 as [|r cons Hk _ IH]; cbn [app in_step]; [auto|]. rewrite Hk. intros [_ H]. exact (IH H). Qed.

Lemma chdata_app a b : chdata (a ++ b) = chdata a ++ chdata b.
Proof. unfold chdata. apply flat_map_app. Qed.

Lemma noku_Forall l : noku l <-> Forall (fun r => valid_ku (body r) = false) l.
Proof. symmetry. apply Forall_forall. Qed.

Lemma noku_nk l : (forall r, In r l -> valid_ku (body r) = false) -> noku l.
Proof. intros H. exact H. Qed.

Lemma flat_map_nil {A B} (f : A -> list B) l : Forall (fun x => f x = []) l -> flat_map f l = [].
Proof. induction 1 as [|x l E _ IH]; cbn [flat_map]; [reflexivity|]. rewrite E, IH. reflexivity. Qed.

Lemma quiet_nk l : Forall (fun r => quiet (body r)) l -> Forall (fun r => valid_ku (body r) = false) l.
Proof. apply Forall_impl. intros r [H _]. exact H. Qed.

Lemma chdata_quiet l : Forall (fun r => quiet (body r)) l -> chdata l = [].
Proof. intros H. apply flat_map_nil. revert H. apply Forall_impl. intros r [_ H]. exact H. Qed.

Definition ctl (w : Z) (r : rec) : Prop := tag r = w /\ quiet (body r).

Lemma ctl_facts w l : Forall (ctl w) l -> in_step w l w /\ chdata l = [] /\ noku l.
Proof.
  intros H. assert (Hq : Forall (fun r => quiet (body r)) l) by (revert H; apply Forall_impl; intros r [_ Hr]; exact Hr).
  split; [|split; [apply chdata_quiet, Hq|apply noku_Forall, quiet_nk, Hq]].
  apply in_step_nk. revert H. apply Forall_impl. intros r (Ht & Hk & _). split; assumption.
Qed.

(* the fragmentation loop is the one of Model/C14_Fragment.v, counted in nat; its facts are read off
   Proofs/C14_Fragment.v *)
Lemma chunks_fragment_fuel fuel n d : chunks fuel n d = fragment_fuel fuel (Z.of_nat n) d.
Proof.
  revert d. induction fuel as [|f IH]; intros d; [reflexivity|].
  cbn [chunks fragment_fuel]. rewrite IH, Nat2Z.id. unfold zlen.
  destruct (Nat.leb_spec (length d) n), (Z.ltb_spec (Z.of_nat n) (Z.of_nat (length d))); try reflexivity; lia.
Qed.

Lemma chunks_concat : forall fuel n d, concat (chunks fuel n d) = d.
Proof. intros. rewrite chunks_fragment_fuel. apply fragment_fuel_concat. Qed.

Lemma chdata_map_data w l : chdata (map (fun f => mkrec w (MData f)) l) = concat l.
Proof.
  unfold chdata. induction l as [|x l IH]; cbn [map flat_map concat]; [reflexivity|].
  cbn [body mdata]. rewrite IH. reflexivity.
Qed.

Lemma NoDup_snoc {A} (l : list A) x : NoDup l -> ~ In x l -> NoDup (l ++ [x]).
Proof.
  intros Hd Hn. apply (NoDup_Add (Add_app x l [])). rewrite app_nil_r. split; assumption.
Qed.

Lemma ctx_mem_in c l : ctx_mem c l = true <-> In c (map fst l).
Proof.
  unfold ctx_mem. rewrite existsb_exists. split.
  - intros [p [Hp He]]. apply Z.eqb_eq in He. subst. apply in_map. exact Hp.
  - intros H. apply in_map_iff in H. destruct H as [p [He Hp]]. exists p. split; [exact Hp|]. apply Z.eqb_eq. exact He.
Qed.

Lemma ctxs_pop me c : ctxs (pop_ctx me c) = filter (fun x => negb (x =? c)) (ctxs me).
Proof.
  unfold ctxs, pop_ctx, ctx_del. cbn [au set_au pending].
  induction (pending (au me)) as [|p l IH]; cbn [filter map]; [reflexivity|].
  destruct (fst p =? c); cbn [negb map]; rewrite IH; reflexivity.
Qed.

Lemma in_ctxs_pop x c me : In x (ctxs (pop_ctx me c)) <-> In x (ctxs me) /\ x <> c.
Proof. rewrite ctxs_pop, filter_In, negb_true_iff, Z.eqb_neq. reflexivity. Qed.

Lemma filter_absent c l : ~ In c l -> filter (fun x => negb (x =? c)) l = l.
Proof.
  induction l as [|x l IH]; cbn [filter]; intros Hn; [reflexivity|].
  destruct (x =? c) eqn:Ex; [apply Z.eqb_eq in Ex; destruct Hn; left; exact Ex|].
  cbn [negb]. rewrite IH; [reflexivity|]. intros H. apply Hn. right. exact H.
Qed.

Lemma ctxs_pop_hd me c L : NoDup (ctxs me) -> ctxs me = c :: L -> ctxs (pop_ctx me c) = L.
Proof.
  intros Hd E. rewrite ctxs_pop, E. rewrite E in Hd. apply NoDup_cons_iff in Hd.
  cbn [filter]. rewrite Z.eqb_refl. apply filter_absent, Hd.
Qed.

Lemma au_ok_pop me c : au_ok me -> au_ok (pop_ctx me c).
Proof.
  intros (Hnd & Hrange & Hacc & Hused & Hpos). unfold au_ok.
  split; [rewrite ctxs_pop; apply NoDup_filter, Hnd|].
  split; [intros x Hx; apply in_ctxs_pop in Hx; apply Hrange, Hx|].
  split; [exact Hacc|]. split; [|exact Hpos].
  intros x Hx. split; [apply Hused, Hx|]. intros Hin. apply in_ctxs_pop in Hin. apply (Hused x Hx), Hin.
Qed.

Lemma au_ok_record me c ch : au_ok me -> In c (ctxs me) -> au_ok (record_chain (pop_ctx me c) c ch).
Proof.
  intros Hm Hin. destruct (au_ok_pop me c Hm) as (Pnd & Prange & _ & Pused & Ppos). destruct Hm as (_ & Hrange & Hacc & Hused & _).
  split; [exact Pnd|]. split; [exact Prange|].
  split; [apply NoDup_snoc; [exact Hacc|]; intros Ha; apply (Hused c Ha); exact Hin|].
  split; [|exact Ppos].
  intros x Hx. apply in_app_or in Hx. destruct Hx as [Hx|[<-|[]]]; [apply Pused, Hx|].
  split; [apply Hrange, Hin|]. intros Hd. apply in_ctxs_pop in Hd. apply Hd. reflexivity.
Qed.

Lemma au_ok_request me wf : au_ok me ->
  au_ok (set_au me (mkau (pending (au me) ++ [(next_ctx (au me), wf)]) (next_ctx (au me) + 1)
                         (chain (au me)) (accepted (au me)) (first_ctx (au me)))).
Proof.
  unfold au_ok, ctxs. cbn. intros (Hnd & Hrange & Hacc & Hused & Hpos).
  rewrite map_app. cbn [map fst].
  split; [apply NoDup_snoc; [exact Hnd|]; intros Hin; apply Hrange in Hin; lia|].
  split; [intros x Hx; apply in_app_or in Hx; destruct Hx as [Hx|[Hx|[]]]; [apply Hrange in Hx; lia|lia]|].
  split; [exact Hacc|]. split; [|lia].
  intros x Hx. destruct (Hused x Hx) as [Ha Hb]. split; [lia|].
  intros Hin. apply in_app_or in Hin. destruct Hin as [Hin|[Hin|[]]]; [tauto|lia].
Qed.

Definition same_wire (me me' : ep) : Prop :=
  (ks me', sent (io me'), delivered (io me'), badmac (io me')) = (ks me, sent (io me), delivered (io me), badmac (io me)).

Lemma bad_quiet v13 me m d : bad_control v13 me m = Some d -> (v13 = false -> valid_ku m = false) -> quiet m.
Proof.
  destruct m; cbn [bad_control]; try discriminate; try (split; reflexivity).
  intros H Hn. split; [|reflexivity]. destruct v13; [|auto]. cbn [negb valid_ku] in *.
  destruct (v <? 0) eqn:E0; [lia|]. destruct (2 <=? v) eqn:E2; [lia|discriminate].
Qed.

Lemma half_keys v13 W R ch : half v13 W R ch -> in_step (rgen (ks R)) ch (wgen (ks W)).
Proof. intros H. apply H. Qed.
Lemma half_fifo v13 W R ch : half v13 W R ch -> sent (io W) = delivered (io R) ++ rbuf (io R) ++ chdata ch.
Proof. intros H. apply H. Qed.
Lemma half_noku v13 W R ch : half v13 W R ch -> v13 = false -> noku ch.
Proof. intros H. apply H. Qed.
Arguments half_keys {v13 W R ch}.
Arguments half_fifo {v13 W R ch}.
Arguments half_noku {v13 W R ch}.

Lemma Inv_ab s : Inv s -> half (g13 s) (ea s) (eb s) (ab s).
Proof. intros H. apply H. Qed.
Lemma Inv_ba s : Inv s -> half (g13 s) (eb s) (ea s) (ba s).
Proof. intros H. apply H. Qed.
Lemma Inv_cnt s : Inv s -> cnt_ok (ea s) /\ cnt_ok (eb s).
Proof. intros (_ & _ & A & B & _). split; assumption. Qed.
Lemma Inv_au s : Inv s -> au_ok (ea s) /\ au_ok (eb s).
Proof. intros (_ & _ & _ & _ & A & B). split; assumption. Qed.

Lemma upd_inv s me' em inc' :
  Inv s ->
  in_step (rgen (ks me')) inc' (wgen (ks (eb s))) ->
  (g13 s = false -> noku inc') ->
  delivered (io me') ++ rbuf (io me') ++ chdata inc' = delivered (io (ea s)) ++ rbuf (io (ea s)) ++ chdata (ba s) ->
  in_step (wgen (ks (ea s))) em (wgen (ks me')) ->
  sent (io me') = sent (io (ea s)) ++ chdata em ->
  (g13 s = false -> noku em) ->
  cnt_ok me' -> au_ok me' ->
  Inv (mkst me' (eb s) (ab s ++ em) inc' (g13 s)).
Proof.
  intros H H1 H2 H3 H4 H5 H6 H7 H8.
  pose proof (Inv_ab s H) as A. pose proof (Inv_ba s H) as B.
  unfold Inv, half. cbn [ea eb ab ba g13].
  split. { split; [exact (in_step_trans _ _ _ _ _ (half_keys A) H4)|].
           split; [|intros Hv; apply noku_Forall, Forall_app; split; apply noku_Forall; [exact (half_noku A Hv)|exact (H6 Hv)]].
           rewrite H5, (half_fifo A), chdata_app, !app_assoc. reflexivity. }
  split. { split; [exact H1|]. split; [|exact H2]. rewrite (half_fifo B). symmetry. exact H3. }
  split; [exact H7|]. split; [apply (Inv_cnt s H)|]. split; [exact H8|apply (Inv_au s H)].
Qed.

Lemma upd_stop s cons inc' me' em :
  Inv s -> ba s = cons ++ inc' -> Forall (fun r => valid_ku (body r) = false) cons ->
  same_wire (ea s) me' -> rbuf (io me') = rbuf (io (ea s)) ++ chdata cons -> au_ok me' ->
  Forall (ctl (wgen (ks (ea s)))) em ->
  Inv (mkst me' (eb s) (ab s ++ em) inc' (g13 s)).
Proof.
  intros H E Hk [= Ek Es Ed Eb] Er Ha He. pose proof (Inv_ba s H) as B.
  destruct (ctl_facts _ _ He) as (He1 & He2 & He3).
  apply upd_inv; [exact H| | | | | | | |exact Ha]; rewrite ?Ek, ?Ed, ?Er, ?Es.
  - apply (in_step_skip cons); [exact Hk|]. rewrite <- E. exact (half_keys B).
  - intros Hv x Hx. apply (half_noku B Hv). rewrite E. apply in_or_app. right. exact Hx.
  - rewrite E, chdata_app, <- !app_assoc. reflexivity.
  - exact He1.
  - rewrite He2. symmetry. apply app_nil_r.
  - intros _. exact He3.
  - unfold cnt_ok. rewrite Ek, Eb. apply (Inv_cnt s H).
Qed.

Lemma upd_one s r inc' me' em :
  Inv s -> ba s = r :: inc' -> quiet (body r) -> same_wire (ea s) me' ->
  rbuf (io me') = rbuf (io (ea s)) -> au_ok me' -> Forall (ctl (wgen (ks (ea s)))) em ->
  Inv (mkst me' (eb s) (ab s ++ em) inc' (g13 s)).
Proof.
  intros H E [Hq1 Hq2] Hw Er Ha He.
  apply (upd_stop s [r]); try assumption; [constructor; [exact Hq1|constructor]|].
  rewrite Er. unfold chdata. cbn [flat_map]. rewrite Hq2. symmetry. apply app_nil_r.
Qed.

Lemma upd_quiet s me' em :
  Inv s -> same_wire (ea s) me' -> rbuf (io me') = rbuf (io (ea s)) -> au_ok me' ->
  Forall (ctl (wgen (ks (ea s)))) em -> Inv (mkst me' (eb s) (ab s ++ em) (ba s) (g13 s)).
Proof.
  intros H Hw Er Ha He. apply (upd_stop s []); try assumption; [reflexivity|constructor|].
  rewrite Er. symmetry. apply app_nil_r.
Qed.

Lemma st_eta s : mkst (ea s) (eb s) (ab s) (ba s) (g13 s) = s.
Proof. destruct s; reflexivity. Qed.

Lemma injectable_quiet m : injectable m = true -> quiet m.
Proof.
  destruct m; cbn [injectable]; try discriminate; try (split; reflexivity).
  intros H. apply negb_true_iff in H. split; [exact H|reflexivity].
Qed.

(* an empty fragment or a heartbeat record is a quiet record read; a KeyUpdate moves the reader's generation
   with the channel's, and the answer to a request goes out under the old write generation before that one moves *)
Lemma turn_inv s r inc' me1 k :
  Inv s -> ba s = r :: inc' -> go (g13 s) (ea s) (body r) me1 k -> Inv (mkst me1 (eb s) (ab s ++ k) inc' (g13 s)).
Proof.
  intros H Eba Hg. pose proof (Inv_ba _ H) as B. rewrite Eba in B.
  destruct (half_keys B) as [_ Hs]. destruct (Inv_cnt s H) as [C1 _]. destruct (Inv_au s H) as [D1 _].
  assert (Hn : g13 s = false -> noku inc')
    by (intros Hv; apply noku_Forall; exact (Forall_inv_tail (proj1 (noku_Forall _) (half_noku B Hv)))).
  remember (body r) as m eqn:Eb. destruct Hg as [| |Hv|b me1' out _ Ho].
  - (* go_empty *) apply (upd_one s r); [exact H|exact Eba|rewrite <- Eb; split; reflexivity|reflexivity|reflexivity|exact D1|constructor].
  - (* go_ku0 *) apply upd_inv; [exact H|exact Hs|exact Hn| | | | | |exact D1]; cbn.
    + rewrite Eba. unfold chdata. cbn [flat_map]. rewrite <- Eb. reflexivity.
    + reflexivity.
    + symmetry. apply app_nil_r.
    + intros _. apply noku_Forall. constructor.
    + unfold cnt_ok in *. cbn. repeat split; try tauto; lia.
  - (* go_ku1 *) apply upd_inv; [exact H|exact Hs|exact Hn| | | | | |exact D1]; cbn.
    + rewrite Eba. unfold chdata. cbn [flat_map]. rewrite <- Eb. reflexivity.
    + split; reflexivity.
    + symmetry. apply app_nil_r.
    + congruence.
    + unfold cnt_ok in *. cbn. repeat split; try tauto; lia.
  - (* go_hb *) destruct Ho; (apply (upd_one s r); [exact H|exact Eba|rewrite <- Eb; split; reflexivity|reflexivity|reflexivity|exact D1|repeat constructor]).
Qed.

Lemma upd_keeps s o me' em inc' : Inv s -> upd s o me' em inc' -> Inv (mkst me' (eb s) (ab s ++ em) inc' (g13 s)).
Proof.
  intros H U.
  pose proof (half_keys (Inv_ba s H)) as B1. pose proof (half_noku (Inv_ba s H)) as B3.
  destruct (Inv_cnt s H) as [C1 _]. destruct (Inv_au s H) as [D1 _].
  destruct U as [d|mx|mx _|mx r inc' Eba Ht|mx r inc' me1 k Eba Hg|mx r inc' R Hrb Eba Hst|req Ev|ce Ev Ec Ep|p pl _|k _ _| |n _|d|m Hi|].
  - (* OWrite *)
    assert (Hnk : Forall (fun r => tag r = wgen (ks (ea s)) /\ valid_ku (body r) = false)
                    (map (fun f => emit (ea s) (MData f)) (fragments (recsize (cf (ea s))) d)))
      by (apply Forall_map, Forall_forall; intros; split; reflexivity).
    apply upd_inv; [exact H|exact B1|exact B3|reflexivity| | | |exact C1|exact D1].
    + apply in_step_nk, Hnk.
    + cbn. unfold emit, fragments. rewrite chdata_map_data, chunks_concat. reflexivity.
    + intros _. apply noku_Forall. revert Hnk. apply Forall_impl. intros r [_ Hk]. exact Hk.
  - (* ORead from the buffer *)
    apply upd_inv; [exact H|exact B1|exact B3| |reflexivity|symmetry; apply app_nil_r|intros _; apply noku_Forall; constructor|exact C1|exact D1].
    cbn. rewrite <- !app_assoc. f_equal. rewrite app_assoc. f_equal. apply firstn_skipn.
  - (* ORead, decode_error *) apply (upd_quiet s _ _ H); [reflexivity|reflexivity|exact D1|repeat constructor].
  - (* a record of the channel does not open: the channel is in step with the reader's keys *)
    rewrite Eba in B1. destruct Ht. apply B1.
  - exact (turn_inv s r inc' me1 k H Eba Hg).
  - (* a record of the channel ends the call *)
    rewrite Eba in B1, B3.
    destruct Hst as [d Hb|x d Eb|Eb|ctx wf Eb|ctx ch Eb Em|f d em0 c0 Eb Hem]; cbn [fst snd die].
    + (* stop_bad *) apply (upd_one s r); [exact H|exact Eba| |reflexivity|reflexivity|exact D1|repeat constructor].
      apply (bad_quiet _ _ _ _ Hb). intros Hv. exact (Forall_inv (proj1 (noku_Forall _) (B3 Hv))).
    + (* stop_data *) apply (upd_stop s [r]); [exact H|exact Eba| |reflexivity| |exact D1|constructor].
      * constructor; [rewrite Eb; reflexivity|constructor].
      * cbn [set_rbuf io rbuf]. rewrite Hrb. unfold chdata. cbn [flat_map app]. rewrite Eb. symmetry. apply app_nil_r.
    + (* stop_nst *) apply (upd_one s r); [exact H|exact Eba|rewrite Eb; split; reflexivity|reflexivity|reflexivity|exact D1|constructor].
    + (* stop_req *) apply (upd_one s r); [exact H|exact Eba|rewrite Eb; split; reflexivity|reflexivity|reflexivity|exact D1|].
      apply Forall_map. eapply Forall_impl; [|apply pha_reply_msgs].
      intros m Hm. split; [reflexivity|apply pha_msg_quiet, Hm].
    + (* stop_cert: the answer of [srv_pha], which acts for the endpoint with the context removed *)
      assert (Hq : forall cons, Forall (fun x => quiet (body x)) cons -> Forall (fun x => quiet (body x)) (r :: cons))
        by (intros cons Hc; constructor; [rewrite Eb; split; reflexivity|exact Hc]).
      destruct (srv_pha_out (ea s) (pop_ctx (ea s) ctx) (r :: inc') inc' ctx ch) as [|cons tl d -> Hc|cons g tl -> Hc Hf|cons tl -> Hc _];
        cbn [fst snd die].
      * (* pha_block *) rewrite app_nil_r, <- Eba, st_eta. exact H.
      * (* pha_die *) apply (upd_stop s (r :: cons));
          [exact H|exact Eba|apply quiet_nk, Hq, Hc|reflexivity| |apply au_ok_pop, D1|repeat constructor].
        rewrite (chdata_quiet _ (Hq _ Hc)). symmetry. apply app_nil_r.
      * (* pha_badtag: the channel is in step *) apply (in_step_skip (r :: cons)) in B1; [|apply quiet_nk, Hq, Hc]. destruct B1 as [Ht _]. destruct (Hf Ht).
      * (* pha_accept *) apply (upd_stop s (r :: cons));
          [exact H|exact Eba|apply quiet_nk, Hq, Hc|reflexivity| | |constructor].
        -- rewrite (chdata_quiet _ (Hq _ Hc)). symmetry. apply app_nil_r.
        -- apply au_ok_record; [exact D1|]. apply ctx_mem_in. exact Em.
    + (* stop_alert *) apply (upd_one s r); [exact H|exact Eba|rewrite Eb; split; reflexivity|reflexivity|reflexivity|exact D1|].
      apply Forall_forall. intros x Hx. apply Hem in Hx. destruct Hx as [<-|[]]. repeat constructor.
  - (* OKeyUpdate *)
    apply upd_inv; [exact H|exact B1|exact B3|reflexivity| | | | |exact D1].
    + cbn. split; [reflexivity|]. destruct req; reflexivity.
    + cbn. rewrite app_nil_r. reflexivity.
    + rewrite Ev. discriminate.
    + unfold cnt_ok, bump_w in *. cbn. repeat split; try tauto; lia.
  - (* ORequestAuth *) apply (upd_quiet s _ _ H); [reflexivity|reflexivity|apply au_ok_request, D1|repeat constructor].
  - (* OHeartbeat *) apply (upd_quiet s _ _ H); [reflexivity|reflexivity|exact D1|repeat constructor].
  - (* OTickets *) apply (upd_quiet s _ _ H); [reflexivity|reflexivity|exact D1|apply Forall_repeat; repeat constructor].
  - (* OClose *) apply (upd_quiet s _ _ H); [reflexivity|reflexivity|exact D1|repeat constructor].
  - (* OSetRecSize *) apply (upd_quiet s _ _ H); [reflexivity|reflexivity|exact D1|constructor].
  - (* OSetDev *) apply (upd_quiet s _ _ H); [reflexivity|reflexivity|exact D1|constructor].
  - (* OInject *) apply (upd_quiet s _ _ H); [reflexivity|reflexivity|exact D1|].
    constructor; [split; [reflexivity|apply injectable_quiet, Hi]|constructor].
  - (* OReplayPha *) apply (upd_quiet s _ _ H); [reflexivity|reflexivity|exact D1|repeat constructor].
Qed.

Lemma act_inv s o : Inv s -> Inv (fst (act s o)).
Proof. apply act_steps. intros x me' em inc'. apply upd_keeps. Qed.

Lemma swap_inv s : Inv s -> Inv (swap s).
Proof. unfold Inv, swap. cbn. tauto. Qed.

Lemma exec_inv ops s : Inv s -> Inv (exec s ops).
Proof.
  intros H. apply (exec_invariant (fun _ => Inv) (fun _ _ => True)); [intros _; exact swap_inv|intros _ x o Hx _; exact (act_inv x o Hx)|exact H|].
  apply Forall_forall. auto.
Qed.

Lemma init_inv v13 cc sc nst : Inv (init v13 cc sc nst).
Proof.
  assert (Hq : Forall (fun r => ctl 0 r) (repeat (mkrec 0 MNST) (Z.to_nat nst)))
    by (apply Forall_repeat; repeat constructor).
  destruct (ctl_facts _ _ Hq) as (Hq1 & Hq2 & Hq3).
  unfold init, Inv, half. cbn [ea eb ab ba g13]. rewrite Hq2.
  split; [split; [reflexivity|split; [reflexivity|intros _; apply noku_Forall; constructor]]|].
  split; [split; [exact Hq1|split; [reflexivity|intros _; exact Hq3]]|].
  unfold cnt_ok, au_ok, ctxs. cbn. repeat split; try constructor; try lia; intros c [].
Qed.

Lemma reach_inv v13 cc sc nst ops : Inv (exec (init v13 cc sc nst) ops).
Proof. apply exec_inv. apply init_inv. Qed.

Lemma die_facts me rest d :
  let '(me', rest', em, c) := die me rest d in
  closed (io me') = true /\ em = [emit me (MAlert true d)] /\ c = 100 + d /\
  delivered (io me') = delivered (io me) /\ rbuf (io me') = rbuf (io me) /\ alerts (io me') = alerts (io me) ++ [d].
Proof. unfold die, fatal. cbn. repeat split. Qed.

Lemma same_inv s : Inv s -> Inv (mkst (ea s) (eb s) (ab s ++ []) (ba s) (g13 s)).
Proof. intros H. apply upd_quiet; [exact H|reflexivity|reflexivity|apply H|constructor]. Qed.

Lemma chdata_map_nodata w (f : list Z -> msg) l :
  (forall x, mdata (f x) = []) -> chdata (map (fun x => mkrec w (f x)) l) = [].
Proof. intros H. apply flat_map_nil, Forall_map, Forall_forall. intros x _. apply H. Qed.
