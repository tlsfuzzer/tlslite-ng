(* C08, error funnel: lemmas about Model/C08_Funnel.v.

   The funnel is a pipeline (funnel_stages): the event happens (perform), the record-layer and
   _getMsg handlers, which are one handler with the table mapped_alert, may turn the raised class
   into _sendError (mapped_handler), the handler of the public call reacts (outer).  Two relations
   between the state before and after carry the closure properties: `frame` (what no stage ever
   undoes) and `shut` (a _shutdown happened in between).  The exact results come from one equation
   per stage (funnel_sendError, funnel_raise*, peer_alert_stages) followed by the equation of
   `outer` on the class then pending (outer_local_alert, outer_sock_error, outer_remote_alert). *)
From Coq Require Import ZArith List Bool.
From TV Require Import Model.C08_Funnel.
Import ListNotations.
Open Scope Z_scope.

(* `subclass e X` with a variable e must stay folded; closed instances are computed by conc *)
Arguments subclass : simpl never.

Ltac conc :=
  repeat match goal with
         | |- context [subclass ?a ?b] =>
             tryif is_var a then fail else
               (let v := eval vm_compute in (subclass a b) in change (subclass a b) with v)
         | H : context [subclass ?a ?b] |- _ =>
             tryif is_var a then fail else
               (let v := eval vm_compute in (subclass a b) in change (subclass a b) with v in H)
         end.

Lemma exc_code_roundtrip : forall e, exc_of_code (exc_code e) = Some e.
Proof. destruct e; reflexivity. Qed.

Lemma all_exc_complete : forall e, In e all_exc.
Proof.
  intros e. pose proof (exc_code_roundtrip e) as H. unfold exc_of_code in H.
  apply find_some in H. exact (proj1 H).
Qed.

Lemma exc_code_injective : forall a b, exc_code a = exc_code b -> a = b.
Proof.
  intros a b H. pose proof (exc_code_roundtrip a) as Ha. rewrite H in Ha.
  rewrite exc_code_roundtrip in Ha. congruence.
Qed.

Lemma exc_eqb_eq : forall a b, exc_eqb a b = true <-> a = b.
Proof.
  intros a b. unfold exc_eqb. rewrite Z.eqb_eq. split; [apply exc_code_injective|congruence].
Qed.

Lemma subclass_In : forall a b, subclass a b = true <-> In b (ancestors 8 a).
Proof.
  intros a b. unfold subclass. rewrite existsb_exists. split.
  - intros (x & Hx & E). apply exc_eqb_eq in E. subst x. exact Hx.
  - intros H. exists b. split; [exact H|apply exc_eqb_eq; reflexivity].
Qed.

(* the fuel of `ancestors` suffices: every class reaches the root, and is its own subclass *)
Lemma subclass_root : forall e, subclass e E_BaseException = true.
Proof. destruct e; vm_compute; reflexivity. Qed.

Lemma subclass_refl : forall e, subclass e e = true.
Proof. intros e. apply subclass_In. destruct e; left; reflexivity. Qed.

(* transitivity as a finite table, over the ancestors of each class only *)
Lemma ancestors_closed :
  forallb (fun a => forallb (fun b => forallb (subclass a) (ancestors 8 b)) (ancestors 8 a)) all_exc
  = true.
Proof. vm_compute. reflexivity. Qed.

Lemma subclass_trans : forall a b c,
  subclass a b = true -> subclass b c = true -> subclass a c = true.
Proof.
  intros a b c H1 H2. apply subclass_In in H1, H2. pose proof ancestors_closed as H.
  rewrite forallb_forall in H. specialize (H a (all_exc_complete a)).
  rewrite forallb_forall in H. specialize (H b H1).
  rewrite forallb_forall in H. exact (H c H2).
Qed.

Lemma exception_not_genexit : forall e,
  subclass e E_Exception = true -> subclass e E_GeneratorExit = false.
Proof. destruct e; vm_compute; congruence. Qed.

Lemma remote_is_alert : forall e,
  subclass e E_TLSRemoteAlert = true -> subclass e E_TLSAlert = true.
Proof. intros e H. apply (subclass_trans e E_TLSRemoteAlert); [exact H|reflexivity]. Qed.

Lemma genexit_not_exception : forall e,
  subclass e E_GeneratorExit = true -> subclass e E_Exception = false.
Proof. destruct e; vm_compute; congruence. Qed.

Lemma documented_strict_documented : forall e, documented_strict e = true -> documented e = true.
Proof. destruct e; vm_compute; congruence. Qed.

Record frame (st st' : cst) : Prop := {
  frame_session : has_session st' = has_session st;
  frame_close_socket : close_socket st' = close_socket st;
  frame_ignore_abrupt : ignore_abrupt st' = ignore_abrupt st;
  frame_closed : closed st = true -> closed st' = true;
  frame_sock_closed : sock_closed st = true -> sock_closed st' = true;
  frame_unresumable : resumable st = false -> resumable st' = false }.
Arguments frame_session {st st'}.
Arguments frame_close_socket {st st'}.
Arguments frame_ignore_abrupt {st st'}.
Arguments frame_closed {st st'}.
Arguments frame_sock_closed {st st'}.
Arguments frame_unresumable {st st'}.

Lemma frame_refl st : frame st st.
Proof. constructor; auto. Qed.

Lemma frame_trans {st1 st2 st3} : frame st1 st2 -> frame st2 st3 -> frame st1 st3.
Proof.
  intros F G. constructor.
  - rewrite (frame_session G). exact (frame_session F).
  - rewrite (frame_close_socket G). exact (frame_close_socket F).
  - rewrite (frame_ignore_abrupt G). exact (frame_ignore_abrupt F).
  - intros E. exact (frame_closed G (frame_closed F E)).
  - intros E. exact (frame_sock_closed G (frame_sock_closed F E)).
  - intros E. exact (frame_unresumable G (frame_unresumable F E)).
Qed.

Lemma frame_emit st st1 ev : frame st st1 -> frame st (emit ev st1).
Proof. intros H. apply (frame_trans H). constructor; auto. Qed.

Lemma frame_send_alert_now st st1 d : frame st st1 -> frame st (send_alert_now d st1).
Proof. intros H. apply (frame_trans H). constructor; auto. Qed.

Lemma frame_shutdown st st1 r : frame st st1 -> frame st (shutdown r st1).
Proof.
  intros H. apply (frame_trans H). constructor; cbn; auto.
  - intros ->. reflexivity.
  - intros ->. destruct (negb r && has_session st1); reflexivity.
Qed.

Create HintDb funnel.
#[export] Hint Resolve frame_refl frame_emit frame_send_alert_now frame_shutdown : funnel.

(* b: the argument of the shutdowns that happened (true keeps the session resumable) *)
Record shut (b : bool) (st st' : cst) : Prop := {
  shut_frame : frame st st';
  shut_closed : closed st' = true;
  shut_sock_closed : close_socket st = true -> sock_closed st' = true;
  shut_unresumable : b = false -> has_session st = true -> resumable st' = false }.
Arguments shut_frame {b st st'}.
Arguments shut_closed {b st st'}.
Arguments shut_sock_closed {b st st'}.
Arguments shut_unresumable {b st st'}.

Lemma shut_shutdown b r st st1 : (b = false -> r = false) -> frame st st1 -> shut b st (shutdown r st1).
Proof.
  intros Hb F. constructor; cbn.
  - auto with funnel.
  - reflexivity.
  - intros E. rewrite (frame_close_socket F), E. apply orb_true_r.
  - intros E1 E2. rewrite (Hb E1), (frame_session F), E2. reflexivity.
Qed.

Lemma shut_then_frame {b st st1 st2} : shut b st st1 -> frame st1 st2 -> shut b st st2.
Proof.
  intros S F. constructor.
  - exact (frame_trans (shut_frame S) F).
  - exact (frame_closed F (shut_closed S)).
  - intros E. exact (frame_sock_closed F (shut_sock_closed S E)).
  - intros E1 E2. exact (frame_unresumable F (shut_unresumable S E1 E2)).
Qed.

#[export] Hint Resolve shut_shutdown : funnel.

Lemma sendError_shut d st : shut false st (shutdown false (send_alert_now d st)).
Proof. auto with funnel. Qed.

Lemma send_alert_now_trace d st :
  wire (send_alert_now d st) = wire st ++ queued st ++ [WAlert level_fatal d]
  /\ queued (send_alert_now d st) = [] /\ buffering (send_alert_now d st) = false.
Proof. repeat split. cbn. symmetry. apply app_assoc. Qed.

Lemma shutdown_trace r st :
  queued st = [] ->
  wire (shutdown r st) = wire st ++ [WShutdown r] /\ queued (shutdown r st) = []
  /\ buffering (shutdown r st) = buffering st.
Proof. intros Hq. cbn. rewrite Hq, app_nil_r. destruct (close_socket st); repeat split. Qed.

(* with nothing queued, what is emitted is the next thing to reach the socket *)
Lemma emit_pending ev st :
  queued st = [] -> wire (emit ev st) ++ queued (emit ev st) = wire st ++ [ev].
Proof. intros Hq. cbn. rewrite Hq. destruct (buffering st); [reflexivity|apply app_nil_r]. Qed.

(* the close_notify that answers a warning is on the wire once the _shutdown that follows it has run:
   written at once without buffering, flushed by the closing of the socket otherwise *)
Lemma warning_reply_trace ev st :
  queued st = [] -> buffering st = false \/ close_socket st = true ->
  wire (shutdown false (emit ev st)) = wire st ++ [ev; WShutdown false]
  /\ queued (shutdown false (emit ev st)) = [].
Proof.
  intros Hq Hb. cbn. rewrite Hq. destruct Hb as [-> | ->].
  - rewrite app_nil_r. destruct (close_socket st); rewrite <- app_assoc; split; reflexivity.
  - destruct (buffering st); rewrite ?app_nil_r, <- app_assoc; split; reflexivity.
Qed.

Lemma layer_prefix_pending ly dp d st :
  queued st = [] ->
  wire (layer_prefix ly dp (ASendError d) st) ++ queued (layer_prefix ly dp (ASendError d) st)
  = wire st ++ alert_pre ly.
Proof.
  intros Hq. destruct ly; cbn [layer_prefix alert_pre]; try (rewrite Hq, !app_nil_r; reflexivity).
  destruct dp; apply emit_pending; exact Hq.
Qed.

Lemma sendError_trace d st :
  wire (shutdown false (send_alert_now d st))
  = wire st ++ queued st ++ [WAlert level_fatal d; WShutdown false]
  /\ queued (shutdown false (send_alert_now d st)) = []
  /\ buffering (shutdown false (send_alert_now d st)) = false.
Proof.
  destruct (send_alert_now_trace d st) as (W1 & Q1 & B1).
  destruct (shutdown_trace false _ Q1) as (W2 & Q2 & B2).
  rewrite W2, W1, <- !app_assoc. split; [reflexivity|]. split; [exact Q2|congruence].
Qed.

(* the record handler and the _getMsg handler are one handler, whose table is mapped_alert: what
   _sendError raises in the first (TLSLocalAlert, socket.error) the second has no clause for *)
Definition mapped_handler (dp : depth) (sf : bool) (r : raised) (st : cst) : outcome * cst :=
  match mapped_alert dp (rclass r) with Some d => sendError d sf st | None => (Raised r, st) end.

Definition outer (ly : layer) (dp : depth) (sf : bool) (x : outcome * cst) : outcome * cst :=
  pep479 (if is_pretry dp then x else through (layer_handler ly sf) x).

Lemma funnel_stages ly dp a sf st :
  funnel ly dp a sf st =
  if layer_eqb ly LClose && closed st then (Done, st)
  else outer ly dp sf (through (mapped_handler dp sf) (perform ly dp a sf (layer_prefix ly dp a st))).
Proof.
  unfold funnel. destruct (_ && _); [reflexivity|]. cbv zeta.
  destruct (perform ly dp a sf (layer_prefix ly dp a st)) as [[|r] st1]; [destruct dp; reflexivity|].
  unfold mapped_handler. destruct dp; try reflexivity. cbn [under_record under_getmsg through mapped_alert].
  unfold record_handler. destruct (record_alert _); [destruct sf|]; reflexivity.
Qed.

Lemma layer_prefix_frame ly dp a st : frame st (layer_prefix ly dp a st).
Proof. destruct ly; try apply frame_refl. destruct dp, a; cbn; auto with funnel. Qed.

Lemma layer_handler_frame ly sf r st : frame st (snd (layer_handler ly sf r st)).
Proof.
  destruct ly; cbn [layer_handler].
  - unfold wrapper_handler, wrapper_own_alert.
    destruct (subclass _ E_GeneratorExit); [apply frame_refl|].
    destruct (subclass _ E_TLSAlert).
    + destruct (fault st); [destruct (rdescr r); [destruct (existsb _ _)|]|]; apply frame_refl.
    + destruct (wrapper_alert _); [|cbn; auto with funnel].
      destruct sf; cbn; conc; cbn; auto with funnel.
  - unfold read_handler. repeat (destruct (_ && _)); try destruct (subclass _ E_GeneratorExit);
      cbn; auto with funnel.
  - unfold write_handler. destruct (subclass _ E_GeneratorExit); [|destruct (subclass _ E_Exception)];
      cbn; auto with funnel.
  - unfold close_handler. destruct (_ || _); [|destruct (subclass _ E_GeneratorExit)];
      cbn; auto with funnel.
Qed.

Lemma pep479_state x r st' : pep479 x = (Raised r, st') -> exists r0, x = (Raised r0, st').
Proof.
  destruct x as [[|r0] st1]; cbn [pep479]; [discriminate|].
  destruct (subclass _ _); intros H; injection H as _ <-; eauto.
Qed.

Definition peer_reply (l d : Z) (sf : bool) (st : cst) : cst :=
  if ((l =? level_warning) || (d =? close_notify)) && negb sf
  then emit (WAlert level_warning close_notify) st else st.

Lemma getmsg_peer_alert_eq l d sf st :
  getmsg_peer_alert l d sf st
  = (Raised (mkr E_TLSRemoteAlert (Some d)), shutdown (d =? close_notify) (peer_reply l d sf st)).
Proof.
  unfold getmsg_peer_alert, peer_reply.
  destruct (l =? level_warning), (d =? close_notify), sf; reflexivity.
Qed.

Lemma peer_reply_fault l d sf st : fault (peer_reply l d sf st) = fault st.
Proof. unfold peer_reply. destruct (_ && _); reflexivity. Qed.

Lemma peer_reply_frame l d sf st st1 : frame st st1 -> frame st (peer_reply l d sf st1).
Proof. intros F. unfold peer_reply. destruct (_ && _); auto with funnel. Qed.

#[export] Hint Resolve peer_reply_frame : funnel.

(* The class pending after a stage is `benign` for the layer when the layer's handler answers it
   with a _shutdown: it does not escape the handlers (GeneratorExit everywhere, non-Exception
   BaseExceptions in writeAsync), and is not a TLSAlert under the handshake wrapper (re-raised
   without closing). *)
Definition benign (ly : layer) (c : exc_class) : Prop :=
  escapes_handlers ly c = false /\ layer_eqb ly LHandshake && subclass c E_TLSAlert = false.

(* the invariant of the pipeline: already shut, or still to be answered by the layer *)
Definition settled (b : bool) (ly : layer) (st : cst) (x : outcome * cst) : Prop :=
  frame st (snd x)
  /\ match fst x with
     | Done => True
     | Raised r => shut b st (snd x) \/ benign ly (rclass r)
     end.

Lemma benign_sock_error ly : benign ly E_SockError.
Proof. destruct ly; split; reflexivity. Qed.

Lemma settled_sendError b ly st st1 d sf : frame st st1 -> settled b ly st (sendError d sf st1).
Proof.
  intros F. destruct sf; split; cbn; auto using benign_sock_error with funnel.
Qed.

Lemma settled_mapped_handler b ly st dp sf x : settled b ly st x -> settled b ly st (through (mapped_handler dp sf) x).
Proof.
  destruct x as [[|r] st1]; [trivial|]. intros [F H]. cbn [through]. unfold mapped_handler.
  destruct (mapped_alert _ _); [apply settled_sendError; exact F|split; assumption].
Qed.

(* wf_event spells out the three ways in which the code does NOT establish the post-condition
   (each is shown to be a real hole of the model: hole_read_pretry, hole_generator_exit,
   hole_wrapper_reraises_alert_without_shutdown in Props/C08.v, write_keyboard_interrupt_leaves_open
   below):
     - the event is in readAsync or writeAsync before the `try` (depth pretry);
     - the class escapes the handlers (the first half of `benign`);
     - a TLSAlert instance raised by a callee in a handshake without a preceding _shutdown (no
       such site exists: of the five `raise TLS*Alert` sites of tlslite four shut down first,
       they are the actions ASendError / APeerAlert / AShutRaiseRemote; the fifth, closeAsync's
       `raise TLSRemoteAlert(alert)`, does not, as close_peer_alert has it, and is in no
       handshake).
   keeps_resumable: writeAsync with ignoreAbruptClose, and an orderly close_notify. *)
Lemma settled_perform ly dp a sf st :
  wf_event ly dp a = true ->
  settled (keeps_resumable ly a st) ly st (perform ly dp a sf (layer_prefix ly dp a st)).
Proof.
  intros Hwf. pose proof (layer_prefix_frame ly dp a st) as F.
  set (st1 := layer_prefix ly dp a st) in *. clearbody st1.
  apply andb_prop in Hwf as [_ Hwf].
  destruct a as [e d|d|l d|d|]; cbn [perform].
  - (* ARaise e d: nothing happens but at depth checker *)
    apply andb_prop in Hwf as [H1 H2]. apply negb_true_iff in H1, H2.
    assert (B : benign ly e) by (split; assumption).
    destruct dp; try (split; [exact F|right; exact B]).
    unfold checker_step. destruct (subclass e E_TLSAuthenticationError); [destruct sf|]; split; cbn;
      auto using benign_sock_error with funnel.
  - (* ASendError d *) apply settled_sendError. exact F.
  - (* APeerAlert l d: _getMsg shuts down; closeAsync reads the alert itself *)
    assert (G : settled (keeps_resumable ly (APeerAlert l d) st) ly st (getmsg_peer_alert l d sf st1)).
    { rewrite getmsg_peer_alert_eq. split; [|left]; cbn [fst snd]; auto with funnel.
      apply shut_shutdown; [|auto with funnel]. unfold keeps_resumable. intros E. exact (proj2 (orb_false_elim _ _ E)). }
    destruct ly; try exact G. unfold close_peer_alert.
    destruct (d =? close_notify); (split; [cbn; auto with funnel|]); cbn; [exact I|].
    right. split; reflexivity.
  - (* AShutRaiseRemote d *) split; [|left]; cbn; auto with funnel.
  - (* AShutRaiseSock *) split; [|left]; cbn; auto with funnel.
Qed.

(* the handler of the public call shuts down on every benign class; in writeAsync the argument of
   that _shutdown is ignoreAbruptClose *)
Lemma layer_handler_shuts b ly sf st x r st' :
  (layer_eqb ly LWrite && ignore_abrupt st = true -> b = true) ->
  settled b ly st x ->
  through (layer_handler ly sf) x = (Raised r, st') ->
  shut b st st'.
Proof.
  intros Hb. destruct x as [[|r0] st1]; cbn [through]; [discriminate|].
  intros [F [S|[B1 B2]]] H; cbn [fst snd] in *.
  { apply (f_equal snd) in H. cbn [snd] in H. subst st'.
    exact (shut_then_frame S (layer_handler_frame ly sf r0 st1)). }
  unfold escapes_handlers in B1. apply orb_false_elim in B1 as [B1 B3].
  destruct ly; cbn [layer_handler layer_eqb andb] in *.
  - unfold wrapper_handler, wrapper_own_alert in H. rewrite B1, B2 in H.
    destruct (wrapper_alert _); [destruct sf; cbn in H; conc|];
      injection H as _ <-; auto with funnel.
  - unfold read_handler in H. rewrite B1 in H.
    repeat (destruct (_ && _) in H; [discriminate|]). injection H as _ <-. auto with funnel.
  - unfold write_handler in H. apply negb_false_iff in B3. rewrite B1, B3 in H.
    injection H as _ <-. rewrite (frame_ignore_abrupt F). apply shut_shutdown; [|exact F].
    intros E. destruct (ignore_abrupt st); [rewrite Hb in E by reflexivity; discriminate|reflexivity].
  - unfold close_handler in H. rewrite B1 in H.
    destruct (_ || _); [discriminate|]. injection H as _ <-. auto with funnel.
Qed.

Theorem funnel_shuts ly dp a sf st r st' :
  wf_event ly dp a = true ->
  funnel ly dp a sf st = (Raised r, st') ->
  shut (keeps_resumable ly a st) st st'.
Proof.
  intros Hwf H. rewrite funnel_stages in H.
  destruct (layer_eqb ly LClose && closed st); [discriminate|].
  pose proof Hwf as Hp. apply andb_prop in Hp as [Hp _]. apply negb_true_iff in Hp.
  unfold outer in H. rewrite Hp in H. apply pep479_state in H as [r0 H].
  eapply layer_handler_shuts; [|apply settled_mapped_handler, settled_perform; exact Hwf|exact H].
  unfold keeps_resumable. intros ->. reflexivity.
Qed.

(* the Checker answers a TLSAuthenticationError itself (checker_step) *)
Lemma funnel_raise ly dp e d0 sf st :
  layer_eqb ly LClose && closed st = false ->
  (dp = DChecker -> subclass e E_TLSAuthenticationError = false) ->
  funnel ly dp (ARaise e d0) sf st
  = outer ly dp sf (mapped_handler dp sf (mkr e d0) (layer_prefix ly dp (ARaise e d0) st)).
Proof.
  intros Hc Ha. rewrite funnel_stages, Hc. f_equal.
  destruct dp; try reflexivity. cbn [perform]. unfold checker_step. rewrite Ha; reflexivity.
Qed.

Lemma funnel_sendError ly dp d sf st :
  layer_eqb ly LClose && closed st = false ->
  funnel ly dp (ASendError d) sf st = outer ly dp sf (sendError d sf (layer_prefix ly dp (ASendError d) st)).
Proof.
  intros Hc. rewrite funnel_stages, Hc. destruct sf, dp; reflexivity.
Qed.

Lemma mapped_not_pretry {dp e d} : mapped_alert dp e = Some d -> is_pretry dp = false.
Proof. destruct dp; (reflexivity || discriminate). Qed.

Lemma funnel_raise_mapped ly dp e d0 d sf st :
  mapped_alert dp e = Some d ->
  funnel ly dp (ARaise e d0) sf st = funnel ly dp (ASendError d) sf st.
Proof.
  intros Hm. destruct (layer_eqb ly LClose && closed st) eqn:Hc.
  { unfold funnel. rewrite Hc. reflexivity. }
  rewrite funnel_sendError, funnel_raise by (exact Hc || intros ->; discriminate).
  unfold mapped_handler. cbn [rclass]. rewrite Hm.
  (* the prefix of closeAsync tells the two events apart at depth direct only, where nothing is mapped *)
  destruct dp; try discriminate; destruct ly; reflexivity.
Qed.

Lemma funnel_raise_unmapped ly dp e d0 sf st :
  mapped_alert dp e = None -> (dp = DChecker -> subclass e E_TLSAuthenticationError = false) ->
  layer_eqb ly LClose && closed st = false ->
  funnel ly dp (ARaise e d0) sf st
  = outer ly dp sf (Raised (mkr e d0), layer_prefix ly dp (ARaise e d0) st).
Proof.
  intros Hm Ha Hc. rewrite funnel_raise by assumption. unfold mapped_handler. cbn [rclass]. rewrite Hm. reflexivity.
Qed.

Lemma wrapper_alert_inv e d :
  wrapper_alert e = Some d ->
  e = E_TLSIllegalParameterException \/ e = E_TLSDecodeError \/ e = E_TLSDecryptionFailed.
Proof. destruct e; try discriminate; auto. Qed.

Lemma wrapper_alert_class_facts :
  forall e d, wrapper_alert e = Some d ->
    subclass e E_GeneratorExit = false /\ subclass e E_TLSAlert = false
    /\ subclass e E_StopIteration = false /\ subclass e E_TLSAuthenticationError = false
    /\ subclass e E_TLSProtocolException = true /\ documented e = false.
Proof. intros e d H. destruct (wrapper_alert_inv e d H) as [-> | [-> | ->]]; repeat split. Qed.

(* since 0bc7834 the wrapper shuts down also when its alert cannot be sent *)
Lemma funnel_raise_wrapped dp e d0 d sf st :
  is_pretry dp = false -> mapped_alert dp e = None -> wrapper_alert e = Some d ->
  funnel LHandshake dp (ARaise e d0) sf st
  = if sf then (Raised (mkr E_SockError None), shutdown false st)
    else (Raised (mkr E_TLSLocalAlert (Some d)), shutdown false (send_alert_now d st)).
Proof.
  intros Hp Hm Hw. destruct (wrapper_alert_class_facts e d Hw) as (G & A & _ & U & _).
  rewrite (funnel_raise_unmapped LHandshake _ _ _ _ st Hm (fun _ => U) eq_refl).
  unfold outer. rewrite Hp. cbn [layer_prefix through layer_handler]. unfold wrapper_handler. cbn [rclass].
  rewrite G, A, Hw. destruct sf; reflexivity.
Qed.

(* classes for which the handler of the layer has no clause of its own: re-raised after
   _shutdown (whose argument is ignoreAbruptClose in writeAsync, False elsewhere).  They are
   `benign`; for them layer_handler_unhandled is the exact form of layer_handler_shuts. *)
Definition unhandled (ly : layer) (c : exc_class) : Prop :=
  subclass c E_GeneratorExit = false /\
  match ly with
  | LHandshake => subclass c E_TLSAlert = false /\ wrapper_alert c = None
  | LRead => subclass c E_TLSRemoteAlert = false /\ subclass c E_TLSAbruptCloseError = false
  | LWrite => subclass c E_Exception = true
  | LClose => subclass c E_SockError = false /\ subclass c E_TLSAbruptCloseError = false
  end.

Lemma layer_handler_unhandled {ly sf r st} :
  unhandled ly (rclass r) ->
  layer_handler ly sf r st = (Raised r, shutdown (layer_eqb ly LWrite && ignore_abrupt st) st).
Proof.
  intros [G U]. destruct ly; cbn [layer_handler layer_eqb andb].
  - destruct U as [U1 U2]. unfold wrapper_handler. rewrite G, U1, U2. reflexivity.
  - destruct U as [U1 U2]. unfold read_handler. rewrite G, U1, U2. reflexivity.
  - unfold write_handler. rewrite G, U. reflexivity.
  - destruct U as [U1 U2]. unfold close_handler. rewrite G, U1, U2. reflexivity.
Qed.

Theorem funnel_raise_unhandled ly dp e d0 sf st :
  mapped_alert dp e = None -> (dp = DChecker -> subclass e E_TLSAuthenticationError = false) ->
  (is_pretry dp = false -> unhandled ly e) -> subclass e E_StopIteration = false ->
  layer_eqb ly LClose && closed st = false ->
  funnel ly dp (ARaise e d0) sf st
  = (Raised (mkr e d0),
     let st1 := layer_prefix ly dp (ARaise e d0) st in
     if is_pretry dp then st1 else shutdown (layer_eqb ly LWrite && ignore_abrupt st) st1).
Proof.
  intros Hm Ha U S Hc. rewrite funnel_raise_unmapped by assumption. unfold outer.
  destruct (is_pretry dp); cbn [through].
  - cbn [pep479 rclass]. rewrite S. reflexivity.
  - rewrite (layer_handler_unhandled (r := mkr e d0) (U eq_refl)). cbn [pep479 rclass]. rewrite S.
    (* the prefix of closeAsync leaves ignoreAbruptClose alone *)
    destruct ly; reflexivity.
Qed.

Lemma outer_local_alert {ly dp sf d st} :
  is_pretry dp = false ->
  outer ly dp sf (Raised (mkr E_TLSLocalAlert (Some d)), st)
  = match ly with
    | LHandshake => (match fault st with
                     | None => Raised (mkr E_TLSLocalAlert (Some d))
                     | Some l => if existsb (Z.eqb d) l then Done else Raised (mkr E_TLSFaultError None)
                     end, st)
    | LWrite => (Raised (mkr E_TLSLocalAlert (Some d)), shutdown (ignore_abrupt st) st)
    | _ => (Raised (mkr E_TLSLocalAlert (Some d)), shutdown false st)
    end.
Proof.
  intros Hp. unfold outer. rewrite Hp. destruct ly; try reflexivity.
  cbn [through layer_handler]. unfold wrapper_handler. cbn [rclass rdescr]. conc.
  destruct (fault st); [destruct (existsb _ _)|]; reflexivity.
Qed.

Lemma outer_sock_error {ly dp sf st} :
  is_pretry dp = false ->
  outer ly dp sf (Raised (mkr E_SockError None), st)
  = match ly with
    | LWrite => (Raised (mkr E_SockError None), shutdown (ignore_abrupt st) st)
    | LClose => (Done, shutdown true st)
    | _ => (Raised (mkr E_SockError None), shutdown false st)
    end.
Proof. intros Hp. unfold outer. rewrite Hp. destruct ly; reflexivity. Qed.

Lemma outer_remote_alert {ly dp sf d st} :
  outer ly dp sf (Raised (mkr E_TLSRemoteAlert (Some d)), st)
  = if is_pretry dp then (Raised (mkr E_TLSRemoteAlert (Some d)), st)
    else match ly with
         | LHandshake => (match fault st with
                          | None => Raised (mkr E_TLSRemoteAlert (Some d))
                          | Some l => if existsb (Z.eqb d) l then Done else Raised (mkr E_TLSFaultError None)
                          end, st)
         | LRead => if d =? close_notify then (Done, st)
                    else (Raised (mkr E_TLSRemoteAlert (Some d)), shutdown false st)
         | LWrite => (Raised (mkr E_TLSRemoteAlert (Some d)), shutdown (ignore_abrupt st) st)
         | LClose => (Raised (mkr E_TLSRemoteAlert (Some d)), shutdown false st)
         end.
Proof.
  unfold outer. destruct (is_pretry dp); [reflexivity|]. destruct ly; try reflexivity.
  - cbn [through layer_handler]. unfold wrapper_handler. cbn [rclass rdescr]. conc.
    destruct (fault st); [destruct (existsb _ _)|]; reflexivity.
  - cbn [through layer_handler]. unfold read_handler. cbn [rclass rdescr]. conc. cbn [andb].
    destruct (d =? close_notify); reflexivity.
Qed.

(* only the handshake wrapper has clauses that raise another instance than the pending one (TLSAlert
   under fault testing, the three classes of wrapper_alert) *)
Lemma outer_reraises ly dp sf r st r' st' :
  (layer_eqb ly LHandshake = true ->
   subclass (rclass r) E_TLSAlert = false /\ wrapper_alert (rclass r) = None) ->
  subclass (rclass r) E_StopIteration = false ->
  outer ly dp sf (Raised r, st) = (Raised r', st') -> r' = r.
Proof.
  intros HW S. unfold outer.
  assert (L : forall r0 st0, layer_handler ly sf r st = (Raised r0, st0) -> r0 = r).
  { intros r0 st0. destruct ly; cbn [layer_handler].
    - destruct (HW eq_refl) as [A W].
      unfold wrapper_handler. rewrite A, W. destruct (subclass _ E_GeneratorExit); congruence.
    - unfold read_handler. repeat (destruct (_ && _); [discriminate|]). destruct (subclass _ E_GeneratorExit); congruence.
    - unfold write_handler. destruct (subclass _ E_GeneratorExit); [|destruct (subclass _ E_Exception)]; congruence.
    - unfold close_handler. destruct (_ || _); [discriminate|]. destruct (subclass _ E_GeneratorExit); congruence. }
  destruct (if is_pretry dp then _ else _) as [[|r0] st0] eqn:E; cbn [pep479]; [discriminate|].
  assert (r0 = r) as -> by (destruct (is_pretry dp); [congruence|exact (L _ _ E)]).
  rewrite S. congruence.
Qed.

(* both kinds of answered class (funnel_raise_mapped, funnel_raise_wrapped) end alike when the
   alert cannot be sent *)
Theorem raise_alert_unsendable ly dp e d0 st d :
  mapped_alert_ly ly dp e = Some d -> layer_eqb ly LClose = false ->
  funnel ly dp (ARaise e d0) true st
  = (Raised (mkr E_SockError None), shutdown (layer_eqb ly LWrite && ignore_abrupt st) st).
Proof.
  unfold mapped_alert_ly. intros Hd Hl. destruct (mapped_alert dp e) as [d1|] eqn:Hm.
  - rewrite (funnel_raise_mapped ly dp e d0 d1 true st Hm), funnel_sendError by (rewrite Hl; reflexivity).
    cbn [sendError]. rewrite (outer_sock_error (mapped_not_pretry Hm)).
    destruct ly; try discriminate; reflexivity.
  - destruct ly; try discriminate. cbn [layer_eqb andb] in *. destruct (is_pretry dp) eqn:Hp; [discriminate|].
    exact (funnel_raise_wrapped dp e d0 d true st Hp Hm Hd).
Qed.

Lemma specified_unmapped dp e :
  specified dp e = true -> mapped_alert dp e = None ->
  e = E_TLSAbruptCloseError \/ e = E_SockError \/ e = E_TLSClosedConnectionError.
Proof. destruct dp; try discriminate; destruct e; try discriminate; auto. Qed.

(* also in fault-testing mode: the TLSFaultError that the wrapper then raises is a TLSError *)
Theorem raise_documented ly dp e d0 sf st r st' :
  specified_ly ly dp e = true ->
  funnel ly dp (ARaise e d0) sf st = (Raised r, st') ->
  documented (rclass r) = true.
Proof.
  intros Hs H.
  destruct (layer_eqb ly LClose && closed st) eqn:Hc; [unfold funnel in H; rewrite Hc in H; discriminate|].
  destruct (mapped_alert dp e) as [d|] eqn:Hm.
  - (* answered below the layer: the caller gets what _sendError raises *)
    pose proof (mapped_not_pretry Hm) as Hp.
    rewrite (funnel_raise_mapped ly dp e d0 d sf st Hm), funnel_sendError in H by exact Hc. destruct sf; cbn [sendError] in H.
    + rewrite (outer_sock_error Hp) in H. destruct ly; try discriminate; injection H as <- _; reflexivity.
    + rewrite (outer_local_alert Hp) in H.
      destruct ly; [destruct (fault _); [destruct (existsb _ _); [discriminate|]|]|..]; injection H as <- _; reflexivity.
  - unfold specified_ly in Hs. apply orb_true_iff in Hs as [Hs|Hs].
    + (* what the record layer is specified to raise and nothing converts: three documented classes *)
      rewrite funnel_raise_unmapped in H by (assumption || (intros ->; discriminate Hs)).
      destruct (specified_unmapped dp e Hs Hm) as [-> | [-> | ->]];
        (apply outer_reraises in H; [subst r; reflexivity | intros _; split; reflexivity | reflexivity]).
    + (* answered by the handshake wrapper *)
      apply andb_prop in Hs as [Hs He]. apply andb_prop in Hs as [Hl Hp]. apply negb_true_iff in Hp.
      destruct ly; try discriminate Hl. destruct e; try discriminate He;
        rewrite (funnel_raise_wrapped dp _ d0 _ sf st Hp Hm eq_refl) in H; destruct sf; injection H as <- _; reflexivity.
Qed.

(* outside closeAsync; mapped_alert answers no TLSRemoteAlert, so only the handler of the layer
   looks at it *)
Lemma peer_alert_stages {ly dp l d sf st} :
  layer_eqb ly LClose = false ->
  funnel ly dp (APeerAlert l d) sf st
  = outer ly dp sf (Raised (mkr E_TLSRemoteAlert (Some d)), shutdown (d =? close_notify) (peer_reply l d sf st)).
Proof.
  intros Hl. rewrite funnel_stages, Hl. cbn [andb]. f_equal.
  replace (layer_prefix ly dp (APeerAlert l d) st) with st by (destruct ly; try discriminate; reflexivity).
  replace (perform ly dp (APeerAlert l d) sf st) with (getmsg_peer_alert l d sf st)
    by (destruct ly; try discriminate; reflexivity).
  rewrite getmsg_peer_alert_eq. destruct dp; reflexivity.
Qed.

(* the trace side of `frame`: nothing, or one more _shutdown *)
Definition shut_more (st st' : cst) : Prop := st' = st \/ exists b, st' = shutdown b st.

Lemma shut_more_frame {st st'} : shut_more st st' -> frame st st'.
Proof. intros [->|[b ->]]; auto with funnel. Qed.

Lemma shut_more_trace {st st' w sent} :
  shut_more st st' -> queued st = [] -> wire st = w ++ sent ->
  queued st' = [] /\ exists tail, wire st' = w ++ sent ++ tail /\ forallb is_shutdown_ev tail = true.
Proof.
  intros [->|[b ->]] Hq W.
  - split; [exact Hq|]. exists []. rewrite app_nil_r. split; [exact W|reflexivity].
  - destruct (shutdown_trace b st Hq) as (W1 & Q & _). split; [exact Q|]. exists [WShutdown b].
    rewrite W1, W, <- app_assoc. split; reflexivity.
Qed.

Theorem peer_alert_run {ly dp l d sf st o st'} :
  layer_eqb ly LClose = false ->
  funnel ly dp (APeerAlert l d) sf st = (o, st') ->
  shut_more (shutdown (d =? close_notify) (peer_reply l d sf st)) st'
  /\ shut (d =? close_notify) st st'
  /\ (fault st = None ->
      o = if layer_eqb ly LRead && negb (is_pretry dp) && (d =? close_notify) then Done
          else Raised (mkr E_TLSRemoteAlert (Some d))).
Proof.
  intros Hl H. rewrite (peer_alert_stages Hl), outer_remote_alert in H.
  change (fault (shutdown _ _)) with (fault (peer_reply l d sf st)) in H. rewrite peer_reply_fault in H.
  assert (S : shut (d =? close_notify) st (shutdown (d =? close_notify) (peer_reply l d sf st))) by auto with funnel.
  set (st1 := shutdown _ (peer_reply l d sf st)) in *. clearbody st1.
  assert (M : shut_more st1 st').
  { destruct (is_pretry dp), ly, (d =? close_notify); try discriminate Hl; injection H as _ <-;
      first [left; reflexivity|right; eexists; reflexivity]. }
  split; [exact M|]. split; [exact (shut_then_frame S (shut_more_frame M))|].
  intros Hf. rewrite Hf in H.
  destruct (is_pretry dp), ly, (d =? close_notify); try discriminate Hl; injection H as <- _; reflexivity.
Qed.

(* in closeAsync the awaited alert arrives after the close_notify that closeAsync sent itself: the
   same shape, with that close_notify in the place of the reply *)
Lemma peer_alert_close {dp l d sf st} :
  is_pretry dp = false -> closed st = false ->
  funnel LClose dp (APeerAlert l d) sf st
  = (if d =? close_notify then Done else Raised (mkr E_TLSRemoteAlert (Some d)),
     shutdown (d =? close_notify) (emit (WAlert level_warning close_notify) st)).
Proof.
  intros Hp Hc. rewrite funnel_stages, Hc. cbn [layer_eqb andb perform]. unfold close_peer_alert.
  destruct (d =? close_notify), dp; try discriminate Hp; reflexivity.
Qed.

Corollary direct_decryption_failed_now_alert :
  forall st,
    funnel LHandshake DDirect (ARaise E_TLSDecryptionFailed None) false st
      = (Raised (mkr E_TLSLocalAlert (Some decrypt_error)),
         shutdown false (send_alert_now decrypt_error st)).
Proof. reflexivity. Qed.

Corollary parser_tls_decode_error_now_alert :
  forall st,
    funnel LHandshake DParser (ARaise E_TLSDecodeError None) false st
      = (Raised (mkr E_TLSLocalAlert (Some decode_error)),
         shutdown false (send_alert_now decode_error st)).
Proof. reflexivity. Qed.

(* TLSIllegalParameterException raised in a parser IS converted by _getMsg *)
Corollary parser_illegal_parameter_alert :
  forall st, funnel LHandshake DParser (ARaise E_TLSIllegalParameterException None) false st
             = (match fault st with
                | None => Raised (mkr E_TLSLocalAlert (Some illegal_parameter))
                | Some l => if existsb (Z.eqb illegal_parameter) l then Done
                            else Raised (mkr E_TLSFaultError None)
                end,
                shutdown false (send_alert_now illegal_parameter st)).
Proof.
  intros st. rewrite (funnel_raise_mapped LHandshake DParser E_TLSIllegalParameterException None illegal_parameter false st eq_refl),
    funnel_sendError by reflexivity.
  exact (outer_local_alert (dp := DParser) eq_refl).
Qed.

Lemma fault_swallows_listed_alert :
  forall dp e d0 st l d,
    mapped_alert dp e = Some d -> fault st = Some l -> existsb (Z.eqb d) l = true ->
    fst (funnel LHandshake dp (ARaise e d0) false st) = Done.
Proof.
  intros dp e d0 st l d Hm Hf Hl.
  rewrite (funnel_raise_mapped LHandshake dp e d0 d false st Hm), funnel_sendError by reflexivity.
  cbn [sendError layer_prefix]. rewrite (outer_local_alert (mapped_not_pretry Hm)).
  cbn [fst]. change (fault (shutdown false (send_alert_now d st))) with (fault st).
  rewrite Hf, Hl. reflexivity.
Qed.

(* PEP 479 *)
Lemma stop_iteration_becomes_runtime_error :
  forall ly dp sf st,
    layer_eqb ly LClose && closed st = false ->
    fst (funnel ly dp (ARaise E_StopIteration None) sf st) = Raised (mkr E_RuntimeError None).
Proof.
  intros ly dp sf st Hc. rewrite funnel_raise_unmapped; [|destruct dp; reflexivity|reflexivity|exact Hc].
  unfold outer. destruct (is_pretry dp), ly; reflexivity.
Qed.

Lemma record_only_classes_not_converted_by_getmsg :
  forall st, fault st = None ->
    funnel LHandshake DParser (ARaise E_TLSBadRecordMAC None) false st
    = (Raised (mkr E_TLSBadRecordMAC None), shutdown false st)
    /\ funnel LHandshake DParser (ARaise E_TLSRecordOverflow None) false st
       = (Raised (mkr E_TLSRecordOverflow None), shutdown false st).
Proof. split; reflexivity. Qed.

(* `except Exception` in writeAsync: other BaseExceptions pass without shutdown *)
Lemma write_keyboard_interrupt_leaves_open :
  forall sf st,
    funnel LWrite DDirect (ARaise E_KeyboardInterrupt None) sf st
    = (Raised (mkr E_KeyboardInterrupt None), st).
Proof. reflexivity. Qed.

(* concrete runs: the hypotheses of the theorems above and of Props/C08.v can be met *)
Example ex_read_bad_mac :
  wf_event LRead DRecord (ARaise E_TLSBadRecordMAC None) = true
  /\ mapped_alert DRecord E_TLSBadRecordMAC = Some bad_record_mac
  /\ funnel LRead DRecord (ARaise E_TLSBadRecordMAC None) false (init_state LRead)
     = (Raised (mkr E_TLSLocalAlert (Some 20)),
        mkcst true true true false [WAlert 2 20; WShutdown false; WShutdown false]
              true false None false []).
Proof. repeat split. Qed.

Example ex_handshake_decode_error :
  specified DParser E_DecodeError = true
  /\ funnel LHandshake DParser (ARaise E_DecodeError None) false (init_state LHandshake)
     = (Raised (mkr E_TLSLocalAlert (Some 50)),
        mkcst true true false false [WAlert 2 50; WShutdown false] true false None false []).
Proof. repeat split. Qed.

Example ex_crash_attribute_error :
  is_crash E_AttributeError = true
  /\ funnel LHandshake DParser (ARaise E_AttributeError None) false (init_state LHandshake)
     = (Raised (mkr E_AttributeError None),
        mkcst true true false false [WShutdown false] true false None false []).
Proof. repeat split. Qed.

Example ex_predict :
  predict 1 0 63 = (46, Some 20, true, false)      (* read, record, TLSBadRecordMAC *)
  /\ predict 0 2 58 = (46, Some 47, true, false)   (* handshake, direct, TLSIllegalParameterException *)
  /\ predict 0 2 66 = (66, None, true, false)      (* handshake, direct, TLSHandshakeFailure *)
  /\ predict 1 2 58 = (58, None, true, false)      (* read, direct, TLSIllegalParameterException *)
  /\ predict 0 1 12 = (12, None, true, false).     (* handshake, parser, AttributeError *)
Proof. repeat split. Qed.

Example ex_handshake_direct_decryption_failed :
  specified_ly LHandshake DDirect E_TLSDecryptionFailed = true
  /\ is_pretry DDirect = false /\ mapped_alert DDirect E_TLSDecryptionFailed = None
  /\ wrapper_alert E_TLSDecryptionFailed = Some decrypt_error
  /\ funnel LHandshake DDirect (ARaise E_TLSDecryptionFailed None) false (init_state LHandshake)
     = (Raised (mkr E_TLSLocalAlert (Some 51)),
        mkcst true true false false [WAlert 2 51; WShutdown false] true false None false []).
Proof. repeat split. Qed.

Example ex_received_level_255 :
  funnel LHandshake DParser (APeerAlert 255 40) false (init_state LHandshake)
  = (Raised (mkr E_TLSRemoteAlert (Some 40)),
     mkcst true true false false [WShutdown false] true false None false [])
  /\ funnel LRead DParser (APeerAlert 0 80) false (init_state LRead)
     = (Raised (mkr E_TLSRemoteAlert (Some 80)),
        mkcst true true true false [WShutdown false; WShutdown false] true false None false []).
Proof. split; reflexivity. Qed.

(* a TLS 1.2 client in write-buffering mode, closeSocket = False, malformed Certificate: the
   decode_error alert is on the wire, not in the queue *)
Example ex_buffering_decode_error_written :
  funnel LHandshake DParser (ARaise E_DecodeError None) false
         (mkcst true false false false [] false false None true [])
  = (Raised (mkr E_TLSLocalAlert (Some 50)),
     mkcst true false false false [WAlert 2 50; WShutdown false] false false None false []).
Proof. reflexivity. Qed.
