(* CBC padding as the receiver sees it.  A body has the sender's shape when it reads
   data ++ [tag ++] padding ++ [padding length].  On that shape each check is an equation
   (C12_Shape.wf_shape for Spec.CbcCheck.well_formed, etm_pad_shape for the padding check of
   _macThenDecrypt).  Accepting what a sender built is a rewrite with the equation; reading an
   accepted body back (Proofs/C02_Cbc.v) is "every byte string long enough has the shape"
   (cbc_shape_of there) followed by the same rewrite. *)
From Coq Require Import ZArith List Bool Lia.
From TV Require Import Base.Prelude Base.PreludeFacts Spec.CbcCheck Model.C01_RecordPipe Model.C02_RecordAccept
  Proofs.C01_Lists Proofs.C12_Shape.
Import ListNotations.
Open Scope Z_scope.

Lemma add_padding_spec bs d : 0 < bs ->
  exists p, 0 <= p < bs /\ add_padding bs d = d ++ repeat p (Z.to_nat p) ++ [p] /\
            (zlen d + p + 1) mod bs = 0.
Proof.
  intros Hbs. exists (bs - 1 - zlen d mod bs).
  pose proof (Z.mod_pos_bound (zlen d) bs Hbs) as Hm.
  split; [lia|]. split.
  - unfold add_padding. cbv zeta. f_equal.
    replace (Z.to_nat (bs - 1 - zlen d mod bs + 1)) with (S (Z.to_nat (bs - 1 - zlen d mod bs))) by lia.
    apply repeat_cons.
  - rewrite (Z.div_mod (zlen d) bs) at 1 by lia.
    replace (bs * (zlen d / bs) + zlen d mod bs + (bs - 1 - zlen d mod bs) + 1) with ((zlen d / bs + 1) * bs) by ring.
    apply Z.mod_mul. lia.
Qed.

Lemma zlen_padded (d padb : list Z) : zlen (d ++ padb ++ [zlen padb]) = zlen d + zlen padb + 1.
Proof. rewrite !zlen_app, zlen_cons, zlen_nil. lia. Qed.

(* pad bytes acceptable to the receiver *)
Definition pad_ok (ver : Z * Z) (bs : Z) (padb : list Z) (p : Z) : Prop :=
  zlen padb = p /\ (if is_ssl3 ver then p <= bs else Forall (fun b => b = p) padb).

Lemma pad_ok_honest ver bs p : 0 <= p < bs -> pad_ok ver bs (repeat p (Z.to_nat p)) p.
Proof.
  intros H. split; [rewrite zlen_repeat; lia|].
  destruct (is_ssl3 ver); [lia|apply Forall_repeat; reflexivity].
Qed.

Lemma pad_verdict_iff ver bs padb p : zlen padb = p ->
  (if is_ssl3 ver then p <=? bs else forallb (fun x => x =? p) padb) = true <-> pad_ok ver bs padb p.
Proof.
  intros Hp. unfold pad_ok. destruct (is_ssl3 ver).
  - rewrite Z.leb_le. tauto.
  - rewrite forallb_forall, Forall_forall. setoid_rewrite Z.eqb_eq. tauto.
Qed.

Section Strip.
Variable c : Cfg.

Definition iv_len : Z := if ver_le (3, 2) (c_ver c) then c_bs c else 0.

(* what _decryptThenMAC / _macThenDecrypt keep of the decrypted text *)
Definition cbc_strip (d : list Z) : list Z := if ver_le (3, 2) (c_ver c) then zdrop (c_bs c) d else d.

Lemma cbc_strip_padded ch x : zlen (ch_ivb ch) = iv_len ->
  cbc_strip (cbc_padded ch x) = x ++ ch_pad ch ++ [zlen (ch_pad ch)].
Proof.
  unfold iv_len, cbc_strip, cbc_padded. intros H. destruct (ver_le (3, 2) (c_ver c)).
  - apply zdrop_app_exact. symmetry. exact H.
  - apply zlen_0_nil in H. rewrite H. reflexivity.
Qed.

End Strip.

Section WF.
Variables (ver : Z * Z) (bs : Z) (mac : HMac) (seqb : list Z) (ty : Z).

Definition tag_of (d : list Z) : list Z :=
  mac_fn mac (mac_acc mac ++ mac_header seqb ty ver (zlen d) ++ d).

Lemma well_formed_intro d t padb p :
  zlen t = mac_ds mac -> pad_ok ver bs padb p -> t = tag_of d ->
  well_formed ver bs mac seqb ty (d ++ t ++ padb ++ [p]) = true.
Proof.
  intros Ht Hpad ->. rewrite wf_shape by (exact Ht || apply Hpad).
  apply andb_true_iff. split; [apply pad_verdict_iff; [apply Hpad|exact Hpad]|apply list_eqb_refl].
Qed.

Lemma strip_intro d t padb p : zlen t = mac_ds mac -> zlen padb = p ->
  let body := d ++ t ++ padb ++ [p] in
  ztake (zlen body - (last_byte body + 1 + mac_ds mac)) body = d.
Proof.
  intros Ht Hp body. unfold body. rewrite !app_assoc, last_byte_snoc, <- !app_assoc.
  apply ztake_app_exact. rewrite !zlen_app, zlen_cons, zlen_nil. lia.
Qed.
End WF.

Lemma etm_pad_shape (c : Cfg) (data padb : list Z) :
  etm_padding_ok c (data ++ padb ++ [zlen padb]) =
  is_ssl3 (c_ver c) || forallb (fun b => b =? zlen padb) padb.
Proof.
  unfold etm_padding_ok. cbv zeta. rewrite app_assoc, last_byte_snoc, <- app_assoc, zlen_padded.
  pose proof (zlen_nonneg data). pose proof (zlen_nonneg padb).
  destruct (Z.leb_spec (zlen padb + 1) (zlen data + zlen padb + 1)); [|lia]. cbn [andb].
  replace (zlen data + zlen padb + 1 - (zlen padb + 1)) with (zlen data) by lia.
  rewrite zdrop_app_exact, ztake_app_exact by reflexivity. reflexivity.
Qed.

Lemma etm_pad_verdict_iff (c : Cfg) padb :
  is_ssl3 (c_ver c) || forallb (fun b => b =? zlen padb) padb = true <->
  is_ssl3 (c_ver c) = true \/ Forall (fun b => b = zlen padb) padb.
Proof. rewrite orb_true_iff, forallb_forall, Forall_forall. setoid_rewrite Z.eqb_eq. tauto. Qed.

Lemma etm_padding_intro (c : Cfg) data padb :
  is_ssl3 (c_ver c) = true \/ Forall (fun b => b = zlen padb) padb ->
  etm_padding_ok c (data ++ padb ++ [zlen padb]) = true.
Proof. intros H. rewrite etm_pad_shape. apply etm_pad_verdict_iff, H. Qed.

Lemma etm_strip_padded (data padb : list Z) :
  let d := data ++ padb ++ [zlen padb] in ztake (zlen d - (last_byte d + 1)) d = data.
Proof. cbv zeta. rewrite app_assoc, last_byte_snoc, <- app_assoc, zlen_padded. apply ztake_app_exact. lia. Qed.
