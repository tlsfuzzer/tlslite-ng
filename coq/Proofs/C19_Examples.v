(* C19 -- concrete objects used as witnesses and as `Example`s: the tables of the /repo tree the model was
   written against, installations without M2Crypto/pycrypto (the usual one) and with both, HandshakeSettings()
   as it comes out of __init__ (every list attribute in its own cell), and variants of its cells and scalars. *)
From Coq Require Import ZArith List Bool String.
From TV Require Import Base.Prelude Model.C19_Settings Spec.C19_Domain.
Import ListNotations.
Open Scope Z_scope.
Open Scope string_scope.

Definition std_tables : tables := {|
  t_all_cipher := ["chacha20-poly1305"; "aes256gcm"; "aes128gcm"; "aes256ccm"; "aes128ccm"; "aes256"; "aes128"; "3des";
                   "chacha20-poly1305_draft00"; "aes128ccm_8"; "aes256ccm_8"; "rc4"; "null"];
  t_all_mac := ["sha"; "sha256"; "sha384"; "aead"; "md5"];
  t_kex := ["ecdhe_ecdsa"; "rsa"; "dhe_rsa"; "ecdhe_rsa"; "srp_sha"; "srp_sha_rsa"; "ecdh_anon"; "dh_anon"; "dhe_dsa"];
  t_impl := ["openssl"; "pycrypto"; "python"];
  t_certtypes := ["x509"];
  t_all_rsa_hashes := ["sha512"; "sha384"; "sha256"; "sha224"; "sha1"; "md5"];
  t_dsa_hashes := ["sha512"; "sha384"; "sha256"; "sha224"; "sha1"];
  t_ecdsa_hashes := ["sha512"; "sha384"; "sha256"; "sha224"; "sha1"];
  t_sig_schemes := ["Ed25519"; "Ed448"];
  t_rsa_schemes := ["pss"; "pkcs1"];
  t_all_curves := ["x25519"; "x448"; "secp384r1"; "secp256r1"; "secp521r1"; "secp256k1"];
  t_all_dh := ["ffdhe2048"; "ffdhe3072"; "ffdhe4096"; "ffdhe6144"; "ffdhe8192"];
  t_tls13_groups := ["secp256r1"; "secp384r1"; "secp521r1"; "x25519"; "x448"; "ffdhe2048"; "ffdhe3072"; "ffdhe4096";
                     "ffdhe6144"; "ffdhe8192"];
  t_known_versions := [(3, 0); (3, 1); (3, 2); (3, 3); (3, 4)];
  t_ticket_ciphers := ["chacha20-poly1305"; "aes256gcm"; "aes128gcm"; "aes128ccm"; "aes128ccm_8"; "aes256ccm"; "aes256ccm_8"];
  t_psk_modes := ["psk_dhe_ke"; "psk_ke"];
  t_ecpf := [1; 0];
  t_ecpf_uncompressed := 0;
  t_comp_send := ["zlib"];
  t_comp_recv := ["zlib"; "brotli"];
  t_dc_forbidden := [(8, 4); (8, 5); (8, 6)];
  t_dc_valid_time := 604800
|}.

Definition no_backends : install := {| i_m2crypto := false; i_pycrypto := false; i_tdes := true |}.
Definition all_backends : install := {| i_m2crypto := true; i_pycrypto := true; i_tdes := true |}.

Definition S (l : list string) : list val := map VStr l.

Definition ex_scalars : scalars := {|
  minVersion := (3, 1); maxVersion := (3, 4);
  useExtendedMasterSecret := VBool true; requireExtendedMasterSecret := VBool false;
  useExperimentalTackExtension := VBool false; sendFallbackSCSV := VBool false;
  useEncryptThenMAC := VBool true; usePaddingExtension := VBool true; padding_cb := false;
  ticketCipher := VStr "aes256gcm"; ticketLifetime := 86400; max_early_data := 16400; ticket_count := 2;
  record_size_limit := Some 16385; dc_valid_time := 604800; minKeySize := 1023; maxKeySize := 8193;
  dhParams := None; defaultCurve := VStr "secp256r1"; use_heartbeat_extension := VBool true;
  heartbeat_response_callback := false |}.

Definition ex_heap : heap := [
  S ["chacha20-poly1305"; "aes256gcm"; "aes128gcm"; "aes256ccm"; "aes128ccm"; "aes256"; "aes128"; "3des"];
  S ["sha"; "sha256"; "sha384"; "aead"];
  S ["ecdhe_ecdsa"; "rsa"; "dhe_rsa"; "ecdhe_rsa"; "srp_sha"; "srp_sha_rsa"; "ecdh_anon"; "dh_anon"; "dhe_dsa"];
  S ["openssl"; "pycrypto"; "python"];
  [VPair 3 4; VPair 3 3; VPair 3 2; VPair 3 1];
  [VInt 1; VInt 0];
  [];
  S ["zlib"];
  S ["zlib"; "brotli"];
  [];
  S ["x509"];
  S ["sha512"; "sha384"; "sha256"; "sha224"; "sha1"];
  S ["pss"; "pkcs1"];
  S ["sha512"; "sha384"; "sha256"; "sha224"; "sha1"];
  S ["sha512"; "sha384"; "sha256"; "sha224"; "sha1"];
  S ["Ed25519"; "Ed448"];
  [];
  S ["x25519"; "x448"; "secp384r1"; "secp256r1"; "secp521r1"];
  S ["ffdhe2048"; "ffdhe3072"; "ffdhe4096"; "ffdhe6144"; "ffdhe8192"];
  S ["secp256r1"; "x25519"];
  [];
  S ["psk_dhe_ke"; "psk_ke"]].

Definition ex_settings : settings := {| locs := seq 0 22; sc := ex_scalars |}.

(* variants *)
Definition with_cell (h : heap) (f : nat) (v : list val) : heap := lupd h f v.
Definition with_scalars (s : settings) (c : scalars) : settings := {| locs := locs s; sc := c |}.

(* TLS <= 1.1 only: exercises the two re-binding branches (versions, macNames) *)
Definition ex_scalars_tls11 : scalars := {|
  minVersion := (3, 1); maxVersion := (3, 2);
  useExtendedMasterSecret := VBool true; requireExtendedMasterSecret := VBool false;
  useExperimentalTackExtension := VBool false; sendFallbackSCSV := VBool false;
  useEncryptThenMAC := VBool true; usePaddingExtension := VBool true; padding_cb := false;
  ticketCipher := VStr "aes256gcm"; ticketLifetime := 86400; max_early_data := 16400; ticket_count := 2;
  record_size_limit := Some 16385; dc_valid_time := 604800; minKeySize := 1023; maxKeySize := 8193;
  dhParams := None; defaultCurve := VStr "secp256r1"; use_heartbeat_extension := VBool true;
  heartbeat_response_callback := false |}.

(* a ticket key of 16 bytes with a cipher that needs 32 *)
Definition ex_scalars_chacha_ticket : scalars := {|
  minVersion := (3, 1); maxVersion := (3, 4);
  useExtendedMasterSecret := VBool true; requireExtendedMasterSecret := VBool false;
  useExperimentalTackExtension := VBool false; sendFallbackSCSV := VBool false;
  useEncryptThenMAC := VBool true; usePaddingExtension := VBool true; padding_cb := false;
  ticketCipher := VStr "chacha20-poly1305"; ticketLifetime := 86400; max_early_data := 16400; ticket_count := 2;
  record_size_limit := Some 16385; dc_valid_time := 604800; minKeySize := 1023; maxKeySize := 8193;
  dhParams := None; defaultCurve := VStr "secp256r1"; use_heartbeat_extension := VBool true;
  heartbeat_response_callback := false |}.

(* TLS 1.3 only: minVersion = (3,4) and nothing else changed *)
Definition ex_scalars_tls13only : scalars := {|
  minVersion := (3, 4); maxVersion := (3, 4);
  useExtendedMasterSecret := VBool true; requireExtendedMasterSecret := VBool false;
  useExperimentalTackExtension := VBool false; sendFallbackSCSV := VBool false;
  useEncryptThenMAC := VBool true; usePaddingExtension := VBool true; padding_cb := false;
  ticketCipher := VStr "aes256gcm"; ticketLifetime := 86400; max_early_data := 16400; ticket_count := 2;
  record_size_limit := Some 16385; dc_valid_time := 604800; minKeySize := 1023; maxKeySize := 8193;
  dhParams := None; defaultCurve := VStr "secp256r1"; use_heartbeat_extension := VBool true;
  heartbeat_response_callback := false |}.
