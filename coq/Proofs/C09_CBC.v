(* AES-CBC: the generated Python_AES.encrypt/decrypt (Gen/C09_AesModes.v) equal SP 800-38A CBC (Spec/C09_Modes.v)
   for any block-cipher oracle returning 16-byte blocks; the chaining value left in the object is the last ciphertext block,
   so that a second call continues the first (cbc_scan_app). *)
From Coq Require Import ZArith List Lia.
From TV Require Import Base.Prelude Base.PreludeFacts Base.C09_Lib Base.C09_Oracle Gen.C09_AesModes
  Spec.C09_Poly1305 Spec.C09_Modes Proofs.C09_Lists.
Import ListNotations.
Open Scope list_scope.
Open Scope Z_scope.

Definition blk_ok (b : list Z) : Prop := List.length b = 16%nat /\ all_bytes b = true.

Lemma xorb_blk a b : blk_ok a -> blk_ok b -> blk_ok (xorb a b).
Proof.
  intros [La Ba] [Lb Bb]. rewrite xorb_eq. split; [rewrite xor_bytes_length; lia|apply xor_bytes_all_bytes; assumption].
Qed.

Lemma chunks_exact (l : list Z) q : zlen l = 16 * q -> all_bytes l = true ->
  zlen (chunks 16 l) = q /\ Forall blk_ok (chunks 16 l).
Proof.
  intros Hl Hb. pose proof (zlen_nonneg l) as Hz.
  assert (Hq : (zlen l + Z.of_nat 16 - 1) / Z.of_nat 16 = q).
  { change (Z.of_nat 16) with 16. symmetry. apply Z.div_unique with (r := 15); lia. }
  split.
  - rewrite chunks_length by lia. exact Hq.
  - rewrite <- (chunks_index 16 l) by lia. rewrite Hq. apply Forall_forall. intros c Hc.
    apply in_map_iff in Hc. destruct Hc as [i [<- Hi]]. apply in_zrange in Hi. change (Z.of_nat 16) with 16.
    split.
    + rewrite firstn_length, skipn_length. unfold zlen in *. lia.
    + apply all_bytes_firstn, all_bytes_skipn. exact Hb.
Qed.

(* Encryption and decryption are the same chained pass over the blocks, scan: F block chain = (output block, next
   chaining value); cbc_enc_blocks and cbc_dec_blocks satisfy its two equations by definition.  The outer loop of either
   method rewrites block k of the buffer in place and carries the chaining value.  A lemma of the section is used by giving F,
   scan and the two equations, which are eq_refl; for encryption over E:
     cbc_scan_app (fun p iv => (E (xorb p iv), E (xorb p iv))) (cbc_enc_blocks E) (fun _ => eq_refl) (fun _ _ _ => eq_refl). *)
Section Loop.
  Variable F : list Z -> list Z -> list Z * list Z.
  Variable scan : list Z -> list (list Z) -> list Z * list Z.
  Hypothesis scan_nil : forall iv, scan iv [] = (iv, []).
  Hypothesis scan_cons : forall iv p rest,
    scan iv (p :: rest) = let '(iv', out) := scan (snd (F p iv)) rest in (iv', fst (F p iv) ++ out).

  Lemma cbc_scan_app : forall b1 b2 iv,
    scan iv (b1 ++ b2) = let '(iv1, c1) := scan iv b1 in let '(iv2, c2) := scan iv1 b2 in (iv2, c1 ++ c2).
  Proof.
    induction b1 as [|p b1 IH]; intros b2 iv; cbn [app].
    - rewrite scan_nil. destruct (scan iv b2). reflexivity.
    - rewrite !scan_cons, IH. destruct (scan (snd (F p iv)) b1) as [iv1 c1]. destruct (scan iv1 b2) as [iv2 c2].
      rewrite app_assoc. reflexivity.
  Qed.

  Variable body : list Z * list Z -> Z -> res (list Z * list Z).
  Hypothesis body_step : forall pre p rest chain k, zlen pre = 16 * k -> blk_ok p -> blk_ok chain ->
    body (pre ++ p ++ rest, chain) k = Ok (pre ++ fst (F p chain) ++ rest, snd (F p chain)).
  Hypothesis F_ok : forall p chain, blk_ok p -> blk_ok chain -> blk_ok (fst (F p chain)) /\ blk_ok (snd (F p chain)).

  Lemma cbc_loop : forall blocks pre chain k, Forall blk_ok blocks -> blk_ok chain -> zlen pre = 16 * k ->
    foldM body (zrange k (k + zlen blocks)) (pre ++ List.concat blocks, chain) =
    let '(iv', out) := scan chain blocks in Ok (pre ++ out, iv').
  Proof.
    induction blocks as [|p blocks IH]; intros pre chain k Hb Hc Hpre.
    - rewrite zlen_nil, Z.add_0_r, zrange_empty, scan_nil by lia. reflexivity.
    - inversion Hb as [|? ? Hp Hb']; subst.
      rewrite zlen_cons, zrange_cons by (pose proof (zlen_nonneg blocks); lia).
      cbn [foldM List.concat]. rewrite scan_cons, body_step, bind_of_Ok by assumption.
      destruct (F_ok p chain Hp Hc) as [[Lo Bo] Hn]. rewrite (app_assoc pre).
      replace (k + (1 + zlen blocks)) with (k + 1 + zlen blocks) by lia.
      rewrite (IH (pre ++ fst (F p chain)) (snd (F p chain)) (k + 1) Hb' Hn) by (rewrite ?zlen_app; unfold zlen in *; lia).
      destruct (scan (snd (F p chain)) blocks) as [iv' out]. rewrite <- app_assoc. reflexivity.
  Qed.

  Lemma cbc_call data iv : blk_ok iv -> all_bytes data = true -> zlen data mod 16 = 0 ->
    foldM body (zrange 0 (zlen data / 16)) (data, iv) =
    let '(iv', out) := scan iv (chunks 16 data) in Ok (out, iv').
  Proof.
    intros Hiv Bd Hm. pose proof (Z.div_mod (zlen data) 16 ltac:(lia)) as Hd. rewrite Hm, Z.add_0_r in Hd.
    destruct (chunks_exact data (zlen data / 16) Hd Bd) as [Lq Fq].
    pose proof (cbc_loop (chunks 16 data) [] iv 0 Fq Hiv eq_refl) as L.
    cbn [app] in L. rewrite chunks_concat, Lq, Z.add_0_l in L by lia. exact L.
  Qed.
End Loop.

(* for y in range(n): buf[base + y] = e[y], where buf = bpre ++ old ++ suf and old, as long as e, starts at base.
   The induction runs over the loop entered in the middle: e_done is the part of e already copied (and then bpre ends
   with it), e' the part still to come, m' what it will overwrite. *)
Lemma store_loop (e old bpre suf : list Z) (base n : Z) :
  zlen e = n -> List.length e = List.length old -> all_bytes e = true -> zlen bpre = base ->
  foldM (fun buf y => t8_ <- py_index e y ;; buf <- py_store_b buf (Z.add base y) t8_ ;; Ok buf)
        (zrange 0 n) (bpre ++ old ++ suf)
  = Ok (bpre ++ e ++ suf).
Proof.
  intros <-.
  enough (G : forall (e' m' e_done bpre suf : list Z),
    List.length e' = List.length m' -> all_bytes e' = true -> zlen bpre = base + zlen e_done ->
    foldM (fun buf y => t8_ <- py_index (e_done ++ e') y ;; buf <- py_store_b buf (Z.add base y) t8_ ;; Ok buf)
          (zrange (zlen e_done) (zlen e_done + zlen e')) (bpre ++ m' ++ suf)
    = Ok (bpre ++ e' ++ suf))
    by (intros Hl Hb Hbase; apply (G e old [] bpre suf Hl Hb); rewrite zlen_nil; lia).
  clear e old bpre suf. induction e' as [|x e' IH]; intros m' e_done bpre suf Hl Hb Hbase.
  - destruct m'; [|discriminate]. rewrite zrange_focus_nil. reflexivity.
  - destruct m' as [|y m']; [discriminate|]. injection Hl as Hl.
    rewrite all_bytes_cons in Hb. apply andb_prop in Hb. destruct Hb as [Bx Hb].
    rewrite (zrange_focus e_done x). cbn [foldM app]. rewrite py_index_app, bind_of_Ok, <- Hbase.
    rewrite py_store_b_app, !bind_of_Ok by exact Bx.
    rewrite (snoc_app e_done x e'), (snoc_app bpre x (m' ++ suf)), (IH m' (e_done ++ [x]) (bpre ++ [x]) suf Hl Hb), <- snoc_app
      by (rewrite !zlen_app; lia).
    reflexivity.
Qed.

Lemma cbc_encrypt_ok O key iv pt :
  (forall b, List.length b = 16%nat -> List.length (bo_enc O key b) = 16%nat /\ all_bytes (bo_enc O key b) = true) ->
  blk_ok iv -> all_bytes pt = true -> zlen pt mod 16 = 0 ->
  cbc_encrypt O (mkAESCBC key iv) pt =
  let '(iv', ct) := cbc_encrypt_spec (bo_enc O key) 16 iv pt in Ok (mkAESCBC key iv', ct).
Proof.
  intros HE Hiv Bp Hm. unfold cbc_encrypt, aes_base_encrypt, cbc_encrypt_spec. cbn [cbc_rijndael cbc_IV].
  rewrite Hm. cbn [Z.eqb]. rewrite bind_of_Ok.
  match goal with |- context [foldM ?b _ _] => set (body := b) end.
  rewrite (cbc_call (fun p c => (bo_enc O key (xorb p c), bo_enc O key (xorb p c))) (cbc_enc_blocks (bo_enc O key))
             (fun _ => eq_refl) (fun _ _ _ => eq_refl) body); [| | |assumption..].
  - destruct (cbc_enc_blocks _ iv (chunks 16 pt)) as [iv' out]. reflexivity.
  - (* body_step *)
    intros pre p rest chain k Hpre Hp Hc. pose proof (xorb_blk p chain Hp Hc) as [Lx _]. destruct Hp as [Lp Bp'], Hc as [Lc Bc].
    unfold body. cbn [fst snd]. rewrite py_slice_app_mid by (unfold zlen in *; lia).
    rewrite (xor_loop p chain 16), bind_of_Ok, <- xorb_eq by (assumption || (unfold zlen; lia)).
    destruct (HE (xorb p chain) Lx) as [Le Be].
    rewrite (store_loop (bo_enc O key (xorb p chain)) p pre rest (k * 16) 16), bind_of_Ok by (assumption || (unfold zlen in *; lia)).
    reflexivity.
  - (* F_ok *) intros p c Hp Hc. split; apply HE, (xorb_blk p c Hp Hc).
Qed.

(* for y in range(n): d[y] ^= c[y]; buf[base + y] = d[y], where buf = bpre ++ old ++ suf and old, as long as d, starts
   at base.  In the induction ddone, cdone are the parts of d (already XORed) and c passed, and bpre ends with ddone. *)
Lemma dec_loop (d c old bpre suf : list Z) (base n : Z) :
  zlen d = n -> List.length d = List.length c -> List.length d = List.length old -> zlen bpre = base ->
  all_bytes d = true -> all_bytes c = true ->
  foldM (fun '(decryptedBytes, ciphertextBytes) y =>
      t5_ <- py_index decryptedBytes y ;;
      t6_ <- py_index c y ;;
      decryptedBytes <- py_store_b decryptedBytes y (Z.lxor t5_ t6_) ;;
      t7_ <- py_index decryptedBytes y ;;
      ciphertextBytes <- py_store_b ciphertextBytes (Z.add base y) t7_ ;;
      Ok (decryptedBytes, ciphertextBytes))
    (zrange 0 n) (d, bpre ++ old ++ suf)
  = Ok (xorb d c, bpre ++ xorb d c ++ suf).
Proof.
  intros <-.
  enough (G : forall (d' c' m' ddone cdone bpre suf : list Z),
    List.length d' = List.length c' -> List.length d' = List.length m' ->
    List.length ddone = List.length cdone -> zlen bpre = base + zlen ddone ->
    all_bytes d' = true -> all_bytes c' = true ->
    foldM (fun '(decryptedBytes, ciphertextBytes) y =>
        t5_ <- py_index decryptedBytes y ;;
        t6_ <- py_index (cdone ++ c') y ;;
        decryptedBytes <- py_store_b decryptedBytes y (Z.lxor t5_ t6_) ;;
        t7_ <- py_index decryptedBytes y ;;
        ciphertextBytes <- py_store_b ciphertextBytes (Z.add base y) t7_ ;;
        Ok (decryptedBytes, ciphertextBytes))
      (zrange (zlen ddone) (zlen ddone + zlen d')) (ddone ++ d', bpre ++ m' ++ suf)
    = Ok (ddone ++ xorb d' c', bpre ++ xorb d' c' ++ suf))
    by (intros L1 L2 Hbase; apply (G d c old [] [] bpre suf L1 L2 eq_refl); rewrite zlen_nil; lia).
  clear d c old bpre suf. induction d' as [|x d' IH]; intros c' m' ddone cdone bpre suf L1 L2 L3 Hbase Bd Bc.
  - destruct c'; [|discriminate]. destruct m'; [|discriminate]. rewrite zrange_focus_nil. reflexivity.
  - destruct c' as [|y c']; [discriminate|]. destruct m' as [|z m']; [discriminate|].
    injection L1 as L1. injection L2 as L2.
    rewrite all_bytes_cons in Bd, Bc. apply andb_prop in Bd, Bc. destruct Bd as [Bx Bd], Bc as [By Bc].
    pose proof (lxor_is_byte x y Bx By) as Bv. pose (v := Z.lxor x y). fold v in Bv.
    rewrite (zrange_focus ddone v). cbn [foldM app]. rewrite py_index_app, bind_of_Ok.
    replace (zlen ddone) with (zlen cdone) at 1 by (unfold zlen; lia). rewrite py_index_app, bind_of_Ok.
    fold v. rewrite py_store_b_app, bind_of_Ok, py_index_app, bind_of_Ok, <- Hbase by exact Bv.
    rewrite py_store_b_app, !bind_of_Ok by exact Bv.
    rewrite (snoc_app ddone v d'), (snoc_app cdone y c'), (snoc_app bpre v (m' ++ suf)).
    rewrite (IH c' m' (ddone ++ [v]) (cdone ++ [y]) (bpre ++ [v]) suf L1 L2), <- !snoc_app
      by (assumption || (rewrite ?zlen_app, ?app_length, ?L3; cbn [List.length]; lia)).
    reflexivity.
Qed.

Lemma cbc_decrypt_ok O key iv ct :
  (forall b, List.length b = 16%nat -> List.length (bo_dec O key b) = 16%nat /\ all_bytes (bo_dec O key b) = true) ->
  blk_ok iv -> all_bytes ct = true -> zlen ct mod 16 = 0 ->
  cbc_decrypt O (mkAESCBC key iv) ct =
  let '(iv', pt) := cbc_decrypt_spec (bo_dec O key) 16 iv ct in Ok (mkAESCBC key iv', pt).
Proof.
  intros HD Hiv Bc Hm. unfold cbc_decrypt, aes_base_decrypt, cbc_decrypt_spec. cbn [cbc_rijndael cbc_IV].
  rewrite Hm. cbn [Z.eqb]. rewrite bind_of_Ok.
  match goal with |- context [foldM ?b _ _] => set (body := b) end.
  rewrite (cbc_call (fun c ch => (xorb (bo_dec O key c) ch, c)) (cbc_dec_blocks (bo_dec O key))
             (fun _ => eq_refl) (fun _ _ _ => eq_refl) body); [| | |assumption..].
  - destruct (cbc_dec_blocks _ iv (chunks 16 ct)) as [iv' out]. reflexivity.
  - (* body_step *)
    intros pre c rest chain k Hpre [Lc Bc'] [Lch Bch]. unfold body. cbn [fst snd].
    rewrite py_slice_app_mid by (unfold zlen in *; lia). destruct (HD c Lc) as [Ld Bd].
    rewrite (dec_loop (bo_dec O key c) chain c pre rest (k * 16) 16), bind_of_Ok by (assumption || (unfold zlen in *; lia)).
    reflexivity.
  - (* F_ok *) intros c ch Hc Hch. cbn [fst snd]. split; [apply xorb_blk; [apply HD, Hc|exact Hch]|exact Hc].
Qed.
