(* C11 -- RSAKeyExchange.processClientKeyExchange (regenerated) is kex_spec: it never raises, yields
   48 bytes when getRandomBytes(48) does, and settles on the random premaster however the decrypted
   one is malformed *)
From Coq Require Import ZArith List Bool Lia.
From TV Require Import Base.Prelude Base.C11_Lib Gen.C11_RsaKex Model.C11_ServerTail.
Import ListNotations.
Open Scope Z_scope.

(* The script is written against the meaning, not the shape, of the generated text: it does the case analysis
   (decrypt result None / empty / other; length; the two version comparisons) and lets computation close each case,
   so behaviour-preserving rewrites of processClientKeyExchange (early returns, merged conditions, renamed locals)
   do not break it. *)
Lemma kex_eq_spec_all (dec : list Z -> option (list Z)) (rnd : Z -> list Z) cv sv epms :
  processClientKeyExchange dec rnd cv sv epms = Ok (Some (kex_spec cv sv (dec epms) (rnd 48))).
Proof.
  unfold processClientKeyExchange, kex_spec, wellformed_premaster.
  destruct (dec epms) as [[|x pm]|]; cbn [opt_falsy opt_get bind negb andb orb]; try reflexivity.
  destruct (zlen (x :: pm) =? 48) eqn:E; cbn [opt_falsy opt_get negb andb orb bind]; try reflexivity.
  assert (H48 : zlen (x :: pm) = 48) by lia.
  repeat (rewrite py_index_ok by lia; cbn [opt_get bind]).
  fold (version_of (x :: pm)).
  destruct (pairZ_eqb (version_of (x :: pm)) cv); destruct (pairZ_eqb (version_of (x :: pm)) sv);
    cbn [negb andb orb bind]; reflexivity.
Qed.

Lemma kex_spec_cases cv sv r random48 :
  if wellformed_premaster cv sv r then r = Some (kex_spec cv sv r random48) /\ zlen (kex_spec cv sv r random48) = 48
  else kex_spec cv sv r random48 = random48.
Proof.
  unfold kex_spec. destruct r as [pm|]; [|reflexivity].
  destruct (wellformed_premaster cv sv (Some pm)) eqn:W; [|reflexivity].
  apply andb_prop in W. split; [reflexivity|lia].
Qed.

Lemma kex_spec_malformed cv sv r random48 :
  wellformed_premaster cv sv r = false -> kex_spec cv sv r random48 = random48.
Proof. intros W. pose proof (kex_spec_cases cv sv r random48) as C. rewrite W in C. exact C. Qed.
