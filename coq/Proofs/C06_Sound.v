(* C06: soundness of the inclusion check on the product of automaton and expression, proved for the form of
   the check that is run ([check_live_sound]); the model's [check] is an instance of it ([check_sound]); the
   enumeration lemmas.  Nothing here is computed on the concrete gate table; see Proofs/C06_Incl.v for that. *)
From Coq Require Import List Bool.
From TV Require Import Model.C06_HsOrder Spec.C06_HsGrammar Model.C06_Check.
Import ListNotations.

Lemma epoch_eqb_eq a b : epoch_eqb a b = true -> a = b.
Proof. destruct a, b; simpl; congruence. Qed.
Lemma hst_eqb_eq a b : hst_eqb a b = true -> a = b.
Proof. destruct a, b; simpl; congruence. Qed.
Lemma amode_eqb_eq a b : amode_eqb a b = true -> a = b.
Proof. destruct a, b; simpl; congruence. Qed.
Lemma reason_eqb_eq a b : reason_eqb a b = true -> a = b.
Proof. destruct a, b; simpl; congruence. Qed.
Lemma bufk_eqb_eq a b : bufk_eqb a b = true -> a = b.
Proof. destruct a, b; simpl; congruence. Qed.

Lemma atom_eqb_eq a b : atom_eqb a b = true -> a = b.
Proof.
  destruct a, b; simpl; try discriminate; intros H;
    repeat (apply andb_true_iff in H; destruct H as [H ?]);
    repeat match goal with
           | X : epoch_eqb _ _ = true |- _ => apply epoch_eqb_eq in X
           | X : hst_eqb _ _ = true |- _ => apply hst_eqb_eq in X
           | X : amode_eqb _ _ = true |- _ => apply amode_eqb_eq in X
           end; subst; reflexivity.
Qed.

Lemma re_eqb_eq a : forall b, re_eqb a b = true -> a = b.
Proof.
  induction a; destruct b; simpl; try discriminate; intros H.
  - reflexivity.
  - reflexivity.
  - apply atom_eqb_eq in H. subst. reflexivity.
  - apply andb_true_iff in H. destruct H as [H1 H2].
    rewrite (IHa1 _ H1), (IHa2 _ H2). reflexivity.
  - apply andb_true_iff in H. destruct H as [H1 H2].
    rewrite (IHa1 _ H1), (IHa2 _ H2). reflexivity.
  - rewrite (IHa _ H). reflexivity.
Qed.

Lemma pos_eqb_eq a b : pos_eqb a b = true -> a = b.
Proof.
  destruct a, b; simpl; try discriminate; try reflexivity.
  intros H. apply reason_eqb_eq in H. subst. reflexivity.
Qed.

Lemma st_eqb_eq a b : st_eqb a b = true -> a = b.
Proof.
  unfold st_eqb. intros H.
  destruct (andb_prop _ _ H) as [H1234 H5]. destruct (andb_prop _ _ H1234) as [H123 H4].
  destruct (andb_prop _ _ H123) as [H12 H3].
  destruct (andb_prop _ _ H12) as [H1 H2]. clear H H1234 H123 H12.
  apply pos_eqb_eq in H1. apply bufk_eqb_eq in H2. apply eqb_prop in H3.
  apply epoch_eqb_eq in H4. apply eqb_prop in H5.
  destruct a as [p1 b1 g1 e1 d1], b as [p2 b2 g2 e2 d2]. cbn [pc buf gotc bep ed] in *. subst. reflexivity.
Qed.

Lemma pair_eqb_eq a b : pair_eqb a b = true -> a = b.
Proof.
  unfold pair_eqb. intros H. destruct (andb_prop _ _ H) as [H1 H2]. clear H.
  apply st_eqb_eq in H1. apply re_eqb_eq in H2.
  destruct a as [q1 r1], b as [q2 r2]. cbn [fst snd] in *. subst. reflexivity.
Qed.

Lemma mem_In p l : mem p l = true -> In p l.
Proof.
  unfold mem. intros H. apply existsb_exists in H. destruct H as [x [Hin Heq]].
  apply pair_eqb_eq in Heq. subst. exact Hin.
Qed.

Lemma dead_not_done q : dead q = true -> is_done q = false.
Proof. unfold dead, is_done. destruct (pc q); simpl; congruence. Qed.

Section Sound.
  Variable stp : st -> sym -> st.
  Hypothesis dead_closed : forall q a, dead q = true -> dead (stp q a) = true.

  Definition runs (q : st) (w : list sym) : st := fold_left stp w q.

  Lemma dead_runs w : forall q, dead q = true -> is_done (runs q w) = false.
  Proof.
    induction w as [|a w IH]; intros q H; simpl.
    - apply dead_not_done. exact H.
    - apply IH. apply dead_closed. exact H.
  Qed.

  (* The check that is run.  It differs from the model's [check] in two ways: [live q] may leave out what kills
     the automaton at q, and a state is paired with an X that stands for expressions ([pr]), so that the
     automaton is stepped once for all of them.  [check] is the instance where [live] is the whole alphabet
     and X is [re] itself. *)
  Section Live.
  Variable live : st -> list sym.
  Variables (X : Type) (dX : sym -> X -> X) (nulX : X -> bool) (eqX : X -> X -> bool).

  Definition memX (p : st * X) (l : list (st * X)) : bool :=
    existsb (fun y => st_eqb (fst p) (fst y) && eqX (snd p) (snd y)) l.

  Definition check_live (q0 : st) (x0 : X) (R : list (st * X)) : bool :=
    memX (q0, x0) R &&
    forallb (fun p => (negb (is_done (fst p)) || nulX (snd p)) &&
                      forallb (fun a => let q' := stp (fst p) a in
                                        dead q' || memX (q', dX a (snd p)) R) (live (fst p))) R.

  (* candidate R, as [reach] (nothing is proved about it) *)
  Fixpoint reach_live (fuel : nat) (todo seen : list (st * X)) : list (st * X) :=
    match fuel with
    | O => seen
    | S f =>
        match todo with
        | [] => seen
        | p :: todo' =>
            if memX p seen then reach_live f todo' seen
            else
              let succ := flat_map (fun a =>
                             let q' := stp (fst p) a in
                             if dead q' then [] else [(q', dX a (snd p))]) (live (fst p)) in
              reach_live f (succ ++ todo') (p :: seen)
        end
    end.

  Variable pr : X -> re.
  Hypothesis pr_deriv : forall a x, pr (dX a x) = deriv a (pr x).
  Hypothesis pr_nullable : forall x, nulX x = true -> nullable (pr x) = true.
  Hypothesis pr_eqb : forall x y, eqX x y = true -> re_eqb (pr x) (pr y) = true.
  Variable A : list sym.
  Hypothesis live_complete : forall q a, In a A -> In a (live q) \/ dead (stp q a) = true.

  Lemma memX_In q x R : memX (q, x) R = true -> exists y, In (q, y) R /\ pr y = pr x.
  Proof.
    intros H. apply existsb_exists in H. destruct H as [[q' y] [Hy E]]. cbn [fst snd] in E.
    apply andb_prop in E. destruct E as [E1 E2]. apply st_eqb_eq in E1. apply pr_eqb, re_eqb_eq in E2.
    subst q'. exists y. auto.
  Qed.

  (* by induction on the trace, for every pair of R *)
  Theorem check_live_sound q0 x0 R :
    check_live q0 x0 R = true ->
    forall w, Forall (fun a => In a A) w -> is_done (runs q0 w) = true -> matches (pr x0) w = true.
  Proof.
    intros Hc. apply andb_prop in Hc. destruct Hc as [H0 Hall]. rewrite forallb_forall in Hall.
    apply memX_In in H0. destruct H0 as [y0 [H0 <-]]. unfold matches.
    intros w. revert H0. generalize q0 y0. induction w as [|a w IH]; intros q x Hin Hw Hd;
      specialize (Hall _ Hin); cbn [fst snd] in Hall; apply andb_prop in Hall; destruct Hall as [H1 H2]; simpl in *.
    - rewrite Hd in H1. exact (pr_nullable _ H1).
    - inversion Hw as [|a' w' Ha Hw']; subst.
      assert (Hs : dead (stp q a) = true \/ memX (stp q a, dX a x) R = true).
      { destruct (live_complete q a Ha) as [Hl|Hdead]; [|left; exact Hdead].
        rewrite forallb_forall in H2. apply orb_true_iff. exact (H2 a Hl). }
      destruct Hs as [Hdead|Hm]; [rewrite (dead_runs w _ Hdead) in Hd; discriminate|].
      apply memX_In in Hm. destruct Hm as [y [Hy E]]. rewrite <- pr_deriv, <- E. exact (IH _ _ Hy Hw' Hd).
  Qed.
  End Live.

  Lemma check_sound q0 r0 A R :
    check stp q0 r0 A R = true ->
    forall w, Forall (fun a => In a A) w -> is_done (runs q0 w) = true -> matches r0 w = true.
  Proof.
    exact (check_live_sound (fun _ => A) re deriv nullable re_eqb (fun r => r) (fun _ _ => eq_refl) (fun _ H => H)
             (fun _ _ H => H) A (fun _ _ H => or_introl H) q0 r0 R).
  Qed.

  Lemma included_by_sound q0 r0 A :
    included_by stp q0 r0 A = true ->
    forall w, Forall (fun a => In a A) w ->
    is_done (runs q0 w) = true -> matches r0 w = true.
  Proof. apply check_sound. Qed.
End Sound.

Ltac in_list := simpl; repeat (first [left; reflexivity | right]).

Lemma all_epoch_complete e : In e all_epoch.
Proof. destruct e; in_list. Qed.

Lemma all_hst_complete t : In t all_hst.
Proof. destruct t; in_list. Qed.

Lemma all_payload_complete p : In p all_payload.
Proof.
  unfold all_payload. apply in_or_app.
  destruct p as [t a|t a| | |ok|k|e|].
  1, 2: left; apply in_flat_map; exists t; split; [apply all_hst_complete|destruct a; in_list].
  all: right.
  - in_list.
  - in_list.
  - destruct ok; in_list.
  - destruct k; in_list.
  - destruct e; in_list.
  - in_list.
Qed.

Lemma Sigma_complete a : In a Sigma.
Proof.
  destruct a as [e p]. unfold Sigma. apply in_flat_map. exists e. split.
  - apply all_epoch_complete.
  - apply in_map. apply all_payload_complete.
Qed.

Lemma Sigma_Forall w : Forall (fun a => In a Sigma) w.
Proof. induction w; constructor; auto using Sigma_complete. Qed.

Lemma all_pos_complete p : In p all_pos.
Proof. destruct p as [| | | | | | | | | | | | | | | | | | | | | | | | | |r]; try destruct r; unfold all_pos; in_list. Qed.

Lemma all_st_complete s : In s all_st.
Proof.
  destruct s as [p b g e d]. unfold all_st.
  apply in_flat_map. exists p. split; [apply all_pos_complete|].
  apply in_flat_map. exists e. split; [apply all_epoch_complete|].
  apply in_flat_map. exists b. split; [destruct b; in_list|].
  destruct g, d; in_list.
Qed.
