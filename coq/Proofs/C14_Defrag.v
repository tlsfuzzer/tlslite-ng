(* C14 lemmas: Defragmenter -- the messages extracted do not depend on how the byte
   stream of a content type was cut into records. *)
From Coq Require Import ZArith List Bool Lia.
From TV Require Import Base.Prelude Base.PreludeFacts Base.Bytes Model.C14_Defrag.
Import ListNotations.
Open Scope Z_scope.

(* bytes are never negative (Python bytearray elements are 0..255) *)
Definition nonneg (l : list Z) : Prop := Forall (fun x => 0 <= x) l.

Lemma nonneg_app a c : nonneg a -> nonneg c -> nonneg (a ++ c).
Proof. unfold nonneg. intros. apply Forall_app. split; assumption. Qed.

Lemma nonneg_app_inv a c : nonneg (a ++ c) -> nonneg a /\ nonneg c.
Proof. unfold nonneg. intros H. apply Forall_app in H. exact H. Qed.

Lemma nonneg_skipn n l : nonneg l -> nonneg (skipn n l).
Proof. apply Forall_skipn. Qed.

Definition dwf (dec : decoder) : Prop := dec_wf dec = true.

Lemma msg_size_range dec data n :
  dwf dec -> nonneg data -> msg_size dec data = Some n -> 1 <= n <= zlen data.
Proof.
  unfold dwf. intros Hw Hd H. destruct dec as [size|off sz]; cbn [msg_size dec_wf] in *.
  - destruct (zlen data <? size) eqn:E; [discriminate|]. injection H as <-. lia.
  - apply andb_true_iff in Hw. destruct Hw as [H1 H2].
    destruct (zlen data <? off + sz) eqn:E; [discriminate|].
    set (p := be_val (firstn (Z.to_nat sz) (skipn (Z.to_nat off) data))) in *.
    (* be_val is Bytes.num, by conversion *)
    assert (0 <= p) by (apply num_nonneg, Forall_firstn, nonneg_skipn; exact Hd).
    destruct (zlen data - (off + sz) <? p) eqn:E2; [discriminate|]. injection H as <-. lia.
Qed.

(* the size field lies within the bytes already there *)
Lemma msg_size_stable dec data x n :
  dwf dec -> msg_size dec data = Some n -> msg_size dec (data ++ x) = Some n.
Proof.
  unfold dwf. intros Hw H. pose proof (zlen_nonneg x) as Hx.
  destruct dec as [size|off sz]; cbn [msg_size dec_wf] in *; rewrite zlen_app.
  - destruct (zlen data <? size) eqn:E; [discriminate|].
    destruct (zlen data + zlen x <? size) eqn:E2; [lia|exact H].
  - apply andb_true_iff in Hw. destruct Hw as [H1 H2].
    destruct (zlen data <? off + sz) eqn:E; [discriminate|].
    destruct (zlen data + zlen x <? off + sz) eqn:E3; [lia|].
    rewrite skipn_short_Z by lia. rewrite firstn_short_Z by (rewrite skipn_zlen; lia).
    set (p := be_val (firstn (Z.to_nat sz) (skipn (Z.to_nat off) data))) in *.
    destruct (zlen data - (off + sz) <? p) eqn:E2; [discriminate|].
    destruct (zlen data + zlen x - (off + sz) <? p) eqn:E4; [lia|exact H].
Qed.

Lemma msg_size_shorter dec data n :
  dwf dec -> nonneg data -> msg_size dec data = Some n ->
  (length (skipn (Z.to_nat n) data) < length data)%nat.
Proof.
  intros Hw Hd E. pose proof (msg_size_range dec data n Hw Hd E) as Hn.
  rewrite skipn_length. unfold zlen in Hn. lia.
Qed.

Lemma parse_fuel_stable dec (Hw : dwf dec) : forall f1 f2 data,
  nonneg data -> (length data < f1)%nat -> (length data < f2)%nat ->
  parse_fuel f1 dec data = parse_fuel f2 dec data.
Proof.
  induction f1 as [|f1 IH]; intros f2 data Hd H1 H2; [lia|].
  destruct f2 as [|f2]; [lia|]. cbn [parse_fuel].
  destruct (msg_size dec data) as [n|] eqn:E; [|reflexivity].
  pose proof (msg_size_shorter dec data n Hw Hd E) as Hl.
  rewrite (IH f2 (skipn (Z.to_nat n) data)); [reflexivity|apply nonneg_skipn; exact Hd|lia|lia].
Qed.

Lemma parse_stream_unfold dec (Hw : dwf dec) data : nonneg data ->
  parse_stream dec data =
  match msg_size dec data with
  | None => ([], data)
  | Some n => let '(ms, rest) := parse_stream dec (skipn (Z.to_nat n) data) in
              (firstn (Z.to_nat n) data :: ms, rest)
  end.
Proof.
  intros Hd. unfold parse_stream at 1. cbn [parse_fuel].
  destruct (msg_size dec data) as [n|] eqn:E; [|reflexivity].
  pose proof (msg_size_shorter dec data n Hw Hd E) as Hl. unfold parse_stream.
  rewrite (parse_fuel_stable dec Hw (length data) (S (length (skipn (Z.to_nat n) data))));
    [reflexivity|apply nonneg_skipn; exact Hd|exact Hl|lia].
Qed.

Lemma parse_rest_incomplete dec (Hw : dwf dec) : forall data, nonneg data ->
  msg_size dec (snd (parse_stream dec data)) = None /\ nonneg (snd (parse_stream dec data)).
Proof.
  intros data. induction data as [data IH] using (induction_ltof1 _ (@length Z)). intros Hd.
  rewrite (parse_stream_unfold dec Hw data Hd).
  destruct (msg_size dec data) as [n|] eqn:E; [|split; assumption].
  specialize (IH _ (msg_size_shorter dec data n Hw Hd E) (nonneg_skipn _ _ Hd)).
  destruct (parse_stream dec (skipn (Z.to_nat n) data)) as [ms rest]. exact IH.
Qed.

Lemma parse_resume dec (Hw : dwf dec) x (Hx : nonneg x) : forall data, nonneg data ->
  forall ms rest ms' rest', parse_stream dec data = (ms, rest) -> parse_stream dec (rest ++ x) = (ms', rest') ->
  parse_stream dec (data ++ x) = (ms ++ ms', rest').
Proof.
  intros data. induction data as [data IH] using (induction_ltof1 _ (@length Z)).
  intros Hd ms rest ms' rest' P Q. rewrite (parse_stream_unfold dec Hw data Hd) in P.
  destruct (msg_size dec data) as [n|] eqn:E; [|injection P as <- <-; exact Q].
  pose proof (msg_size_range dec data n Hw Hd E) as Hn.
  destruct (parse_stream dec (skipn (Z.to_nat n) data)) as [ms0 rest0] eqn:P0. injection P as <- <-.
  rewrite (parse_stream_unfold dec Hw (data ++ x) (nonneg_app _ _ Hd Hx)).
  rewrite (msg_size_stable dec data x n Hw E), skipn_short_Z, firstn_short_Z by lia.
  rewrite (IH _ (msg_size_shorter dec data n Hw Hd E) (nonneg_skipn _ _ Hd) _ _ _ _ P0 Q). reflexivity.
Qed.

Definition dinv (d : defrag) : Prop :=
  wf d = true /\ nodup_types d = true /\ Forall (fun e => nonneg (e_buf e)) d.

Lemma buffer_of_cons t e d :
  buffer_of t (e :: d) = if e_type e =? t then e_buf e else buffer_of t d.
Proof. unfold buffer_of. cbn [find]. destruct (e_type e =? t); reflexivity. Qed.

Lemma decoder_of_cons t e d :
  decoder_of t (e :: d) = if e_type e =? t then Some (e_dec e) else decoder_of t d.
Proof. unfold decoder_of. cbn [find]. destruct (e_type e =? t); reflexivity. Qed.

Lemma defined_cons t e d : defined t (e :: d) = (e_type e =? t) || defined t d.
Proof. reflexivity. Qed.

Lemma total_len_cons e d : total_len (e :: d) = (length (e_buf e) + total_len d)%nat.
Proof. reflexivity. Qed.

Lemma defined_decoder t d :
  defined t d = match decoder_of t d with Some _ => true | None => false end.
Proof.
  induction d as [|e d IH]; [reflexivity|].
  rewrite defined_cons, decoder_of_cons. destruct (e_type e =? t); [reflexivity|exact IH].
Qed.

Lemma decoder_defined t d dec : decoder_of t d = Some dec -> defined t d = true.
Proof. intros H. rewrite defined_decoder, H. reflexivity. Qed.

Set Implicit Arguments.
Record dinv_at (e : Z * decoder * list Z) (d : defrag) : Prop := {
  head_wf : dwf (e_dec e);
  head_fresh : defined (e_type e) d = false;
  head_nonneg : nonneg (e_buf e);
  tail_inv : dinv d }.
Unset Implicit Arguments.

Lemma dinv_cons e d : dinv (e :: d) <-> dinv_at e d.
Proof.
  unfold dinv, dwf. cbn [wf forallb nodup_types].
  rewrite !andb_true_iff, negb_true_iff, Forall_cons_iff.
  split; [intros ((Hw & Hwf) & (Hf & Hnd) & Hn & Hbufs)|intros [Hw Hf Hn (Hwf & Hnd & Hbufs)]];
    repeat split; assumption.
Qed.

Lemma buffer_of_nonneg t d : dinv d -> nonneg (buffer_of t d).
Proof.
  induction d as [|e d IH]; intros H; [constructor|].
  apply dinv_cons in H. rewrite buffer_of_cons.
  destruct (e_type e =? t); [exact (head_nonneg H)|exact (IH (tail_inv H))].
Qed.

Lemma decoder_of_wf t d dec : dinv d -> decoder_of t d = Some dec -> dwf dec.
Proof.
  induction d as [|e d IH]; intros H; [discriminate|].
  apply dinv_cons in H. rewrite decoder_of_cons. destruct (e_type e =? t); [|exact (IH (tail_inv H))].
  intros E. injection E as <-. exact (head_wf H).
Qed.

(* Both operations that change a defragmenter replace the buffer of one type. *)
Fixpoint set_buf (t : Z) (b : list Z) (d : defrag) : defrag :=
  match d with
  | [] => []
  | e :: d' => if e_type e =? t then (e_type e, e_dec e, b) :: d' else e :: set_buf t b d'
  end.

Lemma decoder_of_set_buf t' t b d : decoder_of t' (set_buf t b d) = decoder_of t' d.
Proof.
  induction d as [|e d IH]; [reflexivity|]. cbn [set_buf].
  destruct (e_type e =? t); rewrite !decoder_of_cons; [|rewrite IH]; reflexivity.
Qed.

Lemma defined_set_buf t' t b d : defined t' (set_buf t b d) = defined t' d.
Proof. rewrite !defined_decoder, decoder_of_set_buf. reflexivity. Qed.

Lemma buffer_of_set_buf t' t b d : defined t d = true ->
  buffer_of t' (set_buf t b d) = if t =? t' then b else buffer_of t' d.
Proof.
  induction d as [|e d IH]; [discriminate|]. rewrite defined_cons. cbn [set_buf].
  destruct (e_type e =? t) eqn:E; cbn [orb]; intros Hdef; rewrite !buffer_of_cons.
  - apply Z.eqb_eq in E. rewrite <- E. cbn [e_type e_buf fst snd]. destruct (e_type e =? t'); reflexivity.
  - rewrite IH by exact Hdef. destruct (t =? t') eqn:E2; [|reflexivity].
    apply Z.eqb_eq in E2. subst t'. rewrite E. reflexivity.
Qed.

Lemma dinv_set_buf t b d : dinv d -> nonneg b -> dinv (set_buf t b d).
Proof.
  induction d as [|e d IH]; intros Hinv Hb; [exact Hinv|].
  apply dinv_cons in Hinv. destruct Hinv as [Hwf Hfresh Hnonneg Htail]. cbn [set_buf].
  destruct (e_type e =? t); apply dinv_cons.
  - split; [exact Hwf|exact Hfresh|exact Hb|exact Htail].
  - rewrite <- (defined_set_buf (e_type e) t b d) in Hfresh.
    split; [exact Hwf|exact Hfresh|exact Hnonneg|exact (IH Htail Hb)].
Qed.

Lemma total_len_set_buf t b d : defined t d = true ->
  (total_len (set_buf t b d) + length (buffer_of t d) = total_len d + length b)%nat.
Proof.
  induction d as [|e d IH]; [discriminate|]. rewrite defined_cons, buffer_of_cons. cbn [set_buf].
  destruct (e_type e =? t); cbn [orb]; intros H; rewrite !total_len_cons; [cbn [e_buf snd]; lia|].
  specialize (IH H). lia.
Qed.

Lemma append_to_set_buf ty data d : append_to ty data d = set_buf ty (buffer_of ty d ++ data) d.
Proof.
  induction d as [|e d IH]; [reflexivity|]. cbn [append_to set_buf]. rewrite buffer_of_cons.
  destruct (e_type e =? ty); [|rewrite IH]; reflexivity.
Qed.

(* No earlier entry has the type of the one served, because types are not repeated *)
Lemma get_message_eq : forall d, dinv d ->
  match get_message d with
  | Some ((t, m), d') => exists dec n,
      decoder_of t d = Some dec /\ msg_size dec (buffer_of t d) = Some n /\
      m = firstn (Z.to_nat n) (buffer_of t d) /\ d' = set_buf t (skipn (Z.to_nat n) (buffer_of t d)) d
  | None => forall t dec, decoder_of t d = Some dec -> msg_size dec (buffer_of t d) = None
  end.
Proof.
  induction d as [|e d IH]; intros Hinv; [discriminate|].
  apply dinv_cons in Hinv. destruct Hinv as [_ Hnd _ Hd]. specialize (IH Hd). cbn [get_message].
  destruct (msg_size (e_dec e) (e_buf e)) as [n|] eqn:E.
  - exists (e_dec e), n. rewrite decoder_of_cons, buffer_of_cons. cbn [set_buf]. rewrite Z.eqb_refl. auto.
  - destruct (get_message d) as [[[t m] d0]|].
    + destruct IH as (dec & n & H1 & H2 & H3 & H4). exists dec, n.
      rewrite decoder_of_cons, buffer_of_cons. cbn [set_buf].
      replace (e_type e =? t) with false; [rewrite H4; auto|].
      symmetry. apply Z.eqb_neq. intros Et. rewrite Et, (decoder_defined _ _ _ H1) in Hnd. discriminate.
    + intros t dec. rewrite decoder_of_cons, buffer_of_cons.
      destruct (e_type e =? t); [|apply IH]. intros H. injection H as <-. exact E.
Qed.

Lemma add_data_spec ty data d : dinv d -> nonneg data -> defined ty d = true ->
  exists d', add_data ty data d = Ok d' /\ dinv d' /\
    (forall t, decoder_of t d' = decoder_of t d) /\
    (forall t, buffer_of t d' = buffer_of t d ++ (if ty =? t then data else [])).
Proof.
  intros Hinv Hdata Hdef. unfold add_data. rewrite Hdef, append_to_set_buf.
  eexists. split; [reflexivity|].
  split; [apply dinv_set_buf; [|apply nonneg_app; [apply buffer_of_nonneg|]]; assumption|].
  split; intros t; [apply decoder_of_set_buf|]. rewrite buffer_of_set_buf by exact Hdef.
  destruct (ty =? t) eqn:Et; [apply Z.eqb_eq in Et; subst t|rewrite app_nil_r]; reflexivity.
Qed.

Lemma msgs_of_cons t t0 m ms :
  msgs_of t ((t0, m) :: ms) = if t0 =? t then m :: msgs_of t ms else msgs_of t ms.
Proof. unfold msgs_of. cbn [filter fst]. destruct (t0 =? t); reflexivity. Qed.

Lemma msgs_of_app t a c : msgs_of t (a ++ c) = msgs_of t a ++ msgs_of t c.
Proof. unfold msgs_of. rewrite filter_app, map_app. reflexivity. Qed.

(* the fuel S (total_len d) never runs out: get_message = None at the end *)
Lemma drain_fuel_spec : forall fuel d, dinv d -> (total_len d < fuel)%nat ->
  let '(ms, d') := drain_fuel fuel d in
  get_message d' = None /\ dinv d' /\ (forall t, decoder_of t d' = decoder_of t d) /\
  forall t dec, decoder_of t d = Some dec ->
    parse_stream dec (buffer_of t d) = (msgs_of t ms, buffer_of t d').
Proof.
  induction fuel as [|fuel IH]; intros d Hinv Hf; [lia|]. cbn [drain_fuel].
  pose proof (get_message_eq d Hinv) as G. destruct (get_message d) as [[[t0 m] d1]|] eqn:Eg.
  - destruct G as (dec0 & n & Hdec0 & Hsize & -> & ->).
    pose proof (buffer_of_nonneg t0 d Hinv) as Hnn. pose proof (decoder_of_wf t0 d dec0 Hinv Hdec0) as Hw.
    pose proof (decoder_defined _ _ _ Hdec0) as Hdef.
    pose proof (msg_size_shorter dec0 _ n Hw Hnn Hsize) as Hl.
    set (d1 := set_buf t0 (skipn (Z.to_nat n) (buffer_of t0 d)) d).
    pose proof (total_len_set_buf t0 _ d Hdef : (total_len d1 + _ = _)%nat) as Hlen.
    specialize (IH d1 (dinv_set_buf t0 _ d Hinv (nonneg_skipn _ _ Hnn)) ltac:(lia)).
    destruct (drain_fuel fuel d1) as [ms d2]. destruct IH as (Inone & Iinv & Idec & Iparse).
    split; [exact Inone|]. split; [exact Iinv|].
    split; [intros t; rewrite Idec; apply decoder_of_set_buf|].
    intros t dec Hdec. rewrite msgs_of_cons.
    specialize (Iparse t dec). unfold d1 in Iparse. rewrite decoder_of_set_buf, buffer_of_set_buf in Iparse by exact Hdef.
    specialize (Iparse Hdec). destruct (t0 =? t) eqn:Et; [|exact Iparse].
    apply Z.eqb_eq in Et. subst t0. assert (dec0 = dec) by congruence. subst dec0.
    rewrite (parse_stream_unfold dec Hw _ Hnn), Hsize, Iparse. reflexivity.
  - split; [exact Eg|]. split; [exact Hinv|]. split; [reflexivity|]. intros t dec Hdec.
    rewrite (parse_stream_unfold dec (decoder_of_wf t d dec Hinv Hdec) _ (buffer_of_nonneg t d Hinv)),
      (G t dec Hdec). reflexivity.
Qed.

Lemma stream_for_cons t ty data rs :
  stream_for t ((ty, data) :: rs) = (if ty =? t then data else []) ++ stream_for t rs.
Proof. unfold stream_for. cbn [filter fst]. destruct (ty =? t); reflexivity. Qed.

Definition records_ok (d : defrag) (records : list (Z * list Z)) : Prop :=
  Forall (fun r => nonneg (snd r) /\ defined (fst r) d = true) records.

Lemma stream_for_nonneg t d rs : records_ok d rs -> nonneg (stream_for t rs).
Proof.
  induction 1 as [|[ty data] rs [Ha _] _ IH]; [constructor|].
  rewrite stream_for_cons. apply nonneg_app; [|exact IH].
  destruct (ty =? t); [exact Ha|constructor].
Qed.

Lemma feed_spec : forall records d, dinv d -> records_ok d records ->
  exists ms d', feed records d = Ok (ms, d') /\ dinv d' /\ get_message d' = None /\
  (forall t, decoder_of t d' = decoder_of t d) /\
  forall t dec, decoder_of t d = Some dec ->
    parse_stream dec (buffer_of t d ++ stream_for t records) = (msgs_of t ms, buffer_of t d').
Proof.
  induction records as [|[ty data] rs IH]; intros d Hinv Hrec; cbn [feed]; unfold drain;
    pose proof (drain_fuel_spec (S (total_len d)) d Hinv ltac:(lia)) as Hdrain;
    destruct (drain_fuel (S (total_len d)) d) as [ms1 d1]; destruct Hdrain as (Hnone & Hinv1 & Hdec1 & Hparse).
  - exists ms1, d1. split; [reflexivity|]. split; [exact Hinv1|]. split; [exact Hnone|]. split; [exact Hdec1|].
    intros t dec Hdec. unfold stream_for. cbn [filter map concat]. rewrite app_nil_r. apply Hparse, Hdec.
  - inversion Hrec as [|r rs' [Hdata Hdef] Hrest]; subst. cbn [fst snd] in *.
    assert (Hdef1 : forall t, defined t d1 = defined t d) by (intros t; rewrite !defined_decoder, Hdec1; reflexivity).
    destruct (add_data_spec ty data d1 Hinv1 Hdata) as (d2 & -> & Hinv2 & Hdec2 & Hbuf2); [rewrite Hdef1; exact Hdef|].
    cbn [bind].
    assert (Hrec2 : records_ok d2 rs).
    { eapply Forall_impl; [|exact Hrest]. intros r [Ha Hb]. split; [exact Ha|].
      rewrite defined_decoder, Hdec2, <- defined_decoder, Hdef1. exact Hb. }
    destruct (IH d2 Hinv2 Hrec2) as (ms2 & d3 & -> & F2 & F3 & Fdec & F4). cbn [bind].
    exists (ms1 ++ ms2), d3. split; [reflexivity|]. split; [exact F2|]. split; [exact F3|].
    split; [intros t; rewrite Fdec, Hdec2; apply Hdec1|].
    intros t dec Hdec. rewrite stream_for_cons, msgs_of_app.
    apply (parse_resume dec (decoder_of_wf t d dec Hinv Hdec)) with (rest := buffer_of t d1);
      [|exact (buffer_of_nonneg t d Hinv)|apply Hparse, Hdec|].
    + apply nonneg_app; [destruct (ty =? t); [exact Hdata|constructor]|].
      exact (stream_for_nonneg t d2 rs Hrec2).
    + rewrite app_assoc, <- Hbuf2. apply F4. rewrite Hdec2, Hdec1. exact Hdec.
Qed.

Lemma is_empty_spec d : is_empty d = true <-> forall e, In e d -> e_buf e = [].
Proof.
  unfold is_empty. rewrite forallb_forall. split; intros H e Hin.
  - apply zlen_0_nil, Z.eqb_eq, H, Hin.
  - rewrite (H e Hin). reflexivity.
Qed.

Lemma clear_buffers_empty d : is_empty (clear_buffers d) = true.
Proof.
  unfold is_empty, clear_buffers. rewrite forallb_forall. intros e Hin.
  apply in_map_iff in Hin. destruct Hin as [e0 [<- _]]. reflexivity.
Qed.
