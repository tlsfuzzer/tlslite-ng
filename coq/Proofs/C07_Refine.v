(* C07 -- C03's configurations abstracted to the Cfg records of the RFC spec; the version and the suite
   of a completed run lie in both abstractions (group, scheme and ALPN: Proofs/C03_Negotiate.v). *)
From Coq Require Import ZArith List Bool Lia.
From TV Require Import Base.Prelude Gen.C03Tables Model.C03_Negotiate Proofs.C03_Negotiate
                       Spec.C07_NegotiateRFC.
Import ListNotations.
Open Scope Z_scope.

Definition all_versioned_suites : list Z := ssl3Suites ++ tls12Suites ++ tls13Suites.

Definition abs_client (c : Client) : Cfg :=
  {| cf_versions := filter (fun v => (st_minV (cl_set c) <=? v) &&
                                     ((v <=? st_maxV (cl_set c)) || memZ v (st_versions (cl_set c)))) [0; 1; 2; 3; 4];
     cf_suites := client_suites c;
     cf_groups := client_groups_policy (cl_set c);
     cf_sigs := client_sigalgs (cl_set c);
     cf_alpn := cl_alpn c |}.

(* the server's policy as seen at version v (suite and scheme admission depend on the version) *)
Definition abs_server (s : Server) (v : Z) : Cfg :=
  {| cf_versions := st_versions (sv_set s) ++ filter (fun w => (st_minV (sv_set s) <=? w) && (w <=? st_maxV (sv_set s))) [0; 1; 2; 3; 4];
     cf_suites := filter (suite_allowed (sv_set s) v) all_versioned_suites;
     cf_groups := server_groups_policy (sv_set s);
     cf_sigs := sig_hashes_to_list (sv_set s) false (sv_cert s) (if v <=? 3 then 3 else v);
     cf_alpn := sv_alpn s |}.

Lemma in_filtered_versions (p : Z -> bool) v : 0 <= v <= 4 -> p v = true -> In v (filter p [0; 1; 2; 3; 4]).
Proof.
  intros R P. apply filter_In. split; [|exact P].
  assert (X : v = 0 \/ v = 1 \/ v = 2 \/ v = 3 \/ v = 4) by lia.
  cbn [In]. destruct X as [X|[X|[X|[X|X]]]]; rewrite X; auto 6.
Qed.

Lemma version_in_abs_client c s o : negotiate c s = Ok o ->
  let v := vw_version (oc_server o) in 0 <= v <= 4 -> In v (cf_versions (abs_client c)).
Proof.
  intros H v V. destruct (version_within_client c s o H) as [V1 V2]. apply (in_filtered_versions _ _ V).
  apply andb_true_iff. split; [apply Z.leb_le; exact V1|].
  apply orb_true_iff. destruct V2 as [A|A]; [left; apply Z.leb_le; exact A|right; apply memZ_In; exact A].
Qed.

Lemma version_in_abs_server c s o : negotiate c s = Ok o ->
  let v := vw_version (oc_server o) in
  0 <= v <= 4 -> st_minV (sv_set s) <= st_maxV (sv_set s) -> In v (cf_versions (abs_server s v)).
Proof.
  intros H v V W. apply in_or_app. destruct (server_version_of_run c s o H) as [I|B]; [left; exact I|right].
  apply (in_filtered_versions _ _ V). apply andb_true_iff. split; apply Z.leb_le; apply (B W).
Qed.

Lemma suite_in_abs c s o : negotiate c s = Ok o ->
  let v := vw_version (oc_server o) in let suite := vw_suite (oc_server o) in
  In suite (cf_suites (abs_client c)) /\ In suite (cf_suites (abs_server s v)).
Proof.
  intros H. destruct (suite_of_run c s o H) as (A & B & C). split; [exact A|].
  apply filter_In. split; [exact (suite_in_version_listed _ _ _ C)|exact B].
Qed.
