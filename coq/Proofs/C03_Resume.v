(* C03 -- the abbreviated handshake of Model/C03_Resume.v: a second connection that offers a session on which
   both ends agreed leaves them agreeing again, resumed or not. *)
From Coq Require Import ZArith List Bool.
From TV Require Import Base.Prelude Base.PreludeFacts Model.C03_Negotiate Model.C03_Resume Proofs.C03_Negotiate.
Import ListNotations.
Open Scope Z_scope.

Definition views_agree_but_alpn (cv sv : View) : Prop :=
  vw_version cv = vw_version sv /\ vw_suite cv = vw_suite sv /\ vw_etm cv = vw_etm sv /\
  vw_ems cv = vw_ems sv /\ vw_npn cv = vw_npn sv /\ vw_sni cv = vw_sni sv /\
  vw_send_limit cv = vw_recv_limit sv /\ vw_recv_limit cv = vw_send_limit sv /\
  vw_secret cv = vw_secret sv.

Lemma core_but_alpn cv sv : views_agree_core cv sv -> views_agree_but_alpn cv sv /\ vw_alpn cv = vw_alpn sv.
Proof.
  intros [A [B [C [D [E [F [G [H [I J]]]]]]]]]. split; [|exact E]. repeat split; assumption.
Qed.

Lemma full_handshake_agrees c2 s2 r : full_handshake c2 s2 = Ok r -> views_agree_core (rs_client r) (rs_server r).
Proof.
  unfold full_handshake. intros H. apply bind_Ok in H as (o & E & H). injection H as <-.
  exact (views_agree_core_all _ _ _ E).
Qed.

Lemma resumed_view_agrees sc ss v alpn csend crecv ssend srecv :
  views_agree_core sc ss -> csend = srecv -> crecv = ssend ->
  views_agree_core (resumed_view sc v alpn csend crecv) (resumed_view ss v alpn ssend srecv).
Proof.
  intros (_ & Suite & Etm & Ems & _ & _ & Sni & _ & _ & Secret) -> ->.
  unfold views_agree_core, resumed_view.
  cbn [vw_version vw_suite vw_etm vw_ems vw_npn vw_sni vw_send_limit vw_recv_limit vw_secret vw_alpn].
  repeat split; assumption.
Qed.

Lemma resume_legacy_agrees t c2 s2 sc ss r :
  views_agree_core sc ss -> resume_legacy t c2 s2 sc ss = Ok r ->
  views_agree_core (rs_client r) (rs_server r).
Proof.
  intros V H. unfold resume_legacy in H.
  apply bind_Ok in H as (ch & E0 & H).
  destruct (negb (memZ (vw_suite sc) (client_suites c2))); [discriminate H|].
  destruct (negb (opt_eqb (vw_sni sc) (cl_sni c2))); [discriminate H|].
  apply bind_Ok in H as ([] & _ & H). apply bind_Ok in H as ([] & _ & H). apply bind_Ok in H as (v & _ & H).
  apply bind_Ok in H as ([] & _ & H). apply bind_Ok in H as ([] & _ & H).
  pose proof (full_handshake_agrees c2 s2 r) as FULL.
  destruct (t && (st_maxV (cl_set c2) =? 0)); [exact (FULL H)|].
  destruct (3 <? v); [exact (FULL H)|].
  destruct (negb (memZ (vw_suite ss) (server_suites s2 ch v))); [exact (FULL H)|].
  destruct (negb (memZ (vw_suite ss) (ch_suites ch))); [discriminate H|].
  destruct (match ch_sni ch with Some n => _ | None => false end); [discriminate H|].
  destruct (vw_etm ss && negb (ch_etm ch)); [discriminate H|].
  destruct (vw_ems ss && negb (ch_ems ch)); [discriminate H|].
  destruct (negb (vw_ems ss) && ch_ems ch); [exact (FULL H)|].
  apply bind_Ok in H as (alpn & _ & H). apply bind_Ok in H as ([] & _ & H).
  destruct (negb (_ =? vw_suite sc)); [discriminate H|].
  injection H as <-. cbn [rs_client rs_server rs_resumed].
  (* the limits: each end computes both from the hello's record_size_limit, which is the client's own setting, and
     the server's *)
  apply resumed_view_agrees; [exact V| |];
    (destruct (ch_rsl ch) as [r0|] eqn:R; [rewrite (of_rsl (client_offer_ok E0) R)|];
     destruct (st_rsl (sv_set s2)); reflexivity).
Qed.
