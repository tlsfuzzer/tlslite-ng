(* RC4, and the two ways of calling CTR that the stream-splitting example compares.  (CBC is in C09_CBC.v; blocks_ok,
   the hypothesis of Props.C09.cbc_dec_enc on the blocks of the specification, stands here.)  RC4 alone says "bytes" as
   Forall (fun x => 0 <= x < 256); the other primitives say all_bytes .. = true, and PreludeFacts.all_bytes_Forall is the
   equivalence of the two. *)
From Coq Require Import ZArith List Bool Lia.
From TV Require Import Base.Prelude Base.PreludeFacts Base.C09_Lib Base.C09_Oracle Gen.C09_RC4 Gen.C09_AesModes
  Spec.C09_Modes Proofs.C09_Lists.
Import ListNotations.
Open Scope Z_scope.

Definition rc4_state_ok (st : list Z * Z * Z) : Prop :=
  let '(Sb, i, j) := st in
  length Sb = 256%nat /\ Forall (fun x => 0 <= x < 256) Sb /\ 0 <= i < 256 /\ 0 <= j < 256.

Lemma nthZ_range Sb k : Forall (fun x => 0 <= x < 256) Sb -> 0 <= nthZ Sb k < 256.
Proof. intros H. apply (Forall_nth_Z (fun x => 0 <= x < 256) Sb k H). lia. Qed.

Lemma swap_ok Sb i j : length Sb = 256%nat -> Forall (fun x => 0 <= x < 256) Sb ->
  length (swap Sb i j) = 256%nat /\ Forall (fun x => 0 <= x < 256) (swap Sb i j).
Proof.
  intros L F. unfold swap. split; [rewrite !set_nth_length; exact L|].
  repeat apply set_nth_Forall; try assumption; apply nthZ_range; assumption.
Qed.

Lemma rc4_step_ok st : rc4_state_ok st -> rc4_state_ok (fst (rc4_step st)) /\ 0 <= snd (rc4_step st) < 256.
Proof.
  destruct st as [[Sb i] j]. intros (L & F & Hi & Hj). unfold rc4_step. cbv zeta. cbn [fst snd].
  destruct (swap_ok Sb ((i + 1) mod 256) ((j + nthZ Sb ((i + 1) mod 256)) mod 256) L F) as [L' F'].
  split; [|apply nthZ_range; exact F'].
  unfold rc4_state_ok. split; [exact L'|]. split; [exact F'|]. split; apply Z.mod_pos_bound; lia.
Qed.

(* The generated loop, entered in the middle: pre is the part of the buffer already encrypted.  Of the loop body only its
   effect on the byte in focus is used, one rc4_step; rc4_encrypt_ok shows it of the generated text. *)
Lemma rc4_loop (body : Z * Z * list Z * list Z -> Z -> res (Z * Z * list Z * list Z)) :
  (forall Sb i j pre b suf, rc4_state_ok (Sb, i, j) -> 0 <= b < 256 ->
     body (i, j, Sb, pre ++ b :: suf) (zlen pre) =
     let '((S', i', j'), k) := rc4_step (Sb, i, j) in Ok (i', j', S', pre ++ Z.lxor b k :: suf)) ->
  forall data pre Sb i j, rc4_state_ok (Sb, i, j) -> Forall (fun x => 0 <= x < 256) data ->
  foldM body (zrange (zlen pre) (zlen pre + zlen data)) (i, j, Sb, pre ++ data) =
  let '((S', i', j'), out) := rc4_crypt (Sb, i, j) data in Ok (i', j', S', pre ++ out).
Proof.
  intros Hbody. induction data as [|b data IH]; intros pre Sb i j Hst Hd.
  - rewrite zrange_focus_nil. reflexivity.
  - inversion Hd as [|? ? Hb Hd']; subst.
    cbn [rc4_crypt]. pose proof (Hbody Sb i j pre b data Hst Hb) as Eb.
    pose proof (rc4_step_ok (Sb, i, j) Hst) as [Hst1 Hk].
    destruct (rc4_step (Sb, i, j)) as [[[S1 i1] j1] k]. cbn [fst snd] in Hst1, Hk.
    rewrite (zrange_focus pre (Z.lxor b k)). cbn [foldM]. rewrite Eb, bind_of_Ok.
    rewrite (snoc_app pre _ data), (IH (pre ++ [Z.lxor b k]) S1 i1 j1 Hst1 Hd').
    destruct (rc4_crypt (S1, i1, j1) data) as [[[S2 i2] j2] out]. rewrite <- snoc_app. reflexivity.
Qed.

Lemma rc4_encrypt_ok st pt : rc4_state_ok (rc4_S st, rc4_i st, rc4_j st) -> Forall (fun x => 0 <= x < 256) pt ->
  rc4_encrypt st pt =
  let '((S', i', j'), out) := rc4_crypt (rc4_S st, rc4_i st, rc4_j st) pt in Ok (mkRC4 S' i' j', out).
Proof.
  intros Hst Hp. unfold rc4_encrypt. cbv zeta.
  match goal with |- context [foldM ?b _ _] => rewrite (rc4_loop b) with (pre := []) (data := pt) end; [| |assumption..].
  - destruct (rc4_crypt (rc4_S st, rc4_i st, rc4_j st) pt) as [[[S2 i2] j2] out]. reflexivity.
  - (* the step of the body *) clear. intros Sb i j pre b suf (L & F & Hi & Hj) Hb. unfold rc4_step. cbv zeta.
    assert (Hz : zlen Sb = 256) by (unfold zlen; lia).
    set (i' := (i + 1) mod 256). assert (Hi' : 0 <= i' < 256) by (apply Z.mod_pos_bound; lia).
    rewrite py_index_ok by lia. rewrite bind_of_Ok.
    set (j' := (j + nthZ Sb i') mod 256). assert (Hj' : 0 <= j' < 256) by (apply Z.mod_pos_bound; lia).
    rewrite !py_index_ok by lia. rewrite !bind_of_Ok.
    rewrite py_store_ok by lia. rewrite bind_of_Ok.
    rewrite py_store_ok by (unfold zlen; rewrite set_nth_length; lia). rewrite bind_of_Ok.
    fold (swap Sb i' j').
    destruct (swap_ok Sb i' j' L F) as [L' F'].
    assert (Hz' : zlen (swap Sb i' j') = 256) by (unfold zlen; lia).
    rewrite !py_index_ok by lia. rewrite !bind_of_Ok.
    set (t := (nthZ (swap Sb i' j') i' + nthZ (swap Sb i' j') j') mod 256).
    assert (Ht : 0 <= t < 256) by (apply Z.mod_pos_bound; lia).
    rewrite py_index_app, bind_of_Ok. rewrite py_index_ok by lia. rewrite bind_of_Ok.
    rewrite py_store_b_app by (apply is_byte_iff, lxor_byte; [exact Hb|apply nthZ_range; exact F']).
    reflexivity.
Qed.

Lemma rc4_decrypt_is_encrypt st ct : rc4_decrypt st ct = rc4_encrypt st ct.
Proof.
  unfold rc4_decrypt. destruct st as [Sb i j]. cbn [rc4_S rc4_i rc4_j].
  destruct (rc4_encrypt (mkRC4 Sb i j) ct) as [[[S' i' j'] out]|e]; reflexivity.
Qed.

Lemma rc4_crypt_app st a b :
  rc4_crypt st (a ++ b) =
  let '(st1, c1) := rc4_crypt st a in let '(st2, c2) := rc4_crypt st1 b in (st2, c1 ++ c2).
Proof.
  revert st. induction a as [|x a IH]; intros st; cbn [app rc4_crypt].
  - destruct (rc4_crypt st b). reflexivity.
  - destruct (rc4_step st) as [st1 k]. rewrite IH.
    destruct (rc4_crypt st1 a) as [st2 c1]. destruct (rc4_crypt st2 b) as [st3 c2]. reflexivity.
Qed.

Lemma rc4_crypt_state_ok st data : rc4_state_ok st -> rc4_state_ok (fst (rc4_crypt st data)) /\
  (Forall (fun x => 0 <= x < 256) data -> Forall (fun x => 0 <= x < 256) (snd (rc4_crypt st data))).
Proof.
  revert st. induction data as [|b data IH]; intros st Hst; cbn [rc4_crypt].
  - split; [exact Hst|intros; constructor].
  - pose proof (rc4_step_ok st Hst) as [H1 Hk]. destruct (rc4_step st) as [st1 k]. cbn [fst snd] in *.
    destruct (IH st1 H1) as [H2 H3]. destruct (rc4_crypt st1 data) as [st2 out]. cbn [fst snd] in *.
    split; [exact H2|]. intros Hd. inversion Hd; subst. constructor; [apply lxor_byte; assumption|auto].
Qed.

Lemma rc4_crypt_involutive st data :
  rc4_crypt st (snd (rc4_crypt st data)) = (fst (rc4_crypt st data), data).
Proof.
  revert st. induction data as [|b data IH]; intros st; cbn [rc4_crypt]; [reflexivity|].
  destruct (rc4_step st) as [st1 k] eqn:E1. specialize (IH st1).
  destruct (rc4_crypt st1 data) as [st2 out]. cbn [snd fst rc4_crypt] in *. rewrite E1, IH.
  rewrite Z.lxor_assoc, Z.lxor_nilpotent, Z.lxor_0_r. reflexivity.
Qed.

Lemma rc4_init_ok key : 16 <= zlen key <= 256 ->
  rc4_init key = Ok (mkRC4 (rc4_ksa key) 0 0) /\ rc4_state_ok (rc4_ksa key, 0, 0).
Proof.
  intros Hk. unfold rc4_init, rc4_base_init.
  destruct ((zlen key <? 16) || (zlen key >? 256)) eqn:E; [lia|]. rewrite bind_of_Ok.
  rewrite map_id.
  set (P := fun st : Z * list Z => length (snd st) = 256%nat /\ Forall (fun x => 0 <= x < 256) (snd st) /\ 0 <= fst st < 256).
  set (g := fun '(j, Sb) i => let j := (j + nthZ Sb i + nthZ key (i mod zlen key)) mod 256 in (j, swap Sb i j)).
  assert (P0 : P (0, zrange 0 256)).
  { unfold P. cbn [fst snd]. split; [rewrite zrange_length; reflexivity|]. split; [|lia].
    apply Forall_forall. intros x Hx. apply in_zrange in Hx. lia. }
  match goal with |- context [foldM ?f _ _] =>
    destruct (foldM_inv P f g (zrange 0 256)) with (a := (0, zrange 0 256)) as [E1 P1] end; [|exact P0|].
  { intros [j Sb] i Hi (L & F & Hj). apply in_zrange in Hi. cbn [fst snd] in L, F, Hj.
    assert (Hz : zlen Sb = 256) by (unfold zlen; lia).
    rewrite py_index_ok, bind_of_Ok by lia.
    rewrite py_mod_ok, bind_of_Ok by lia.
    pose proof (Z.mod_pos_bound i (zlen key) ltac:(lia)).
    rewrite py_index_ok, bind_of_Ok by lia. cbv zeta.
    set (j' := (j + nthZ Sb i + nthZ key (i mod zlen key)) mod 256).
    assert (Hj' : 0 <= j' < 256) by (apply Z.mod_pos_bound; lia).
    rewrite !py_index_ok, !bind_of_Ok by lia.
    rewrite py_store_ok, bind_of_Ok by lia.
    rewrite py_store_ok, bind_of_Ok by (unfold zlen; rewrite set_nth_length; lia).
    fold (swap Sb i j'). unfold g. fold j'.
    destruct (swap_ok Sb i j' L F) as [L' F'].
    split; [reflexivity|unfold P; cbn [fst snd]; auto]. }
  rewrite E1, bind_of_Ok. unfold rc4_ksa. fold g.
  destruct (fold_left g (zrange 0 256) (0, zrange 0 256)) as [j Sb]. cbn [snd fst] in *.
  split; [reflexivity|]. destruct P1 as (L & F & _). unfold rc4_state_ok. split; [exact L|]. split; [exact F|]. lia.
Qed.

Section CBC.
  Variable bs : nat.

  Definition blocks_ok (l : list (list Z)) : Prop := Forall (fun b => length b = bs) l.
End CBC.

(* CTR: two calls on one object vs one call on the concatenation (the general theorem is ctr_stream_split_code in
   Proofs/C09_CTR.v).  They agree because the object keeps its unused key stream (/repo commit de57de0 "Python_AES_CTR
   must keep unused key stream between calls"); on the code without it they differ for every split inside a block. *)
Definition ctr_two_calls (O : BlockOracle) key iv a b : res (list Z) :=
  st <- ctr_init O key 6 iv ;; '(st1, c1) <- ctr_encrypt O st a ;; '(st2, c2) <- ctr_encrypt O st1 b ;; Ok (c1 ++ c2).
Definition ctr_one_call (O : BlockOracle) key iv a b : res (list Z) :=
  st <- ctr_init O key 6 iv ;; '(st1, c) <- ctr_encrypt O st (a ++ b) ;; Ok c.
