(* C04 -- what a row of the regenerated decision tables of the sentinel code has to satisfy: agreement with
   the model's functions at that point of the finite domain *)
From Coq Require Import ZArith String Bool.
From TV Require Import Model.C04_Tamper.
Open Scope Z_scope.

(* one row per (client maxVersion, negotiated version, tail class) in 768..772 x 768..772 x {1,2,0} *)
Definition check_row_ok (r : Z * Z * Z * bool * Z) : bool :=
  let '(cmax, v, t, ab, al) := r in
  Bool.eqb (sentinel_hit cmax v t) ab && (if ab then al =? ALERT_ILLEGAL_PARAMETER else true).
(* one row per (function, server maxVersion, selected version <= min(max, TLS 1.2)): tail class of the random built *)
Definition write_row_ok (r : string * Z * Z * Z) : bool :=
  let '(_, smax, v, t) := r in sentinel_for smax v 0 =? t.
