(* C14 lemmas: RecordSocket reads/writes over scripted sockets depend only on the
   byte stream the script carries, never on its chunking or would-blocks. *)
From Coq Require Import ZArith List Bool Lia.
From TV Require Import Base.Prelude Base.PreludeFacts Model.C14_Transport.
Import ListNotations.
Open Scope Z_scope.

(* how a read ends that the stream cannot satisfy *)
Definition stuck {A} (t : term) : outcome A :=
  match t with TOpen => Pending | TEof => Raised AbruptClose | TFail e => Raised (SockError e) end.

Lemma take_spec_short n d t : zlen d < n -> take_spec n (d, t) = (0, stuck t, (d, t)).
Proof.
  intros H. unfold take_spec. destruct (n <=? zlen d) eqn:E; [lia|]. destruct t; reflexivity.
Qed.

Lemma take_spec_head n c d t : n <= zlen c ->
  take_spec n (c ++ d, t) = (0, Done (firstn (Z.to_nat n) c), (skipn (Z.to_nat n) c ++ d, t)).
Proof.
  intros H. unfold take_spec. pose proof (zlen_nonneg d). rewrite zlen_app.
  destruct (n <=? zlen c + zlen d) eqn:E; [|lia].
  rewrite firstn_short_Z, skipn_short_Z by exact H. reflexivity.
Qed.

Lemma take_spec_enough n a c d t : zlen a <= n <= zlen a + zlen c ->
  take_spec n (a ++ c ++ d, t) =
  (0, Done (a ++ firstn (Z.to_nat (n - zlen a)) c), (skipn (Z.to_nat (n - zlen a)) c ++ d, t)).
Proof.
  intros H. rewrite app_assoc, take_spec_head by (rewrite zlen_app; lia).
  rewrite firstn_app_Z, skipn_app_Z by lia. reflexivity.
Qed.

(* what a read cut short of req takes, and what it queues again *)
Lemma split_again {A} (c : list A) (m req : Z) :
  0 <= m <= req ->
  firstn (Z.to_nat (req - m)) (skipn (Z.to_nat m) c) ++ skipn (Z.to_nat req) c
  = skipn (Z.to_nat m) c.
Proof.
  intros H. replace (Z.to_nat req) with (Z.to_nat m + Z.to_nat (req - m))%nat by lia.
  rewrite <- skipn_add. apply firstn_skipn.
Qed.

Definition ra_ok (ra : Z -> Z) : Prop := forall m, m <= ra m.

Lemma ra_raw_ok : ra_ok ra_raw.
Proof. intros m. unfold ra_raw. lia. Qed.
Lemma ra_buffered_ok : ra_ok ra_buffered.
Proof. intros m. unfold ra_buffered. lia. Qed.

(* a run over a socket against the same read on the stream: same outcome, and after a
   completed read the state still carries what the stream has left *)
Definition agrees {A} (r : gres A) (sp : Z * outcome A * stream) : Prop :=
  out_of r = out_of sp /\
  (forall a, out_of r = Done a -> stream_of (state_of r) = state_of sp).

Lemma agrees_done {A} y (a : A) st y' x : stream_of st = x -> agrees (y, Done a, st) (y', Done a, x).
Proof. intros H. split; [reflexivity|]. intros _ _. exact H. Qed.

Lemma agrees_stuck {A} y t st y' x : agrees (y, @stuck A t, st) (y', stuck t, x).
Proof. split; [reflexivity|]. unfold out_of. cbn [fst snd]. destruct t; discriminate. Qed.

Lemma agrees_short x t need acc y st :
  x = ([], t) -> zlen acc < need -> agrees (y, stuck t, st) (take_spec need (acc ++ fst x, snd x)).
Proof. intros -> H. cbn [fst snd]. rewrite app_nil_r, take_spec_short by exact H. apply agrees_stuck. Qed.

Lemma stream_of_eq rbuf s : stream_of (rbuf, s) = (rbuf ++ fst (flatten s), snd (flatten s)).
Proof. unfold stream_of. cbn [fst snd]. destruct (flatten s). reflexivity. Qed.

Lemma recv_loop_spec ra (Hra : ra_ok ra) need : forall s acc y,
  zlen acc < need ->
  agrees (recv_loop ra need acc y s)
         (take_spec need (acc ++ fst (flatten s), snd (flatten s))).
Proof.
  induction s as [|ev s IH]; intros acc y Hacc; [exact (agrees_short _ TOpen _ _ _ _ eq_refl Hacc)|].
  destruct ev as [c| |e]; cbn [recv_loop flatten].
  - destruct (zlen c =? 0) eqn:Ec; [exact (agrees_short _ TEof _ _ _ _ eq_refl Hacc)|].
    destruct (flatten s) as [d t] eqn:Ef. cbn [fst snd] in *.
    pose proof (zlen_nonneg acc). pose proof (Hra (need - zlen acc)) as Hreq.
    destruct (zlen c <=? ra (need - zlen acc)) eqn:E1; [destruct (zlen c <? need - zlen acc) eqn:E2|].
    + rewrite app_assoc. apply IH. rewrite zlen_app. lia.
    + rewrite take_spec_enough by lia. apply agrees_done.
      rewrite stream_of_eq, Ef. reflexivity.
    + (* the chunk is cut at the read-ahead: its tail is queued again, and is not empty *)
      rewrite take_spec_enough by lia. apply agrees_done.
      rewrite stream_of_eq. cbn [flatten].
      replace (zlen (skipn (Z.to_nat (ra (need - zlen acc))) c) =? 0) with false
        by (rewrite skipn_zlen; lia).
      rewrite Ef. cbn [fst snd]. rewrite app_assoc, split_again by lia. reflexivity.
  - exact (agrees_short _ TEof _ _ _ _ eq_refl Hacc).
  - destruct (is_wb e); [apply IH; exact Hacc|exact (agrees_short _ (TFail e) _ _ _ _ eq_refl Hacc)].
Qed.

(* a read of no bytes is a read that the buffer satisfies *)
Lemma recv_all_eq ra need rbuf s :
  recv_all ra need (rbuf, s) =
  if need <=? zlen rbuf then (0, Done (firstn (Z.to_nat need) rbuf), (skipn (Z.to_nat need) rbuf, s))
  else recv_loop ra need rbuf 0 s.
Proof.
  unfold recv_all. destruct (Z.eqb_spec need 0) as [->|]; [|reflexivity].
  pose proof (zlen_nonneg rbuf). destruct (0 <=? zlen rbuf) eqn:E; [reflexivity|lia].
Qed.

Lemma recv_all_spec ra (Hra : ra_ok ra) need st :
  agrees (recv_all ra need st) (take_spec need (stream_of st)).
Proof.
  destruct st as [rbuf s]. rewrite stream_of_eq, recv_all_eq.
  destruct (need <=? zlen rbuf) eqn:E; [|apply recv_loop_spec; [exact Hra|lia]].
  rewrite take_spec_head by lia. apply agrees_done, stream_of_eq.
Qed.

Lemma run_agrees ra (Hra : ra_ok ra) {A} (p : prog A) : forall st,
  agrees (run_sock ra p st) (run_spec p (stream_of st)).
Proof.
  unfold run_sock, run_spec.
  induction p as [a|e|n k IH]; intros st; cbn [run].
  - apply agrees_done. reflexivity.
  - split; [reflexivity|]. intros; discriminate.
  - destruct (recv_all_spec ra Hra n st) as [Ho Hs].
    destruct (recv_all ra n st) as [[y o] st'].
    destruct (take_spec n (stream_of st)) as [[y2 o2] x'].
    unfold out_of, state_of in Ho, Hs. cbn [fst snd] in Ho, Hs. subst o2.
    destruct o as [d|e|]; [|split; [reflexivity|intros; discriminate]..].
    rewrite <- (Hs d eq_refl). specialize (IH d st').
    destruct (run (recv_all ra) (k d) st') as [[ya oa] sa].
    destruct (run take_spec (k d) (stream_of st')) as [[yb ob] sb].
    exact IH.
Qed.

Definition canon (x : stream) : list rev :=
  (if zlen (fst x) =? 0 then [] else [Data (fst x)]) ++
  match snd x with TOpen => [] | TEof => [Eof] | TFail e => [Fail e] end.

Lemma flatten_term_not_wb s : forall e, snd (flatten s) = TFail e -> is_wb e = false.
Proof.
  induction s as [|ev s IH]; intros e; cbn [flatten]; [discriminate|].
  destruct ev as [c| |e0].
  - destruct (zlen c =? 0); [discriminate|].
    destruct (flatten s) as [d t]. apply IH.
  - discriminate.
  - destruct (is_wb e0) eqn:E; [apply IH|]. intros H. injection H as <-. exact E.
Qed.

Lemma flatten_canon s : flatten (canon (flatten s)) = flatten s.
Proof.
  pose proof (flatten_term_not_wb s) as Hwb.
  destruct (flatten s) as [d t]. unfold canon. cbn [fst snd] in *.
  assert (Ht : flatten (match t with TOpen => [] | TEof => [Eof] | TFail e => [Fail e] end) = ([], t)).
  { destruct t as [| |e]; cbn [flatten]; [reflexivity..|]. rewrite (Hwb e eq_refl). reflexivity. }
  destruct (zlen d =? 0) eqn:Ed; cbn [app flatten].
  - apply Z.eqb_eq, zlen_0_nil in Ed. subst d. exact Ht.
  - rewrite Ed, Ht, app_nil_r. reflexivity.
Qed.

Lemma count_wb_cons ev s :
  count_wb (ev :: s) = (match ev with Fail e => if is_wb e then 1 else 0 | _ => 0 end) + count_wb s.
Proof. unfold count_wb. rewrite zlen_filter_cons. destruct ev; reflexivity. Qed.

Lemma count_wb_nonneg s : 0 <= count_wb s.
Proof. apply zlen_nonneg. Qed.

Lemma run_steps {St} (take : Z -> St -> Z * outcome (list Z) * St) (P : St -> Z -> St -> Prop) :
  (forall st, P st 0 st) ->
  (forall a y b y' c, P a y b -> P b y' c -> P a (y + y') c) ->
  (forall n st, P st (yields_of (take n st)) (state_of (take n st))) ->
  forall {A} (p : prog A) st, P st (yields_of (run take p st)) (state_of (run take p st)).
Proof.
  intros Hrefl Htrans Htake A.
  induction p as [a|e|n k IH]; intros st; cbn [run]; [apply Hrefl..|].
  specialize (Htake n st). destruct (take n st) as [[y o] st'].
  destruct o as [d|e|]; [|exact Htake..].
  specialize (IH d st'). destruct (run take (k d) st') as [[y2 o2] st2].
  exact (Htrans _ _ _ _ _ Htake IH).
Qed.

Definition wb_spent (st : rstate) (y : Z) (st' : rstate) : Prop :=
  0 <= y /\ y = count_wb (snd st) - count_wb (snd st').

Lemma recv_loop_yields ra need : forall s acc y,
  let r := recv_loop ra need acc y s in
  y <= yields_of r /\ yields_of r - y = count_wb s - count_wb (snd (state_of r)).
Proof.
  induction s as [|ev s IH]; intros acc y; cbn zeta; [cbn; lia|].
  rewrite count_wb_cons. unfold yields_of, state_of in *.
  destruct ev as [c| |e]; cbn [recv_loop].
  - destruct (zlen c =? 0); [cbn [fst snd]; lia|].
    destruct (zlen c <=? ra (need - zlen acc)); [destruct (zlen c <? need - zlen acc)|].
    + specialize (IH (acc ++ c) y). cbn zeta in IH. lia.
    + cbn [fst snd]. lia.
    + cbn [fst snd]. rewrite count_wb_cons. lia.
  - cbn [fst snd]. lia.
  - destruct (is_wb e); [|cbn [fst snd]; lia].
    specialize (IH acc (y + 1)). cbn zeta in IH. lia.
Qed.

Lemma recv_all_yields ra need st :
  wb_spent st (yields_of (recv_all ra need st)) (state_of (recv_all ra need st)).
Proof.
  destruct st as [rbuf s]. unfold wb_spent. rewrite recv_all_eq.
  destruct (need <=? zlen rbuf); [cbn; lia|].
  pose proof (recv_loop_yields ra need s rbuf 0) as H. cbn zeta in H. cbn [snd]. lia.
Qed.

Lemma run_yields ra {A} (p : prog A) st :
  wb_spent st (yields_of (run_sock ra p st)) (state_of (run_sock ra p st)).
Proof.
  apply (run_steps (recv_all ra) wb_spent); unfold wb_spent; [lia..|apply recv_all_yields].
Qed.

Lemma flatten_strip_wb s : flatten (strip_wb s) = flatten s.
Proof.
  induction s as [|ev s IH]; [reflexivity|].
  destruct ev as [c| |e]; cbn [strip_wb filter flatten]; fold (strip_wb s).
  - rewrite IH. reflexivity.
  - reflexivity.
  - destruct (is_wb e) eqn:E; cbn [negb flatten]; [exact IH|]. rewrite E. reflexivity.
Qed.

Lemma count_wb_strip s : count_wb (strip_wb s) = 0.
Proof.
  induction s as [|ev s IH]; [reflexivity|].
  destruct ev as [c| |e]; cbn [strip_wb filter]; fold (strip_wb s); [rewrite count_wb_cons; lia..|].
  destruct (is_wb e) eqn:E; cbn [negb]; [exact IH|].
  rewrite count_wb_cons, E. lia.
Qed.

Lemma take_spec_term n x : snd (state_of (take_spec n x)) = snd x.
Proof.
  destruct x as [d t]. unfold take_spec.
  destruct (n <=? zlen d); [reflexivity|]. destruct t; reflexivity.
Qed.

Lemma run_spec_term {A} (p : prog A) : forall x,
  snd (state_of (run_spec p x)) = snd x.
Proof.
  apply (run_steps take_spec (fun x _ x' => snd x' = snd x)); [reflexivity|congruence|].
  intros n x. apply take_spec_term.
Qed.

(* programs that never raise a socket error themselves *)
Inductive clean {A} : prog A -> Prop :=
| clean_ret a : clean (Ret a)
| clean_throw e : (forall n, e <> SockError n) -> clean (Throw e)
| clean_take n k : (forall d, clean (k d)) -> clean (Take n k).

Lemma clean_pbind {A B} (p : prog A) (f : A -> prog B) :
  clean p -> (forall a, clean (f a)) -> clean (pbind p f).
Proof.
  intros Hp Hf. induction Hp as [a|e H1|n k Hk IH]; cbn [pbind].
  - apply Hf.
  - apply clean_throw. exact H1.
  - apply clean_take. exact IH.
Qed.

Lemma clean_recv_header : clean recv_header.
Proof.
  unfold recv_header. apply clean_take. intros b0.
  destruct (in_Z (b b0 0) content_types); apply clean_take; intros r; [apply clean_ret|].
  match goal with |- clean (if ?c then _ else _) => destruct c end;
    [apply clean_throw; discriminate|apply clean_ret].
Qed.

Lemma clean_record_recv limit tls13 : clean (record_recv limit tls13).
Proof.
  unfold record_recv. apply clean_pbind; [apply clean_recv_header|]. intros hd.
  destruct (limit + 1024 + 1024 <? h_len hd); [apply clean_throw; discriminate|].
  destruct (tls13 && (limit + 256 <? h_len hd)); [apply clean_throw; discriminate|].
  apply clean_take. intros body. apply clean_ret.
Qed.

Lemma clean_recv_many limit tls13 k : clean (recv_many limit tls13 k).
Proof.
  induction k as [|k IH]; cbn [recv_many]; [apply clean_ret|].
  apply clean_pbind; [apply clean_record_recv|]. intros r.
  apply clean_pbind; [exact IH|]. intros rs. apply clean_ret.
Qed.

Lemma run_spec_eof {A} (p : prog A) (Hc : clean p) : forall x, snd x = TEof ->
  out_of (run_spec p x) <> Pending /\ (forall e, out_of (run_spec p x) <> Raised (SockError e)).
Proof.
  unfold run_spec. induction Hc as [a|e H1|n k Hk IH]; intros [d t] Hx; cbn [snd] in Hx; subst t.
  - split; [|intros e]; discriminate.
  - split; [discriminate|]. intros e0 H. injection H as H. exact (H1 e0 H).
  - cbn [run]. destruct (Z_lt_le_dec (zlen d) n) as [Hn|Hn].
    + rewrite take_spec_short by exact Hn. split; [|intros e]; discriminate.
    + pose proof (take_spec_head n d [] TEof Hn) as E. rewrite !app_nil_r in E. rewrite E.
      specialize (IH (firstn (Z.to_nat n) d) (skipn (Z.to_nat n) d, TEof) eq_refl).
      destruct (run take_spec _ _) as [[y2 o2] x2]. exact IH.
Qed.

Lemma eof_never_pending ra (Hra : ra_ok ra) {A} (p : prog A) (Hc : clean p) st :
  snd (stream_of st) = TEof ->
  out_of (run_sock ra p st) <> Pending /\ (forall e, out_of (run_sock ra p st) <> Raised (SockError e)).
Proof.
  intros Ht. rewrite (proj1 (run_agrees ra Hra p st)). apply run_spec_eof; assumption.
Qed.

Lemma accepted_range k data : 0 <= accepted k data <= zlen data.
Proof. unfold accepted. pose proof (zlen_nonneg data). lia. Qed.

Inductive sock_error_in (hard : Z -> Prop) (s : list sev) (e : exc) : Prop :=
| Sock_error_in n (Hexc : e = SockError n) (Hhard : hard n) (Hin : In (SFail n) s).

(* What a send loop did with [data] over schedule [s], ending with outcome [o], wire [w] and
   remaining schedule [s'] *)
Set Implicit Arguments.
Record sends (hard : Z -> Prop) (data wire : list Z) (s : list sev)
             (o : outcome unit) (w : list Z) (s' : list sev) : Prop := {
  sends_prefix : exists sent rest, data = sent ++ rest /\ w = wire ++ sent /\ (o = Done tt -> rest = []);
  sends_error : forall e, o = Raised e -> sock_error_in hard s e;
  sends_exhausted : o = Pending -> s' = [];
  sends_incl : incl s' s }.
Unset Implicit Arguments.

Lemma sends_all {hard data wire s w s'} : sends hard data wire s (Done tt) w s' -> w = wire ++ data.
Proof.
  intros H. destruct (sends_prefix H) as (sent & rest & Hdata & Hw & Hall).
  rewrite Hw, Hdata, (Hall eq_refl), app_nil_r. reflexivity.
Qed.

Lemma sends_done (hard : Z -> Prop) data wire s s' :
  incl s' s -> sends hard data wire s (Done tt) (wire ++ data) s'.
Proof.
  intros H. split; [exists data, []; rewrite app_nil_r; auto|discriminate..|exact H].
Qed.

Lemma sends_raise (hard : Z -> Prop) data wire s n s' :
  hard n -> In (SFail n) s -> incl s' s -> sends hard data wire s (Raised (SockError n)) wire s'.
Proof.
  intros Hn Hin H. split; [exists [], data; rewrite app_nil_r; repeat split; discriminate| |discriminate|exact H].
  intros e He. injection He as <-. exact (Sock_error_in hard s _ n eq_refl Hn Hin).
Qed.

Lemma sends_pending (hard : Z -> Prop) data wire s : sends hard data wire s Pending wire [].
Proof.
  split; [exists [], data; rewrite app_nil_r; repeat split; discriminate|discriminate|reflexivity|apply incl_nil_l].
Qed.

Lemma sends_cons (hard : Z -> Prop) data wire ev s o w s' :
  sends hard data wire s o w s' -> sends hard data wire (ev :: s) o w s'.
Proof.
  intros [Hprefix Herror Hexhausted Hincl]. split; [exact Hprefix| |exact Hexhausted|apply incl_tl, Hincl].
  intros e He. destruct (Herror e He) as [n Hexc Hhard Hin]. exact (Sock_error_in _ _ _ n Hexc Hhard (in_cons _ _ _ Hin)).
Qed.

Lemma sends_part (hard : Z -> Prop) data wire k s o w s' :
  sends hard (skipn k data) (wire ++ firstn k data) s o w s' -> sends hard data wire s o w s'.
Proof.
  intros [(sent & rest & Hdata & Hw & Hall) Herror Hexhausted Hincl]. split; [|assumption..].
  exists (firstn k data ++ sent), rest.
  rewrite <- app_assoc, <- Hdata, firstn_skipn, Hw, app_assoc. auto.
Qed.

Lemma sends_nothing (hard : Z -> Prop) wire s : sends hard [] wire s (Done tt) wire s.
Proof. rewrite <- (app_nil_r wire) at 2. apply sends_done, incl_refl. Qed.

(* _sockSendAll raises for nothing but a socket error that is not a would-block *)
Lemma send_all_sends (hard : Z -> Prop) (Hh : forall n, is_wb n = false -> hard n) :
  forall s data y wire,
  let r := send_all data y wire s in
  sends hard data wire s (snd (fst (fst r))) (snd (fst r)) (snd r).
Proof.
  induction s as [|ev s IH]; intros data y wire; cbn zeta; [apply sends_pending|].
  destruct ev as [k|e]; cbn [send_all].
  - destruct (accepted k data =? zlen data); [apply sends_done, incl_tl, incl_refl|].
    apply sends_cons. eapply sends_part, IH.
  - destruct (is_wb e) eqn:E; [apply sends_cons, IH|].
    apply sends_raise; [exact (Hh e E)|left; reflexivity|apply incl_tl, incl_refl].
Qed.

(* socket.sendall: the same, except that a would-block is an error like any other *)
Lemma sock_sendall_sends (hard : Z -> Prop) (Hh : forall n, hard n) : forall s data wire,
  let r := sock_sendall data wire s in
  sends hard data wire s (fst (fst r)) (snd (fst r)) (snd r).
Proof.
  induction s as [|ev s IH]; intros data wire; cbn zeta; [apply sends_pending|].
  destruct ev as [k|e]; cbn [sock_sendall].
  - destruct (accepted k data =? zlen data); [apply sends_done, incl_tl, incl_refl|].
    apply sends_cons. eapply sends_part, IH.
  - apply sends_raise; [apply Hh|left; reflexivity|apply incl_tl, incl_refl].
Qed.

Lemma accept_only_no_fail s n : forallb sev_accept_only s = true -> ~ In (SFail n) s.
Proof. intros H Hin. exact (diff_false_true (proj1 (forallb_forall _ _) H _ Hin)). Qed.

Definition pos_accept_or_wb (e : sev) : bool :=
  match e with Accept k => 1 <=? k | SFail e => is_wb e end.
Definition n_accepts (s : list sev) : Z :=
  zlen (filter (fun e => match e with Accept _ => true | _ => false end) s).

Lemma n_accepts_cons ev s :
  n_accepts (ev :: s) = (match ev with Accept _ => 1 | _ => 0 end) + n_accepts s.
Proof. unfold n_accepts. rewrite zlen_filter_cons. destruct ev; reflexivity. Qed.

(* every accept takes at least one byte, so zlen data accepts suffice (one for empty data) *)
Lemma send_all_completes : forall s data y wire,
  forallb pos_accept_or_wb s = true -> Z.max 1 (zlen data) <= n_accepts s ->
  snd (fst (fst (send_all data y wire s))) = Done tt.
Proof.
  induction s as [|ev s IH]; intros data y wire Hall Hn; [cbn in Hn; lia|].
  cbn [forallb] in Hall. apply andb_true_iff in Hall. destruct Hall as [Hev Hall].
  rewrite n_accepts_cons in Hn.
  destruct ev as [k|e]; cbn [send_all pos_accept_or_wb] in *.
  - apply Z.leb_le in Hev. pose proof (accepted_range k data) as Hr.
    destruct (accepted k data =? zlen data) eqn:E; [reflexivity|].
    apply IH; [exact Hall|]. rewrite skipn_zlen by exact Hr. unfold accepted in *. lia.
  - rewrite Hev. apply IH; [exact Hall|lia].
Qed.
