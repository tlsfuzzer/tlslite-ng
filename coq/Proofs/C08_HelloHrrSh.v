(* C08: crash analysis of the client's handling of a HelloRetryRequest (nested region of
   _clientGetServerHello; model Gen/HrrShChecks.v, proof script Gen/HrrShChecksProof.v).
   Crash-free for EVERY HelloRetryRequest under the hypothesis hrr_own_ok about the client's own
   ClientHello (it has supported_groups and key_share with lists) and the enclosing test (the HRR
   has an extension list). *)
From Coq Require Import ZArith List.
From TV Require Import Base.C08_Lib Gen.HrrShChecks.
Import ListNotations.
Open Scope Z_scope.

(* an own hello and HelloRetryRequests that meet the hypothesis and take the region's different exits *)
Definition hs_groups : ext := X_SupportedGroupsExtension {| SupportedGroupsExtension_groups := Some [29; 23] |}.
Definition hs_share (g : Z) : KeyShareEntry_r := {| KeyShareEntry_group := g; KeyShareEntry_key_exchange := [1; 2] |}.
Definition hs_ks : ext := X_ClientKeyShareExtension {| ClientKeyShareExtension_client_shares := Some [hs_share 29] |}.
Definition hs_ch : ClientHello_r :=
  {| ClientHello_session_id := [7]; ClientHello_cipher_suites := [4865];
     ClientHello_extensions := Some [X_TLSExtension {| TLSExtension_extType := 43; TLSExtension_extData := [2; 3; 4] |};
                                     hs_groups; hs_ks] |}.
Definition hs_hrr (sid : list Z) (exts : list ext) : ServerHello_r :=
  {| ServerHello_server_version := (3, 3); ServerHello_random := [1]; ServerHello_session_id := sid;
     ServerHello_cipher_suite := 4865; ServerHello_compression_method := 0; ServerHello_extensions := Some exts |}.
Definition hs_sv : ext := X_SrvSupportedVersionsExtension {| SrvSupportedVersionsExtension_version := (3, 4) |}.
Definition hs_sel (g : Z) : ext := X_HRRKeyShareExtension {| HRRKeyShareExtension_selected_group := g |}.
Definition hs_gen (g : Z) (_ : ver) : KeyShareEntry_r := hs_share g.

Example hrr_sh_accepted : HrrShChecks hs_ch (hs_hrr [7] [hs_sv; hs_sel 23]) hs_gen = OK tt.
Proof. vm_compute. reflexivity. Qed.

Example hrr_sh_group_not_offered : HrrShChecks hs_ch (hs_hrr [7] [hs_sv; hs_sel 24]) hs_gen = Alert 47.
Proof. vm_compute. reflexivity. Qed.

Example hrr_sh_share_already_sent : HrrShChecks hs_ch (hs_hrr [7] [hs_sv; hs_sel 29]) hs_gen = Alert 47.
Proof. vm_compute. reflexivity. Qed.

Example hrr_sh_unsolicited_extension :
  HrrShChecks hs_ch (hs_hrr [7] [hs_sv; hs_sel 23; X_TLSExtension {| TLSExtension_extType := 16; TLSExtension_extData := [] |}]) hs_gen
  = Alert 110.
Proof. vm_compute. reflexivity. Qed.

Example hrr_sh_no_change : HrrShChecks hs_ch (hs_hrr [7] [hs_sv]) hs_gen = Alert 47.
Proof. vm_compute. reflexivity. Qed.

Example hrr_sh_session_id_not_echoed : HrrShChecks hs_ch (hs_hrr [8] [hs_sv; hs_sel 23]) hs_gen = Alert 47.
Proof. vm_compute. reflexivity. Qed.
