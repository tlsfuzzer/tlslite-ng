(* C16: a history of permitted operations never produces a fatal alert.  Invariant [HInv]: each
   channel is acceptable to its reader (Spec.scan), flags stay consistent, and the contexts outstanding
   at an endpoint are, in order, those of the Certificates on their way to it followed by those of its
   CertificateRequests still on their way to the peer. *)
From Coq Require Import ZArith List Bool Lia.
From TV Require Import Base.PreludeFacts Proofs.C14_Fragment Model.C16_PostHs Spec.C16_Spec Proofs.C16_Step Proofs.C16_PostHs.
Import ListNotations.
Open Scope Z_scope.

Definition all_wf (l : list (Z * bool)) : Prop := Forall (fun p => snd p = true) l.

(* One endpoint and its incoming channel.  Everything in the model is first in, first out: a request
   is appended to [pending] and to the outgoing channel, the honest client answers it in the call that
   reads it, the server takes Certificates from the front.  So the outstanding contexts are those of
   the Certificates in [inc] followed by [X], the contexts of the requests not yet read by the peer. *)
Set Implicit Arguments.
Record side (v13 : bool) (me : ep) (peerc : cfgT) (inc : list rec) (X : list Z) : Prop := {
  side_scan : scan v13 (cf me) 0 inc = Some 0;
  side_cfg : good_cfg (cf me) peerc;
  side_peer : good_cfg peerc (cf me);
  side_wf : all_wf (pending (au me));
  side_ctxs : ctxs me = rctxs inc ++ X }.

Record HInv (s : st) : Prop := {
  h_a : side (g13 s) (ea s) (cf (eb s)) (ba s) (reqs (ab s));
  h_b : side (g13 s) (eb s) (cf (ea s)) (ab s) (reqs (ba s));
  h_alerts_a : alerts (io (ea s)) = [];
  h_alerts_b : alerts (io (eb s)) = [] }.
Unset Implicit Arguments.

Lemma side_same v13 me me' peerc inc X :
  cf me' = cf me -> au me' = au me -> side v13 me peerc inc X -> side v13 me' peerc inc X.
Proof.
  intros Ec Ea H. split; unfold ctxs; rewrite ?Ec, ?Ea.
  - exact (side_scan H).
  - exact (side_cfg H).
  - exact (side_peer H).
  - exact (side_wf H).
  - exact (side_ctxs H).
Qed.

Lemma good_dev me peer : good_cfg me peer -> dev me = 0.
Proof. intros H. apply H. Qed.
Lemma good_recsize me peer : good_cfg me peer -> 1 <= recsize me.
Proof. intros H. apply H. Qed.
Lemma good_roles me peer : good_cfg me peer -> is_cl me = negb (is_cl peer).
Proof. intros H. apply H. Qed.
Lemma good_hb_sup me peer : good_cfg me peer -> hb_sup me = hb_sup peer.
Proof. intros H. apply H. Qed.
Lemma good_hb_recv me peer : good_cfg me peer -> hb_sup me = true -> hb_recv me = true.
Proof. intros H. apply H. Qed.
Lemma good_pha me peer : good_cfg me peer -> pha_sup me = true -> pha_key peer = true.
Proof. intros H. apply H. Qed.
Lemma good_chain me peer : good_cfg me peer -> pha_key me = true -> my_chain me <> 0.
Proof. intros H. apply H. Qed.

Lemma scan_app v13 c : forall a st st' b, scan v13 c st a = Some st' -> scan v13 c st (a ++ b) = scan v13 c st' b.
Proof.
  induction a as [|r a IH]; intros st st' b H; cbn [scan app] in *.
  - inversion H. reflexivity.
  - destruct (scan1 v13 c st (body r)); [|discriminate]. apply IH. exact H.
Qed.

Lemma scan_cons v13 c r tl st st' :
  scan v13 c st (r :: tl) = Some st' -> exists s1, scan1 v13 c st (body r) = Some s1 /\ scan v13 c s1 tl = Some st'.
Proof. cbn [scan]. destruct (scan1 v13 c st (body r)) as [s1|]; [|discriminate]. intros H. exists s1. auto. Qed.

(* the fields [scan1] reads *)
Definition cfg_same (c c' : cfgT) : Prop :=
  is_cl c' = is_cl c /\ hb_sup c' = hb_sup c /\ hb_recv c' = hb_recv c /\ pha_key c' = pha_key c.

Lemma scan_cfg v13 c c' : cfg_same c c' -> forall ch st, scan v13 c' st ch = scan v13 c st ch.
Proof.
  intros (E1 & E2 & E3 & E4). induction ch as [|r ch IH]; intros st; cbn [scan]; [reflexivity|].
  assert (E : scan1 v13 c' st (body r) = scan1 v13 c st (body r)).
  { unfold scan1. rewrite E1, E2, E3, E4. reflexivity. }
  rewrite E. destruct (scan1 v13 c st (body r)); [apply IH|reflexivity].
Qed.

Lemma reqs_app a b : reqs (a ++ b) = reqs a ++ reqs b.
Proof. unfold reqs. apply flat_map_app. Qed.
Lemma rctxs_app a b : rctxs (a ++ b) = rctxs a ++ rctxs b.
Proof. unfold rctxs. apply flat_map_app. Qed.

Definition idle (v13 : bool) (c : cfgT) (r : rec) : Prop :=
  scan1 v13 c 0 (body r) = Some 0 /\ forall x w, body r <> MCertReq x w.

Lemma idle_cons v13 c r l : idle v13 c r -> reqs (r :: l) = reqs l /\ rctxs (r :: l) = rctxs l.
Proof.
  intros [Hs Hq]. unfold reqs, rctxs, scan1 in *. cbn [flat_map Z.eqb] in *.
  destruct (body r); try (split; reflexivity).
  - (* MCertReq *) destruct (Hq ctx wf eq_refl).
  - (* MCert *) destruct (v13 && negb (is_cl c) && negb (ch =? 0)); discriminate.
Qed.

Lemma idle_all v13 c l : Forall (idle v13 c) l -> scan v13 c 0 l = Some 0 /\ reqs l = [] /\ rctxs l = [].
Proof.
  induction 1 as [|r l Hr _ (IH1 & IH2 & IH3)]; [repeat split|].
  destruct (idle_cons _ _ _ l Hr) as [-> ->]. cbn [scan]. rewrite (proj1 Hr). auto.
Qed.

Lemma scan1_idle v13 c r s1 :
  scan1 v13 c 0 (body r) = Some s1 -> (forall x w, body r <> MCertReq x w) -> (forall x w, body r <> MCert x w) ->
  s1 = 0 /\ idle v13 c r.
Proof.
  intros Hs Hq Hc. assert (s1 = 0); [|subst s1; split; [reflexivity|split; assumption]].
  assert (Hif : forall b : bool, (if b then Some 0 else None) = Some s1 -> s1 = 0) by (intros []; congruence).
  unfold scan1 in Hs. cbn [Z.eqb] in Hs.
  destruct (body r); try discriminate; try congruence; try exact (Hif _ Hs). destruct (Hc ctx ch eq_refl).
Qed.

Lemma idle_hb v13 c peerc w b :
  good_cfg c peerc -> good_cfg peerc c -> hb_sup c = true -> b <> [] -> idle v13 peerc (mkrec w (MHB b)).
Proof.
  intros G1 G2 E Hb. rewrite (good_hb_sup _ _ G1) in E.
  split; [|discriminate]. unfold scan1. cbn [Z.eqb body]. rewrite E, (good_hb_recv _ _ G2 E).
  destruct b; [congruence|reflexivity].
Qed.

Lemma scan_not_bad v13 me m s1 :
  scan1 v13 (cf me) 0 m = Some s1 ->
  (forall ctx ch, m = MCert ctx ch -> ctx <> 0 /\ ctx_mem ctx (pending (au me)) = true) ->
  bad_control v13 me m = None.
Proof.
  unfold scan1. cbn [Z.eqb]. destruct m; cbn [bad_control]; try discriminate; try reflexivity.
  - (* MKU *) destruct v13; [|discriminate]. cbn [andb negb].
    destruct (v =? 0) eqn:E0; [|destruct (v =? 1) eqn:E1; [|discriminate]]; intros _ _;
      (destruct (v <? 0) eqn:El; [lia|]); (destruct (2 <=? v) eqn:Eh; [lia|reflexivity]).
  - (* MHB *) destruct (hb_sup (cf me)); [|discriminate]. destruct (hb_recv (cf me)); [|discriminate].
    destruct b; [discriminate|]. intros _ _. cbn [negb].
    destruct (hb_parse (z :: b)) as [[[ty ?] ?]|]; [rewrite andb_false_r|]; reflexivity.
  - (* MNST *) destruct (v13 && is_cl (cf me)); [reflexivity|discriminate].
  - (* MCertReq *) destruct (v13 && is_cl (cf me) && pha_key (cf me)); [|discriminate]. destruct wf; [reflexivity|discriminate].
  - (* MCert *) destruct (v13 && negb (is_cl (cf me))); [|discriminate]. intros _ H.
    destruct (H ctx ch eq_refl) as [H0 Hm]. apply Z.eqb_neq in H0. rewrite H0, Hm.
    destruct (pending (au me)); [discriminate Hm|reflexivity].
Qed.

Lemma flight_req r l c w : body r = MCertReq c w -> reqs (r :: l) = c :: reqs l /\ rctxs (r :: l) = rctxs l.
Proof. intros E. unfold reqs, rctxs. cbn [flat_map]. rewrite E. split; reflexivity. Qed.

Lemma flight_cert r l c ch : body r = MCert c ch -> reqs (r :: l) = reqs l /\ rctxs (r :: l) = c :: rctxs l.
Proof. intros E. unfold reqs, rctxs. cbn [flat_map]. rewrite E. split; reflexivity. Qed.

Lemma scan1_req v13 c ctx wf s1 :
  scan1 v13 c 0 (MCertReq ctx wf) = Some s1 -> s1 = 0 /\ v13 = true /\ is_cl c = true /\ pha_key c = true.
Proof.
  unfold scan1. cbn [Z.eqb]. destruct v13, (is_cl c), (pha_key c), wf; try discriminate. intros [= <-]. auto.
Qed.

Lemma scan1_cv v13 c m s : scan1 v13 c 1 m = Some s -> m = MCV true /\ s = 2.
Proof. unfold scan1. cbn [Z.eqb Pos.eqb]. destruct m as [| | | | | |[]| | | | |]; try discriminate. intros [= <-]. auto. Qed.

Lemma scan1_fin v13 c m s : scan1 v13 c 2 m = Some s -> m = MFin true /\ s = 0.
Proof. unfold scan1. cbn [Z.eqb Pos.eqb]. destruct m as [| | | | | | |[]| | | |]; try discriminate. intros [= <-]. auto. Qed.

Lemma scan_cert v13 c r inc' ctx ch :
  body r = MCert ctx ch -> scan v13 c 0 (r :: inc') = Some 0 ->
  ch <> 0 /\ exists c1 f1 tl, inc' = c1 :: f1 :: tl /\ body c1 = MCV true /\ body f1 = MFin true /\
                             scan v13 c 0 tl = Some 0.
Proof.
  intros Eb H. apply scan_cons in H. destruct H as (s1 & H1 & H). rewrite Eb in H1.
  unfold scan1 in H1. cbn [Z.eqb] in H1. destruct (v13 && negb (is_cl c)); [|discriminate].
  destruct (ch =? 0) eqn:Ech; [discriminate|]. injection H1 as <-. apply Z.eqb_neq in Ech. split; [exact Ech|].
  destruct inc' as [|c1 inc']; [discriminate H|].
  apply scan_cons in H. destruct H as (s2 & H2 & H). apply scan1_cv in H2. destruct H2 as [Eb1 ->].
  destruct inc' as [|f1 tl]; [discriminate H|].
  apply scan_cons in H. destruct H as (s3 & H3 & H). apply scan1_fin in H3. destruct H3 as [Eb2 ->].
  exists c1, f1, tl. auto.
Qed.

(* the actor becomes [me'], a side of [inc']; it emits [em], acceptable to the peer, whose requests it
   adds to its own and whose Certificates answer the requests it took from its channel *)
Lemma hupd s me' em inc' :
  HInv s -> side (g13 s) me' (cf (eb s)) inc' (reqs (ab s) ++ reqs em) -> alerts (io me') = alerts (io (ea s)) ->
  scan (g13 s) (cf (eb s)) 0 em = Some 0 -> rctxs em ++ reqs inc' = reqs (ba s) ->
  HInv (mkst me' (eb s) (ab s ++ em) inc' (g13 s)).
Proof.
  intros H A Ea He Hq. pose proof (h_b H) as B. split; cbn [ea eb ab ba g13].
  - rewrite reqs_app. exact A.
  - split.
    + rewrite (scan_app _ _ _ _ _ _ (side_scan B)). exact He.
    + exact (side_peer A).
    + exact (side_cfg A).
    + exact (side_wf B).
    + rewrite rctxs_app, <- app_assoc, Hq. exact (side_ctxs B).
  - rewrite Ea. exact (h_alerts_a H).
  - exact (h_alerts_b H).
Qed.

Lemma hsend s me' em :
  HInv s -> cf me' = cf (ea s) -> au me' = au (ea s) -> alerts (io me') = alerts (io (ea s)) ->
  Forall (idle (g13 s) (cf (eb s))) em -> HInv (mkst me' (eb s) (ab s ++ em) (ba s) (g13 s)).
Proof.
  intros H E1 E2 E3 He. destruct (idle_all _ _ _ He) as (Hs & Hq & Hc).
  apply hupd; [exact H| |exact E3|exact Hs|rewrite Hc; reflexivity].
  rewrite Hq, app_nil_r. exact (side_same _ _ _ _ _ _ E1 E2 (h_a H)).
Qed.

Lemma hplain s r inc' me' em :
  HInv s -> ba s = r :: inc' -> (forall x w, body r <> MCertReq x w) -> (forall x w, body r <> MCert x w) ->
  cf me' = cf (ea s) -> au me' = au (ea s) -> alerts (io me') = alerts (io (ea s)) ->
  Forall (idle (g13 s) (cf (eb s))) em -> HInv (mkst me' (eb s) (ab s ++ em) inc' (g13 s)).
Proof.
  intros H E Hq Hc Ec Eau Ea He. pose proof (h_a H) as A. rewrite E in A.
  destruct (scan_cons _ _ _ _ _ _ (side_scan A)) as (s1 & Hs1 & Hsc).
  destruct (scan1_idle _ _ _ _ Hs1 Hq Hc) as [-> Hr]. destruct (idle_cons _ _ _ inc' Hr) as [Eq Er].
  destruct (idle_all _ _ _ He) as (Hs & Hq' & Hc').
  apply hupd; [exact H| |exact Ea|exact Hs|rewrite Hc', E; symmetry; exact Eq].
  rewrite Hq', app_nil_r. apply (side_same _ _ _ _ _ _ Ec Eau).
  split; [exact Hsc|exact (side_cfg A)|exact (side_peer A)|exact (side_wf A)|rewrite <- Er; exact (side_ctxs A)].
Qed.

Lemma h_turn s r inc' me1 k :
  HInv s -> ba s = r :: inc' -> go (g13 s) (ea s) (body r) me1 k -> HInv (mkst me1 (eb s) (ab s ++ k) inc' (g13 s)).
Proof.
  intros H Eba Hg. pose proof (h_a H) as A.
  pose proof (side_cfg A) as G1. pose proof (side_peer A) as G2. pose proof (go_frame Hg) as F.
  assert (Hk : Forall (idle (g13 s) (cf (eb s))) k).
  { destruct Hg as [| |Hv|b me1' out' Hsup Ho].
    - (* go_empty *) constructor.
    - (* go_ku0 *) constructor.
    - (* go_ku1 *) constructor; [|constructor]. split; [rewrite Hv; reflexivity|discriminate].
    - (* go_hb: only [hb_answered] emits *) destruct Ho; [constructor| |constructor]. constructor; [|constructor].
      apply (idle_hb (g13 s) (cf (ea s))); auto. discriminate. }
  apply (hplain s r); [exact H|exact Eba| | |exact (go_cf F)|exact (go_au F)|rewrite (go_io F); reflexivity|exact Hk];
    destruct Hg; discriminate.
Qed.

Lemma first_wf_true l : all_wf l -> first_wf l = true.
Proof. intros [|p l' H _]; [reflexivity|exact H]. Qed.

Lemma hcfg s c' :
  HInv s -> cfg_same (cf (ea s)) c' -> good_cfg c' (cf (eb s)) -> good_cfg (cf (eb s)) c' ->
  HInv (mkst (set_cf (ea s) c') (eb s) (ab s ++ []) (ba s) (g13 s)).
Proof.
  intros H Hsame G1 G2. pose proof (h_a H) as A.
  apply hupd; [exact H| |reflexivity|reflexivity|reflexivity].
  split; cbn [set_cf cf au]; [|exact G1|exact G2|exact (side_wf A)|].
  - rewrite (scan_cfg _ _ _ Hsame). exact (side_scan A).
  - rewrite app_nil_r. exact (side_ctxs A).
Qed.

(* Spec.Inv goes along: it says that the records open and gives the context books their order *)
Lemma upd_h s o me' em inc' : Inv s -> HInv s -> honest_op o = true -> upd s o me' em inc' ->
  HInv (mkst me' (eb s) (ab s ++ em) inc' (g13 s)).
Proof.
  intros Hi Hh Ho U.
  pose proof (h_a Hh) as [Hsc G1 G2 Hwf Hctx].
  pose proof (half_keys (Inv_ba _ Hi)) as Hs.
  assert (Hpeer_cl : is_cl (cf (ea s)) = false -> is_cl (cf (eb s)) = true).
  { intros E. pose proof (good_roles _ _ G1) as Hc. rewrite E in Hc. destruct (is_cl (cf (eb s))); [reflexivity|discriminate]. }
  destruct U as [d|mx|mx Ew|mx r inc' Eba Ht|mx r inc' me1 k Eba Hg|mx r inc' R _ Eba Hst|req Ev|ce Ev Ecl Eps|p pl Hsup|k Ev Ecl| |n Hn|d|m _|];
    try discriminate Ho.
  - (* OWrite *)
    apply hsend; try reflexivity; [exact Hh|]. apply Forall_map, Forall_forall. intros f _. split; [reflexivity|discriminate].
  - (* ORead from the buffer *) apply hsend; try reflexivity; [exact Hh|constructor].
  - (* ORead, decode_error: every outstanding request is well formed *)
    rewrite (first_wf_true _ Hwf), andb_false_r in Ew. discriminate.
  - (* a record of the channel does not open *) rewrite Eba in Hs. destruct Ht. apply Hs.
  - exact (h_turn s r inc' me1 k Hh Eba Hg).
  - (* a record of the channel ends the call *)
    rewrite Eba in Hs, Hsc, Hctx. destruct Hs as [_ Hs].
    pose proof (proj1 (Inv_au _ Hi)) as (Hnd & Hrange & _).
    destruct Hst as [d Hb|x d Eb|Eb|ctx wf Eb|ctx ch Eb Em|f d em c Eb Hem]; cbn [fst snd].
    + (* stop_bad: not in an acceptable channel *)
      apply scan_cons in Hsc. destruct Hsc as (s1 & Hs1 & _).
      rewrite (scan_not_bad _ _ _ _ Hs1) in Hb; [discriminate|].
      intros ctx ch Eb. assert (Hin : In ctx (ctxs (ea s))).
      { rewrite Hctx, (proj2 (flight_cert _ inc' _ _ Eb)). left. reflexivity. }
      split; [|apply ctx_mem_in; exact Hin]. apply Hrange in Hin. lia.
    + (* stop_data *) apply (hplain s r); try (rewrite Eb; discriminate); try reflexivity; [exact Hh|exact Eba|constructor].
    + (* stop_nst *) apply (hplain s r); try (rewrite Eb; discriminate); try reflexivity; [exact Hh|exact Eba|constructor].
    + (* stop_req: the honest client answers Certificate, CertificateVerify, Finished *)
      destruct (flight_req _ inc' _ _ Eb) as [Eq Er]. rewrite Er in Hctx.
      apply scan_cons in Hsc. destruct Hsc as (s1 & Hs1 & Hsc). rewrite Eb in Hs1.
      destruct (scan1_req _ _ _ _ _ Hs1) as (-> & Hv & Hcl & Hkey).
      pose proof (good_roles _ _ G2) as Hcl2.
      rewrite (pha_reply_honest (note_ctx (ea s) ctx) ctx (good_dev _ _ G1)).
      apply (hupd s); [exact Hh| |reflexivity| |rewrite Eba, Eq; reflexivity].
      * rewrite app_nil_r. split; [exact Hsc|exact G1|exact G2|exact Hwf|exact Hctx].
      * cbn [map scan emit body]. unfold scan1. cbn [Z.eqb]. rewrite Hv, Hcl2, Hcl. cbn [negb andb note_ctx set_au cf].
        destruct (my_chain (cf (ea s)) =? 0) eqn:E0; [apply Z.eqb_eq in E0; destruct (good_chain _ _ G1 Hkey E0)|reflexivity].
    + (* stop_cert: the scanner has seen to it that CertificateVerify and Finished follow, both valid;
         its context is the oldest outstanding *)
      destruct (scan_cert _ _ _ _ _ _ Eb Hsc) as (Hch & c1 & f1 & tl & -> & Eb1 & Eb2 & Hsc').
      rewrite Eb in Hs. destruct Hs as [Ht1 Hs]. rewrite Eb1 in Hs. destruct Hs as [Ht2 _].
      rewrite (srv_pha_ok _ (pop_ctx (ea s) ctx) _ c1 f1 tl ctx ch Hch Ht1 Eb1 Ht2 Eb2). cbn [fst snd].
      assert (Er3 : rctxs (r :: c1 :: f1 :: tl) = ctx :: rctxs tl)
        by (unfold rctxs; cbn [flat_map]; rewrite Eb, Eb1, Eb2; reflexivity).
      assert (Eq3 : reqs (r :: c1 :: f1 :: tl) = reqs tl)
        by (unfold reqs; cbn [flat_map]; rewrite Eb, Eb1, Eb2; reflexivity).
      rewrite Er3 in Hctx.
      apply (hupd s); [exact Hh| |reflexivity|reflexivity|rewrite Eba; symmetry; exact Eq3].
      rewrite app_nil_r.
      split; [exact Hsc'|exact G1|exact G2|exact (incl_Forall (incl_filter _ _) Hwf)|exact (ctxs_pop_hd _ _ _ Hnd Hctx)].
    + (* stop_alert *) apply (hplain s r); try (rewrite Eb; discriminate); try reflexivity; [exact Hh|exact Eba|].
      apply Forall_forall. intros x Hx. apply Hem in Hx. destruct Hx as [<-|[]]. split; [reflexivity|discriminate].
  - (* OKeyUpdate *)
    apply hsend; try reflexivity; [exact Hh|]. constructor; [|constructor]. split; [|discriminate].
    unfold scan1. cbn. rewrite Ev. destruct req; reflexivity.
  - (* ORequestAuth: a fresh context becomes the youngest outstanding and goes into the channel last *)
    apply hupd; [exact Hh| |reflexivity| |reflexivity].
    + split; [exact Hsc|exact G1|exact G2| |].
      * unfold all_wf. cbn [au set_au pending]. apply Forall_app. split; [exact Hwf|]. constructor; [reflexivity|constructor].
      * unfold ctxs in *. cbn [au set_au pending]. rewrite map_app, Hctx, <- app_assoc. reflexivity.
    + cbn [scan emit body]. unfold scan1. cbn [Z.eqb].
      rewrite Ev, (Hpeer_cl Ecl), (good_pha _ _ G1 Eps). reflexivity.
  - (* OHeartbeat *)
    apply hsend; try reflexivity; [exact Hh|]. constructor; [|constructor].
    apply (idle_hb _ (cf (ea s))); auto. discriminate.
  - (* OTickets *)
    apply hsend; try reflexivity; [exact Hh|]. apply Forall_repeat. split; [|discriminate].
    unfold scan1. cbn. rewrite Ev, (Hpeer_cl Ecl). reflexivity.
  - (* OClose *) apply hsend; try reflexivity; [exact Hh|]. constructor; [|constructor]. split; [reflexivity|discriminate].
  - (* OSetRecSize: [good_cfg] looks at the record size only through its lower bound *)
    apply hcfg; [exact Hh|repeat split| |]; unfold good_cfg in *; cbn; tauto.
  - (* OSetDev 0 *) apply Z.eqb_eq in Ho. subst d. apply hcfg; [exact Hh|repeat split| |]; unfold good_cfg in *; cbn; tauto.
Qed.

Lemma act_h s o : Inv s /\ HInv s -> honest_op o = true -> Inv (fst (act s o)) /\ HInv (fst (act s o)).
Proof.
  intros H Ho. revert s H. apply (act_steps o (fun s => Inv s /\ HInv s)). intros s me' em inc' [A B] U.
  split; [exact (upd_keeps _ _ _ _ _ A U)|exact (upd_h _ _ _ _ _ A B Ho U)].
Qed.

Lemma swap_h s : HInv s -> HInv (swap s).
Proof. intros [A B ALa ALb]. split; assumption. Qed.

Lemma exec_h ops s : Inv s -> HInv s -> forallb (fun p => honest_op (snd p)) ops = true -> HInv (exec s ops).
Proof.
  intros Hi Hh Ho. apply (exec_invariant (fun _ s => Inv s /\ HInv s) (fun _ o => honest_op o = true)); [| |split; assumption|].
  - intros _ x [A B]. split; [apply swap_inv, A|apply swap_h, B].
  - intros _. exact act_h.
  - apply Forall_forall. intros p. exact (proj1 (forallb_forall _ _) Ho p).
Qed.

Lemma init_h v13 cc sc nst : init_ok cc sc -> v13 = true \/ nst <= 0 -> HInv (init v13 cc sc nst).
Proof.
  intros (Hc & Hs & G1 & G2) Hv.
  assert (Hi : Forall (idle v13 cc) (repeat (mkrec 0 MNST) (Z.to_nat nst))).
  { destruct Hv as [Hv|Hv]; [|replace (Z.to_nat nst) with 0%nat by lia; constructor].
    apply Forall_repeat. split; [|discriminate]. unfold scan1. cbn. rewrite Hv, Hc. reflexivity. }
  destruct (idle_all _ _ _ Hi) as (Hsc & Hq & Hx).
  split; cbn [init ea eb ab ba g13]; [| |reflexivity|reflexivity].
  - split; [exact Hsc|exact G1|exact G2|constructor|rewrite Hx; reflexivity].
  - split; [reflexivity|exact G2|exact G1|constructor|rewrite Hq; reflexivity].
Qed.

Lemma chunks_nonempty : forall fuel n d, (1 <= n)%nat -> d <> [] -> forall f, In f (chunks fuel n d) -> f <> [].
Proof.
  intros fuel n d Hn Hd f Hf. rewrite chunks_fragment_fuel in Hf.
  pose proof (proj1 (Forall_forall _ _) (fragment_fuel_sizes (Z.of_nat n) ltac:(lia) fuel d) f Hf) as [_ H].
  intros ->. specialize (H Hd). rewrite zlen_nil in H. lia.
Qed.
