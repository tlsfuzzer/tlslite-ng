(* Property C10: "Signatures and key agreement are sound, strict and never emitted when faulty".
   The general lemmas and the long arguments are in Proofs/C10_*.v; the DSA argument stands here, under its statement. *)
From Coq Require Import ZArith List Bool String Lia.
From TV Require Import Base.Prelude Gen.C10_Tables Model.C10_RsaMath Model.C10_RsaSig Model.C10_Dh Model.C10_Dsa
     Model.C10_SignSites Spec.C10_DigestInfo
     Proofs.C10_MathP Proofs.C10_Pkcs1P Proofs.C10_PssP Proofs.C10_DhP
     Proofs.C10_TieP Proofs.C10_PssRsaP Proofs.C10_DsaP Toy.ToyMac.
Import ListNotations.
Open Scope Z_scope.

(* verify() accepts a signature iff the public operation (length = modulus length, value < n)
   yields exactly one of the canonical encodings 00 01 FF..FF 00 DigestInfo (>= 8 bytes of FF) for
   this hash and data: one encoding per hash, two for SHA-1 (with and without the NULL parameter), the bare
   data for hashAlg=None (TLS <= 1.1).  For every hash oracle, key, signature and data. *)
Theorem pkcs1_verify_iff_canonical :
  forall (hash : list Z -> list Z) hLen n e sig data hashAlg sLen,
    rsa_verify hash hLen false n e sig data PadPkcs1 hashAlg sLen = Ok true <->
    exists c, raw_public_key_op_bytes n e sig = Ok c /\ In c (accepted_encodings (numBytes n) hashAlg data).
Proof.
  intros. rewrite rsa_verify_pkcs1, accepted_encodings_blocks.
  destruct (verify_blocks hashAlg data) as [Ts|x]; cbn [bind]; [|split; [discriminate|intros [c [_ []]]]].
  split.
  - intros H. injection H as H. apply existsb_exists in H. destruct H as [T [HT Hv]].
    apply raw_verify_enc in Hv. destruct Hv as [L Hc].
    eexists. split; [exact Hc|]. apply in_flat_map. exists T. split; [exact HT|]. apply in_enc. auto.
  - intros [c [Hc Hin]]. apply in_flat_map in Hin. destruct Hin as [T [HT Hin]]. apply in_enc in Hin. destruct Hin as [L ->].
    f_equal. apply existsb_exists. exists T. split; [exact HT|]. apply raw_verify_enc. auto.
Qed.

(* consequence: whatever block 00 01 FF^j 00 X the signature opens to, X is exactly
   prefix||hash (nothing after the hash, right prefix) and the padding fills the whole modulus
   (no short padding) *)
Theorem pkcs1_accepted_block_is_strict :
  forall (hash : list Z -> list Z) hLen n e sig data h p sLen j X,
    String.eqb h "sha1" = false -> lookup_prefix pkcs1_prefixes h = Some p ->
    rsa_verify hash hLen false n e sig data PadPkcs1 (Some h) sLen = Ok true ->
    raw_public_key_op_bytes n e sig = Ok ([0; 1] ++ repeat 255 j ++ [0] ++ X) ->
    X = p ++ data /\ j = Z.to_nat (numBytes n - zlen X - 3).
Proof.
  intros hash hLen n e sig data h p sLen j X Hh Hp Hv Hpub.
  apply pkcs1_verify_iff_canonical in Hv. destruct Hv as [c [Hc Hin]].
  rewrite Hpub in Hc. injection Hc as <-. unfold accepted_encodings in Hin. rewrite Hp, Hh in Hin.
  apply in_enc in Hin. destruct Hin as [_ Hin]. apply em_parse_unique in Hin. destruct Hin as [-> ->]. auto.
Qed.

Theorem pkcs1_rejects_everything_else :
  forall (hash : list Z -> list Z) hLen n e sig data hashAlg sLen,
    (forall c, raw_public_key_op_bytes n e sig = Ok c ->
               ~ In c (accepted_encodings (numBytes n) hashAlg data) ->
               rsa_verify hash hLen false n e sig data PadPkcs1 hashAlg sLen <> Ok true) /\
    ((zlen sig <> numBytes n \/ n <= bytesToNumber sig) ->
     rsa_verify hash hLen false n e sig data PadPkcs1 hashAlg sLen <> Ok true) /\
    rsa_verify hash hLen true n e sig data PadPkcs1 hashAlg sLen = Ok false.
Proof.
  intros. split; [|split].
  - intros c Hc Hn Hv. apply pkcs1_verify_iff_canonical in Hv. destruct Hv as [c' [Hc' Hin]].
    rewrite Hc in Hc'. injection Hc' as <-. contradiction.
  - intros H Hv. apply pkcs1_verify_iff_canonical in Hv. destruct Hv as [c [Hc _]].
    apply (raw_op_ok n (raw_public_op n e)) in Hc. lia.
  - reflexivity.
Qed.

(* An RSASSA-PSS-only key (key_type "rsa-pss") never accepts a PKCS#1 v1.5 signature, through any
   public entry point and for any spelling of the scheme name: verify() matches names exactly and its
   key-type guard comes first; hashAndVerify() lower-cases the name BEFORE calling verify(), so the
   documented/default spelling 'PKCS1' is guarded too; SignedObject.verify_signature uses that default.
   The only name under which such a key can accept anything is "pss" (after normalisation). *)
Theorem pss_only_key_rejects_pkcs1 :
  forall (hash : list Z -> list Z) hLen n e sig data msg hashAlg hAlg sLen,
    rsa_verify_named hash hLen true n e sig data "pkcs1" hashAlg sLen = Ok false /\
    (forall padname, rsa_verify_named hash hLen true n e sig data padname hashAlg sLen = Ok true -> padname = "pss"%string) /\
    (forall scheme, lower scheme = "pkcs1"%string ->
                    rsa_hashAndVerify hash hLen true n e sig msg scheme hAlg sLen = Ok false) /\
    (forall scheme, rsa_hashAndVerify hash hLen true n e sig msg scheme hAlg sLen = Ok true -> lower scheme = "pss"%string) /\
    signed_object_verify hash hLen true n e sig msg hAlg = Ok false.
Proof.
  intros. split; [|split; [|split; [|split]]].
  - reflexivity.        (* the key-type guard is the first statement of verify() *)
  - intros padname. apply verify_named_pss_key_accepts.
  - intros scheme H. unfold rsa_hashAndVerify. rewrite H. reflexivity.
  - intros scheme. apply verify_named_pss_key_accepts.
  - reflexivity.        (* SignedObject.verify_signature uses the default scheme 'PKCS1', lower-cased by computation *)
Qed.

Example scheme_name_spellings :
  map lower ["pkcs1"; "PKCS1"; "Pkcs1"; "pKcS1"; "pss"; "PSS"; "Pss"]%string
  = ["pkcs1"; "pkcs1"; "pkcs1"; "pkcs1"; "pss"; "pss"; "pss"]%string.
Proof. reflexivity. Qed.

(* the table of DigestInfo prefixes in /repo is the one of RFC 8017 9.2 *)
Theorem pkcs1_prefixes_are_rfc8017 :
  pkcs1_prefixes = rfc8017_digestinfo_prefixes /\ sha1_prefix_no_null = sha1_digestinfo_prefix_without_null.
Proof. split; reflexivity. Qed.

(* H-rsa-key: at most one signature opens to a given block *)
Theorem pkcs1_signature_is_unique :
  forall k, crt_shape_ok k = true ->
    (forall x, 0 <= x < rk_n k -> (x ^ rk_e k) ^ rk_d k mod rk_n k = x) ->
    forall s1 s2 c, all_bytes s1 = true -> all_bytes s2 = true ->
      raw_public_key_op_bytes (rk_n k) (rk_e k) s1 = Ok c ->
      raw_public_key_op_bytes (rk_n k) (rk_e k) s2 = Ok c -> s1 = s2.
Proof.
  intros k Hs Hed s1 s2 c B1 B2. pose proof (n_pos k Hs) as Hn.
  apply raw_public_op_bytes_inj; try assumption; [lia|]. exact (rsa_pub_injective k Hs Hed).
Qed.

(* a signature made by sign() with the blinded CRT private operation verifies, for every valid
   key (H-rsa-key + CRT consistency), every blinding state satisfying the invariant, every hash
   name of the table and every digest that fits the modulus *)
Theorem pkcs1_sign_verifies :
  forall k, crt_shape_ok k = true ->
    (forall x, 0 <= x < rk_n k -> (x ^ rk_e k) ^ rk_d k mod rk_n k = x) ->
    (forall x, 0 <= x < rk_p k -> x ^ rk_dP k mod rk_p k = x ^ rk_d k mod rk_p k) ->
    (forall x, 0 <= x < rk_q k -> x ^ rk_dQ k mod rk_q k = x ^ rk_d k mod rk_q k) ->
    forall b, blind_inv k b ->
    forall (hash : list Z -> list Z) hLen data hashAlg salt sLen T,
      all_bytes data = true -> signed_block hashAlg data = Some T -> zlen T + 11 <= numBytes (rk_n k) ->
      exists sig, rsa_sign hash hLen (rk_n k) (crt_priv k b) data PadPkcs1 hashAlg salt = Ok sig /\
                  rsa_verify hash hLen false (rk_n k) (rk_e k) sig data PadPkcs1 hashAlg sLen = Ok true.
Proof.
  intros k Hs Hed HdP HdQ b Hb hash hLen data hashAlg salt sLen T. pose proof (n_pos k Hs) as Hn.
  apply pkcs1_sign_verifies_gen; [lia|exact (raw_private_op_inverts k Hs Hed HdP HdQ b Hb)].
Qed.

(* every block verify() accepts is an RFC 8017 EMSA-PKCS1-v1_5 encoding (padding string >= 8
   bytes), sign() emits nothing else, and refuses when the modulus is too short.
   Before /repo 693c302 this statement was FALSE (304-bit modulus + MD5 DigestInfo => one byte of
   padding signed and accepted); sign() refuses that witness (Example below). *)
Theorem pkcs1_min_padding :
  forall (hash : list Z -> list Z) hLen n e (priv : Z -> Z) sig data hashAlg sLen salt,
    (rsa_verify hash hLen false n e sig data PadPkcs1 hashAlg sLen = Ok true ->
     exists c T, raw_public_key_op_bytes n e sig = Ok c /\ rfc8017_em (numBytes n) T = Some c) /\
    (rsa_sign hash hLen n priv data PadPkcs1 hashAlg salt = Ok sig ->
     exists T, signed_block hashAlg data = Some T /\ zlen T + 11 <= numBytes n) /\
    (forall T, numBytes n < zlen T + 11 -> raw_pkcs1_sign n priv T = Err ValueError).
Proof.
  intros. split; [|split].
  - intros H. apply pkcs1_verify_iff_canonical in H. destruct H as [c [Hc Hin]].
    destruct (accepted_is_rfc8017 _ _ _ _ Hin) as [T HT]. eauto.
  - (* sign() got past the guard of _raw_pkcs1_sign *)
    rewrite rsa_sign_pkcs1. destruct (signed_block hashAlg data) as [T|]; [|discriminate].
    intros H. exists T. split; [reflexivity|].
    destruct (Z_lt_le_dec (numBytes n) (zlen T + 11)) as [L|L]; [|exact L].
    rewrite (raw_sign_too_long n priv T L) in H. discriminate.
  - intros T. apply raw_sign_too_long.
Qed.

Example pkcs1_former_short_padding_witness_refused :
  rsa_sign (fun x => x) 0 (rk_n small_key) (plain_priv small_key) small_digest PadPkcs1 (Some "md5"%string) [] = Err ValueError.
Proof. vm_compute. reflexivity. Qed.

Theorem crt_blinded_correct :
  forall k, crt_shape_ok k = true ->
    (forall x, 0 <= x < rk_n k -> (x ^ rk_e k) ^ rk_d k mod rk_n k = x) ->
    (forall x, 0 <= x < rk_p k -> x ^ rk_dP k mod rk_p k = x ^ rk_d k mod rk_p k) ->
    (forall x, 0 <= x < rk_q k -> x ^ rk_dQ k mod rk_q k = x ^ rk_d k mod rk_q k) ->
    forall ms b, blind_inv k b -> Forall (fun m => 0 <= m < rk_n k) ms ->
      fst (raw_private_ops k b ms) = map (fun m => m ^ rk_d k mod rk_n k) ms /\
      blind_inv k (snd (raw_private_ops k b ms)).
Proof.
  intros k Hs Hed HdP HdQ ms.
  induction ms as [|m ms IH]; intros b Hb Hms; cbn [raw_private_ops map].
  - split; [reflexivity|exact Hb].
  - inversion Hms as [|? ? _ Hrest]; subst.
    destruct (raw_private_op_correct k Hs Hed HdP HdQ b m Hb) as [E1 E2].
    destruct (raw_private_op k b m) as [c b'] eqn:Eop. cbn [fst snd] in E1, E2.
    destruct (IH b' E2 Hrest) as [E3 E4].
    destruct (raw_private_ops k b' ms) as [cs b''] eqn:Eops. cbn [fst snd] in *.
    split; [rewrite E1, E3; reflexivity|exact E4].
Qed.

Theorem blinding_invariant_established_and_kept :
  forall k, crt_shape_ok k = true ->
    (forall u ui, (u * ui) mod rk_n k = 1 -> blind_inv k (blind_create k u ui)) /\
    (forall b, blind_inv k b -> blind_inv k (blind_update k b)).
Proof. intros k H. split; [exact (blind_create_inv k H)|exact (blind_update_inv k H)]. Qed.

(* crt_blinded_correct speaks about a SEQUENCE of atomic read-and-update steps.  What makes the steps
   atomic in the code is the key's lock: every access to the mutable blinding state of Python_RSAKey
   happens inside `with self._lock` (table regenerated from /repo).  The Example shows that atomicity is
   needed: a blinder read after another thread's update together with an unblinder read before it gives
   a wrong result; harness/c10_sched.py enumerates the real interleavings of two threads. *)
Theorem blinding_state_accessed_under_lock :
  rsa_state_accesses <> [] /\
  forallb (fun a => match a with (_, _, _, locked) => locked end) rsa_state_accesses = true.
Proof. split; [discriminate|reflexivity]. Qed.

Theorem private_op_correct_for_any_consistent_pair :
  forall k, crt_shape_ok k = true ->
    (forall x, 0 <= x < rk_n k -> (x ^ rk_e k) ^ rk_d k mod rk_n k = x) ->
    (forall x, 0 <= x < rk_p k -> x ^ rk_dP k mod rk_p k = x ^ rk_d k mod rk_p k) ->
    (forall x, 0 <= x < rk_q k -> x ^ rk_dQ k mod rk_q k = x ^ rk_d k mod rk_q k) ->
    forall bl ub m, (bl * ub ^ rk_e k) mod rk_n k = 1 -> 0 <= m < rk_n k ->
      raw_private_op_torn k bl ub m = m ^ rk_d k mod rk_n k.
Proof.
  intros k Hs Hed HdP HdQ bl ub m Hinv _.
  rewrite (torn_is_op k {| bl_blinder := bl; bl_unblinder := ub |}).
  apply (raw_private_op_correct k Hs Hed HdP HdQ). exact Hinv.
Qed.

Example atomic_pair_read_is_necessary :
  let b := blind_create toy_key 7 462 in
  let b' := blind_update toy_key b in
  raw_private_op_torn toy_key (bl_blinder b') (bl_unblinder b) 2 <> powmod 2 (rk_d toy_key) (rk_n toy_key) /\
  raw_private_op_torn toy_key (bl_blinder b) (bl_unblinder b) 2 = powmod 2 (rk_d toy_key) (rk_n toy_key).
Proof. cbv zeta. split; vm_compute; [discriminate|reflexivity]. Qed.

Theorem powmod_is_pow_mod : forall b e n, 0 < n -> 0 <= e -> powmod b e n = b ^ e mod n.
Proof. exact powmod_spec. Qed.

(* the key hypotheses are satisfiable: p=61 q=53 e=17 d=2753.  This modulus has 2 bytes, so the size hypotheses of
   pkcs1_sign_verifies (zlen T + 11 <= numBytes n) and pss_sign_verifies (hLen + sLen + 2 <= emLen) are false for it:
   the hypotheses are shown satisfiable one group at a time (the PSS sizes at n65: pss_sign_works_for_modbits_1_mod_8),
   not all at once *)
Example rsa_key_hypotheses_instance :
  crt_shape_ok toy_key = true /\
  (forall x, 0 <= x < rk_n toy_key -> (x ^ rk_e toy_key) ^ rk_d toy_key mod rk_n toy_key = x) /\
  (forall x, 0 <= x < rk_p toy_key -> x ^ rk_dP toy_key mod rk_p toy_key = x ^ rk_d toy_key mod rk_p toy_key) /\
  (forall x, 0 <= x < rk_q toy_key -> x ^ rk_dQ toy_key mod rk_q toy_key = x ^ rk_d toy_key mod rk_q toy_key) /\
  blind_inv toy_key (blind_create toy_key 7 462).
Proof.
  split; [reflexivity|]. cbn [toy_key rk_n rk_e rk_d rk_p rk_q rk_dP rk_dQ]. split; [|split; [|split]].
  - (* e * d = 17 * 2753 = 1 modulo 60 and modulo 52 *)
    intros x Hx. rewrite <- Z.pow_mul_r by lia.
    transitivity (x mod (61 * 53)); [|apply Z.mod_small; exact Hx].
    apply (rsa_exponent_cancels 61 53 60 52); try lia; try reflexivity;
      [apply rel_prime_of_inverse with 38; [lia|reflexivity]|exact toy_order_p|exact toy_order_q].
  - (* dP = d modulo 60 *)
    intros x _. apply (pow_exp_congr 61 60); try lia; [exact toy_order_p|reflexivity].
  - (* dQ = d modulo 52 *)
    intros x _. apply (pow_exp_congr 53 52); try lia; [exact toy_order_q|reflexivity].
  - apply (blind_create_inv toy_key eq_refl). reflexivity.
Qed.

(* EMSA_PSS_verify accepts iff ALL of: room for hash+salt, trailer 0xbc, top bits zero, zero PS,
   0x01 separator, H = Hash(0^8 || mHash || salt) -- so violating any one of them rejects *)
Theorem pss_verify_checks_all :
  forall (hash : list Z -> list Z) hLen mHash EM emBits sLen,
    EMSA_PSS_verify hash hLen mHash EM emBits sLen = Ok true <-> pss_checks hash hLen mHash EM emBits sLen.
Proof. exact pss_verify_iff. Qed.

(* a PSS signature made with the blinded CRT private operation verifies, for EVERY valid key
   (any modulus size: since /repo cc7bf57 also 8k+1 bits), every hash oracle with fixed output
   length, every message hash and EVERY salt; and signing succeeds whenever hash and salt fit *)
Theorem pss_sign_verifies :
  forall k, crt_shape_ok k = true ->
    (forall x, 0 <= x < rk_n k -> (x ^ rk_e k) ^ rk_d k mod rk_n k = x) ->
    (forall x, 0 <= x < rk_p k -> x ^ rk_dP k mod rk_p k = x ^ rk_d k mod rk_p k) ->
    (forall x, 0 <= x < rk_q k -> x ^ rk_dQ k mod rk_q k = x ^ rk_d k mod rk_q k) ->
    forall b, blind_inv k b ->
    forall (hash : list Z -> list Z) hLen,
      0 < hLen -> (forall m, zlen (hash m) = hLen) -> (forall m, all_bytes (hash m) = true) ->
      numBytes (rk_n k) <= 2 ^ 32 ->
      forall mHash salt, all_bytes salt = true ->
        (forall S, RSASSA_PSS_sign hash hLen (rk_n k) (crt_priv k b) mHash salt = Ok S ->
                   RSASSA_PSS_verify hash hLen (rk_n k) (rk_e k) mHash S (zlen salt) = Ok true) /\
        (hLen + zlen salt + 2 <= divceil (numBits (rk_n k) - 1) 8 ->
         exists S, RSASSA_PSS_sign hash hLen (rk_n k) (crt_priv k b) mHash salt = Ok S).
Proof.
  intros k Hs Hed HdP HdQ b Hb hash hLen H0 Hl Hby Hsz mHash salt Hsalt.
  pose proof (n_pos k Hs) as Hn.
  pose proof (raw_private_op_inverts k Hs Hed HdP HdQ b Hb) as Hpriv.
  split.
  - intros S. eapply pss_sign_then_verify; eassumption.
  - intros Hfit. eapply pss_sign_succeeds; eassumption.
Qed.

(* encoding then verifying, at the EMSA level, for every emBits *)
Theorem pss_encode_verifies :
  forall (hash : list Z -> list Z) hLen,
    0 < hLen -> (forall m, zlen (hash m) = hLen) -> (forall m, all_bytes (hash m) = true) ->
    forall mHash emBits salt EM,
      0 < emBits -> all_bytes salt = true -> divceil emBits 8 - hLen - 1 <= 2 ^ 32 * hLen ->
      EMSA_PSS_encode hash hLen mHash emBits salt = Ok EM ->
      zlen EM = divceil emBits 8 /\ all_bytes EM = true /\ bytesToNumber EM < 2 ^ emBits /\
      EMSA_PSS_verify hash hLen mHash EM emBits (zlen salt) = Ok true.
Proof.
  intros hash hLen H0 Hl Hby mHash emBits salt EM Hbits Hsalt Hsmall Eenc.
  pose proof (pss_encode_spec hash hLen H0 Hl Hby mHash emBits salt Hbits Hsalt Hsmall) as P.
  rewrite Eenc in P. exact (proj2 P).
Qed.

(* Before /repo cc7bf57 signing failed for every modulus of 8k+1 bits.  With a 65-bit modulus and a
   4-byte toy hash it succeeds, for every private operation and message hash. *)
Example pss_sign_works_for_modbits_1_mod_8 :
  numBits n65 = 65 /\ numBits n65 mod 8 = 1 /\
  forall (priv : Z -> Z) mHash, exists S, RSASSA_PSS_sign (toy_mac [1] 4) 4 n65 priv mHash [] = Ok S.
Proof.
  split; [reflexivity|]. split; [reflexivity|].
  intros priv mHash.
  assert (H4 : 0 < 4) by lia. assert (H4' : 0 <= 4) by lia.
  eapply (pss_sign_succeeds (toy_mac [1] 4) 4 H4 (fun m => toy_mac_length [1] 4 m H4') (fun m => toy_mac_bytes [1] 4 m)).
  - reflexivity.                    (* 1 < n65 *)
  - vm_compute. discriminate.       (* numBytes n65 <= 2^32 *)
  - reflexivity.                    (* the empty salt *)
  - vm_compute. discriminate.       (* hLen + 0 + 2 = 6 <= emLen = 8 *)
Qed.

(* python_dsakey.py at the integer level: a signature (r, s) made by sign() with ANY nonce k invertible
   mod q verifies, provided g has order dividing q, y = g^x, and r, s are non-zero (otherwise verify
   rejects by range) *)
Theorem dsa_sign_verifies :
  forall key, 1 < dk_p key -> 1 < dk_q key -> 0 <= dk_x key ->
    dk_g key ^ dk_q key mod dk_p key = 1 -> dk_y key = powmod (dk_g key) (dk_x key) (dk_p key) ->
    forall data k kinv w, 0 <= k -> (k * kinv) mod dk_q key = 1 ->
      let '(r, s) := dsa_sign key data k kinv in
      (s * w) mod dk_q key = 1 -> 0 < r -> 0 < s -> dsa_verify key r s data w = true.
Proof.
  intros key Hp Hq Hx Hg Hy data k kinv w Hk Hkinv. unfold dsa_sign.
  set (p := dk_p key) in *. set (q := dk_q key) in *. set (g := dk_g key) in *. set (x := dk_x key) in *.
  set (h := dsa_digest q data).
  set (r := powmod g k p mod q). set (s := (kinv * (h + x * r)) mod q).
  intros Hw Hr Hs. unfold dsa_verify. fold p q g h.
  assert (Br : r < q) by (apply Z.mod_pos_bound; lia).
  assert (Bs : s < q) by (apply Z.mod_pos_bound; lia).
  replace ((0 <? r) && (r <? q) && (0 <? s) && (s <? q)) with true by lia.
  apply Z.eqb_eq.
  set (u1 := (h * w) mod q). set (u2 := (r * w) mod q).
  assert (B1 : 0 <= u1 < q) by (apply Z.mod_pos_bound; lia).
  assert (B2 : 0 <= u2 < q) by (apply Z.mod_pos_bound; lia).
  rewrite Hy. fold g x p. rewrite !powmod_spec by lia.
  rewrite pow_mod_l, <- Z.mul_mod, <- Z.pow_mul_r, <- Z.pow_add_r by nia.
  (* modulo q the exponent is (h + x r) w = (k kinv) (h + x r) w = k (s w) = k *)
  assert (Ex : (u1 + x * u2) mod q = k mod q).
  { unfold u1, u2.
    rewrite Z.add_mod_idemp_l, <- Z.add_mod_idemp_r, Z.mul_mod_idemp_r, Z.add_mod_idemp_r by lia.
    rewrite <- (Z.mul_1_l (h * w + _)), <- Hkinv, Z.mul_mod_idemp_l by lia.
    replace (k * kinv * (h * w + x * (r * w))) with (k * (kinv * (h + x * r) * w)) by ring.
    rewrite <- Z.mul_mod_idemp_r, <- (Z.mul_mod_idemp_l (kinv * _)) by lia. fold s.
    rewrite Hw, Z.mul_1_r. reflexivity. }
  rewrite (pow_exp_mod g p q (u1 + x * u2)), Ex, <- (pow_exp_mod g p q k) by (try nia; exact Hg).
  unfold r. rewrite powmod_spec by lia. reflexivity.
Qed.

Theorem dsa_verify_rejects_out_of_range :
  forall key r s data w, (r <= 0 \/ dk_q key <= r \/ s <= 0 \/ dk_q key <= s) ->
    dsa_verify key r s data w = false.
Proof.
  intros key r s data w H. unfold dsa_verify.
  destruct ((0 <? r) && (r <? dk_q key) && (0 <? s) && (s <? dk_q key)) eqn:E; [lia|reflexivity].
Qed.

(* byte level: an empty or undecodable signature is rejected with False (no exception, since /repo
   ab7872a); a decodable one is judged by dsa_verify on the decoded (r, s) *)
Theorem dsa_verify_rejects_malformed :
  forall decode key sig data winv,
    (sig = [] \/ decode sig = None) -> dsa_verify_bytes decode key sig data winv = false.
Proof.
  intros decode key sig data winv [->|H]; [reflexivity|].
  unfold dsa_verify_bytes. destruct sig; [reflexivity|]. rewrite H. reflexivity.
Qed.

Theorem dsa_verify_bytes_is_verify_of_decoded :
  forall decode key sig data winv r s, sig <> [] -> decode sig = Some (r, s) ->
    dsa_verify_bytes decode key sig data winv = dsa_verify key r s data (winv s).
Proof.
  intros decode key sig data winv r s Hn H. unfold dsa_verify_bytes.
  destruct sig; [contradiction|]. rewrite H. reflexivity.
Qed.

(* Python_DSAKey.generate(): p = 2kq+1, g = index^((p-1)//q): the group hypothesis holds for every
   generated key (given Fermat for the index, i.e. p prime), hence every signature made with a
   generated key verifies.  Before /repo b7d3c31 generate_qp() produced q not dividing p-1 and the
   statement was false; the Example dsa_group_hypothesis_is_necessary shows that the hypothesis is needed. *)
Theorem dsa_generate_establishes_group_hypothesis :
  forall q k index x, 1 < q -> 0 < k -> index ^ (dsa_gen_p q k - 1) mod dsa_gen_p q k = 1 ->
    let key := dsa_gen_key q k index x in
    (dk_p key - 1) mod dk_q key = 0 /\ 1 < dk_p key /\
    dk_g key ^ dk_q key mod dk_p key = 1 /\
    dk_y key = powmod (dk_g key) (dk_x key) (dk_p key).
Proof.
  intros q k index x Hq Hk Hf. unfold dsa_gen_key. cbn [dk_p dk_q dk_g dk_x dk_y].
  unfold dsa_gen_g. set (p := dsa_gen_p q k) in *.
  assert (Ep : p - 1 = 2 * k * q) by (unfold p, dsa_gen_p; ring).
  assert (Hp : 1 < p) by nia.
  rewrite Ep. rewrite Z.mod_mul by lia. rewrite Z.div_mul by lia.
  refine (conj eq_refl (conj Hp (conj _ eq_refl))).
  rewrite powmod_spec by lia. rewrite pow_mod_l by lia.
  rewrite <- Z.pow_mul_r by lia. rewrite <- Ep. exact Hf.
Qed.

Theorem dsa_generated_key_signatures_verify :
  forall q k index x, 1 < q -> 0 < k -> 0 <= x -> index ^ (dsa_gen_p q k - 1) mod dsa_gen_p q k = 1 ->
    let key := dsa_gen_key q k index x in
    forall data nonce ninv w, 0 <= nonce -> (nonce * ninv) mod dk_q key = 1 ->
      let '(r, s) := dsa_sign key data nonce ninv in
      (s * w) mod dk_q key = 1 -> 0 < r -> 0 < s -> dsa_verify key r s data w = true.
Proof.
  intros q k index x Hq Hk Hx Hf key data nonce ninv w Hn Hinv.
  destruct (dsa_generate_establishes_group_hypothesis q k index x Hq Hk Hf) as (_ & Hp & Hg & Hy).
  fold key in Hp, Hg, Hy.
  apply (dsa_sign_verifies key Hp); try assumption.
Qed.

Example dsa_generate_hypothesis_instance :
  2 ^ (dsa_gen_p 101 3 - 1) mod dsa_gen_p 101 3 = 1 /\ dsa_gen_key 101 3 2 57 = toy_dsa.
Proof.
  split; [|reflexivity].
  change (dsa_gen_p 101 3) with 607. rewrite <- powmod_spec by lia. reflexivity.
Qed.

Example dsa_group_hypothesis_is_necessary :
  (dk_p bad_dsa - 1) mod dk_q bad_dsa <> 0 /\
  exists data k kinv w,
    0 <= k /\ (k * kinv) mod dk_q bad_dsa = 1 /\
    let '(r, s) := dsa_sign bad_dsa data k kinv in
    (s * w) mod dk_q bad_dsa = 1 /\ 0 < r /\ 0 < s /\ dsa_verify bad_dsa r s data w = false.
Proof.
  split; [vm_compute; discriminate|].
  exists [5], 2, 4, 6. vm_compute. repeat split; try reflexivity; discriminate.
Qed.

Example dsa_hypotheses_instance :
  dk_g toy_dsa ^ dk_q toy_dsa mod dk_p toy_dsa = 1 /\
  dk_y toy_dsa = powmod (dk_g toy_dsa) (dk_x toy_dsa) (dk_p toy_dsa).
Proof.
  split; [|reflexivity]. cbn [toy_dsa dk_g dk_q dk_p].
  rewrite <- powmod_spec by lia. reflexivity.
Qed.

Theorem ffdh_agree :
  forall tls13 g p xa xb va vb ka kb,
    0 < p -> 0 <= xa -> 0 <= xb ->
    ffdh_calc_public tls13 g p xa = Ok va -> ffdh_calc_public tls13 g p xb = Ok vb ->
    ffdh_calc_shared tls13 p xa (share_of vb) = Ok ka ->
    ffdh_calc_shared tls13 p xb (share_of va) = Ok kb -> ka = kb.
Proof. exact C10_DhP.ffdh_agree. Qed.

(* exactly what calc_shared_key enforces: 2 <= y < p-1, length = len(p) for byte shares,
   shared secret not in {1, p-1}; nothing else (no q-order subgroup test) *)
Theorem ffdh_rejects :
  forall tls13 p x,
    (forall s r, ffdh_calc_shared tls13 p x s = Ok r <->
       exists y, ffdh_normalise p s = Ok y /\ 2 <= y < p - 1 /\ powmod y x p <> 1 /\ powmod y x p <> p - 1 /\
                 r = (if tls13 then numberToByteArray (powmod y x p) (numBytes p)
                      else numberToByteArray_min (powmod y x p))) /\
    (forall y, (y <= 1 \/ y >= p - 1) -> ffdh_calc_shared tls13 p x (ShareInt y) = Err TLSIllegalParameter) /\
    (forall b, zlen b <> numBytes p -> ffdh_calc_shared tls13 p x (ShareBytes b) = Err TLSIllegalParameter) /\
    (forall b, zlen b = numBytes p -> (bytesToNumber b <= 1 \/ bytesToNumber b >= p - 1) ->
               ffdh_calc_shared tls13 p x (ShareBytes b) = Err TLSIllegalParameter) /\
    (forall s y, ffdh_normalise p s = Ok y -> (powmod y x p = 1 \/ powmod y x p = p - 1) ->
                 ffdh_calc_shared tls13 p x s = Err TLSIllegalParameter).
Proof.
  intros. split; [|split; [|split; [|split]]].
  - intros s r. exact (ffdh_shared_ok_iff tls13 p x s r).
  - intros y H. apply ffdh_rejects_unless. intros y' N. injection N as <-. lia.
  - intros b H. apply ffdh_rejects_unless. intros y N. cbn [ffdh_normalise] in N.
    destruct (numBytes p =? zlen b) eqn:E; [lia|discriminate].
  - intros b L H. apply ffdh_rejects_unless. intros y N. cbn [ffdh_normalise] in N.
    rewrite L, Z.eqb_refl in N. injection N as <-. lia.
  - intros s y N H. apply ffdh_rejects_unless. intros y' N'. rewrite N in N'. injection N' as <-. lia.
Qed.

Theorem x_nonzero_check :
  (forall v, Forall (fun b => 0 <= b) v ->
     (non_zero_check v = Err TLSIllegalParameter <-> Forall (fun b => b = 0) v) /\
     (non_zero_check v = Ok tt <-> ~ Forall (fun b => b = 0) v)) /\
  (forall is448 priv peer S, x_calc_shared is448 priv peer = Ok S ->
     zlen peer = (if is448 then 56 else 32) /\
     S = (if is448 then x448 priv peer else x25519 priv peer) /\ non_zero_check S = Ok tt) /\
  (forall (is448 : bool) priv peer, zlen peer <> (if is448 then 56 else 32) ->
     x_calc_shared is448 priv peer = Err TLSIllegalParameter).
Proof. exact (conj (fun v _ => non_zero_check_spec v) (conj x_calc_shared_ok x_calc_shared_len)). Qed.

(* For every signing site found in keyexchange.py / tlsconnection.py / tlsrecordlayer.py, for an
   ARBITRARY (possibly faulty) signing function: if control reaches the construction of the
   message, the signature verified under the signer's own key on the signed data; if it does not
   verify, the site ends in an internal_error alert or in TLSInternalError. *)
Theorem faulty_signature_never_sent :
  forall (Sig Data : Type) (sig_empty : Sig -> bool) s,
    In s sign_sites ->
    forall (sign : Data -> Sig) (ver_own ver_other : Sig -> Data -> bool) d d_other,
      (forall sg, run_site Sig Data sig_empty s sign ver_own ver_other d d_other = Emitted sg ->
                  sg = sign d /\ ver_own sg d = true) /\
      (ver_own (sign d) d = false ->
       run_site Sig Data sig_empty s sign ver_own ver_other d d_other = InternalErrorAlert \/
       run_site Sig Data sig_empty s sign ver_own ver_other d d_other = InternalErrorRaised).
Proof.
  intros Sig Data sig_empty s Hin sign ver_own ver_other d d_other. apply checked_site_safe.
  exact (proj1 (forallb_forall _ _) all_sites_checked s Hin).
Qed.

(* obligations on the tables regenerated from /repo *)
Theorem sign_sites_as_modelled :
  forallb site_checked sign_sites = true /\ map site_id sign_sites = expected_site_ids.
Proof. split; [exact all_sites_checked|reflexivity]. Qed.

(* The guards behind the acceptance theorems are present in /repo (table regenerated from the ast):
   signature representative < n and of modulus length (pkcs1_rejects_everything_else: n <= s => rejected),
   0 < r, s < q (dsa_verify_rejects_out_of_range), >= 8 bytes of padding (pkcs1_min_padding), the PSS checks
   (pss_verify_checks_all), the rsa-pss key-type guard (pss_only_key_rejects_pkcs1), 2 <= y < p-1 and the
   result check (ffdh_rejects), length and all-zero check (x_nonzero_check). *)
Theorem range_guards_present :
  forallb (fun g => existsb (guard_eqb g) range_guards) expected_range_guards = true.
Proof. vm_compute. reflexivity. Qed.

Theorem modelled_sources_unchanged : src_fingerprints = expected_fingerprints.
Proof. reflexivity. Qed.

Theorem internal_error_always_alerted : unhandled_callers = [].
Proof. reflexivity. Qed.
