(* Property C08 -- malformed peer input fails cleanly, promptly and within bounded memory.
   The general lemmas are in Proofs/ (hand models) and Gen/*Proof.v (generated proof scripts for
   the regenerated crash models); each theorem here is derived from them. *)
(* The order of the imports matters.  Base.C08_Lib and Model.C08_Funnel both define `outcome`, `Raised`
   and `is_crash`: C08_Funnel comes later, so the bare names are the funnel's and part 1 writes
   `C08_Lib.` in front of the others.  Base.C08_Lib and Model.C08_Work both declare `x <~ m ;; k`
   (coqc's two warnings at the `From TV Require Import` sentence; C08_Work's would parse, no statement below
   uses it). *)
From Coq Require Import ZArith List Bool Lia.
From TV Require Import Base.Prelude Base.PreludeFacts Base.C08_Lib Model.C08_Known Gen.HrrShChecks Proofs.C08_HelloHrrSh
                       Gen.HrrChChecks Proofs.C08_HelloHrr
                       Gen.ShChecks Proofs.C08_HelloSh
                       Gen.ChChecks Proofs.C08_Hello
                       Model.C08_Funnel Proofs.C08_Funnel Model.C08_Work Proofs.C08_Work.
From TV Require Proofs.C08_Symex Gen.ChChecksProof Gen.ShChecksProof Gen.HrrChChecksProof Gen.HrrShChecksProof.
Import ListNotations.
Open Scope Z_scope.

(* 1. Crash analysis of the ClientHello well-formedness checks (_serverGetClientHello, from the
   first `ext = clientHello.getExtension(ExtensionType.supported_versions)` up to `high_ver =
   None`).  FULL statement: for EVERY abstract parsed ClientHello (every extension absent /
   present with any fields, every None-able attribute None or not, lists of any length), every
   settings value and every hostname-validity oracle, the translated checks end in OK, a fatal
   alert or TLSInternalError -- never in a Crash.
   Before /repo commits b10bb95 and 5fb1773 this statement was FALSE of the faithful model
   (AlertDescription.decoder_error x2; empty supported_versions x2): the four witnesses, replayed
   on the live server, are the Example hello_checks_former_witnesses.
   The later statements of the region rely on the fact established by its first check (an empty
   supported_versions extension is answered with decode_error): that fact (ch_pre) is PROVED at
   the first statement boundary and only then used -- see Gen/ChChecksProof.v. *)
Theorem hello_checks_crash_free :
  forall (ch : ChChecks.ClientHello_r) (st : ChChecks.Settings_r) (ivh : list Z -> bool),
    C08_Lib.ncrash (ChChecks.ChChecks ch st ivh).
Proof.
  intros. apply (C08_Symex.no_known_site_ncrash ch_known_sites).
  - reflexivity.   (* Model/C08_Known.v lists no site of this region *)
  - apply ChChecksProof.ChChecks_crash_sites.
Qed.

(* a well-formed hello passes; the four hellos that crashed the region before b10bb95 / 5fb1773 end in decode_error *)
Example hello_checks_pass_example : ChChecks.ChChecks w_good st0 ivh0 = C08_Lib.OK tt.
Proof. vm_compute. reflexivity. Qed.
Example hello_checks_former_witnesses :
  ChChecks.ChChecks w_empty_identity st0 ivh0 = C08_Lib.Alert 50 /\
  ChChecks.ChChecks w_empty_binder st0 ivh0 = C08_Lib.Alert 50 /\
  ChChecks.ChChecks w_empty_versions_12 st0 ivh0 = C08_Lib.Alert 50 /\
  ChChecks.ChChecks w_empty_versions_10 st0 ivh0 = C08_Lib.Alert 50.
Proof. repeat split; vm_compute; reflexivity. Qed.

(* 1b. Crash analysis of the client's ServerHello checks (_clientGetServerHello after the
   HelloRetryRequest handling): FULL crash-freedom, for every abstract ServerHello (peer input),
   every own ClientHello, settings, optional earlier HelloRetryRequest, every value of the endpoint's
   own `self._defragmenter.is_empty()` and every result of the external CipherSuite.filterForVersion. *)
Theorem server_hello_checks_crash_free :
  forall (sh : ShChecks.ServerHello_r) (ch : ShChecks.ClientHello_r) (st : ShChecks.Settings_r)
         (hrr : option ShChecks.ServerHello_r) (defrag_is_empty : bool)
         (filterForVersion : list Z -> C08_Lib.ver -> C08_Lib.ver -> list Z),
    C08_Lib.ncrash (ShChecks.ShChecks sh ch st hrr defrag_is_empty filterForVersion).
Proof.
  intros. apply (C08_Symex.no_known_site_ncrash sh_known_sites); [reflexivity|].
  apply ShChecksProof.ShChecks_crash_sites.
Qed.

Example server_hello_checks_examples :
  ShChecks.ShChecks (sh_mk None) sh_ch0 sh_st0 None true keep = C08_Lib.OK tt /\
  ShChecks.ShChecks (sh_mk (Some [ShChecks.X_RecordSizeLimitExtension
                                    {| ShChecks.RecordSizeLimitExtension_record_size_limit := None |}]))
                    sh_ch0 sh_st0 None true keep = C08_Lib.Alert 50.
Proof. split; vm_compute; reflexivity. Qed.

(* 1c. Crash analysis of the server's validation of the SECOND ClientHello after a
   HelloRetryRequest (nested region of _serverGetClientHello: the key_share checks; the second
   hello does not pass through the checks of part 1 again).  FULL: for every abstract second
   ClientHello (key_share absent / empty body / EMPTY VECTOR / any shares) and every selected group
   the region ends in OK, a fatal alert or TLSInternalError -- never in a Crash; in particular
   `ext.client_shares[0]` is never evaluated on an empty list.
   Before /repo 79180d8 (= proposed fix C08-17) the statement was false at the site
   len:ext.client_shares#1 (`if not ext:` tested presence only; an empty-body key_share has
   client_shares = None); the former witness is kept as an Example and replayed (two-step
   exchange) on every run. *)
Theorem hrr_second_hello_checks_crash_free :
  forall (ch : HrrChChecks.ClientHello_r) (selected_group : Z),
    C08_Lib.ncrash (HrrChChecks.HrrChChecks ch selected_group).
Proof.
  intros. apply (C08_Symex.no_known_site_ncrash hrr_ch_known_sites); [reflexivity|].
  apply HrrChChecksProof.HrrChChecks_crash_sites.
Qed.

Example hrr_second_hello_former_witness : HrrChChecks.HrrChChecks hrr_w_empty_body 23 = C08_Lib.Alert 50.
Proof. vm_compute. reflexivity. Qed.

Example hrr_second_hello_examples :
  HrrChChecks.HrrChChecks (hrr_mk []) 23 = C08_Lib.Alert 109 /\
  HrrChChecks.HrrChChecks (hrr_mk [hrr_ks (Some [])]) 23 = C08_Lib.Alert 47 /\
  HrrChChecks.HrrChChecks (hrr_mk [hrr_ks (Some [hrr_share 23; hrr_share 29])]) 23 = C08_Lib.Alert 47 /\
  HrrChChecks.HrrChChecks (hrr_mk [hrr_ks (Some [hrr_share 29])]) 23 = C08_Lib.Alert 47 /\
  HrrChChecks.HrrChChecks (hrr_mk [hrr_ks (Some [hrr_share 23])]) 23 = C08_Lib.OK tt.
Proof. repeat split; vm_compute; reflexivity. Qed.

(* 1d. Crash analysis of the client's handling of a HelloRetryRequest (nested region of
   _clientGetServerHello: unexpected-extension test, cookie, selected group against the own
   supported_groups / key shares, "HRR changes nothing", session_id echo).  For EVERY abstract
   HelloRetryRequest (every extension absent / present / with any fields) and every result of the
   own key-share generator: no Crash -- under the HYPOTHESIS hrr_own_ok about the client's OWN
   ClientHello (it carries supported_groups and key_share, each with a list: invariant of hellos
   built for TLS 1.3 since /repo 40ad8d2, checked by the tie on every own hello observed) and the
   enclosing test (the HRR has an extension list: its supported_versions was just found).  The
   second ServerHello that follows is covered by server_hello_checks_crash_free (hrr := Some _). *)
Theorem hrr_handling_crash_free :
  forall (ch : HrrShChecks.ClientHello_r) (hrr : HrrShChecks.ServerHello_r)
         (gen_key_share : Z -> C08_Lib.ver -> HrrShChecks.KeyShareEntry_r),
    HrrShChecks.hrr_own_ok ch hrr ->
    C08_Lib.ncrash (HrrShChecks.HrrShChecks ch hrr gen_key_share).
Proof.
  intros ch hrr gen H. apply (C08_Symex.no_known_site_ncrash hrr_sh_known_sites); [reflexivity|].
  exact (HrrShChecksProof.HrrShChecks_crash_sites ch hrr gen H).
Qed.

Example hrr_handling_hypothesis_satisfiable : HrrShChecks.hrr_own_ok hs_ch (hs_hrr [7] [hs_sv; hs_sel 23]).
Proof.
  unfold HrrShChecks.hrr_own_ok, hs_ch, hs_hrr. cbn [HrrShChecks.ClientHello_extensions HrrShChecks.ServerHello_extensions].
  eexists; eexists; eexists; eexists; eexists; eexists.
  split; [reflexivity|]. split; [vm_compute; reflexivity|]. split; [reflexivity|].
  split; [vm_compute; reflexivity|]. split; reflexivity.
Qed.

Example hrr_handling_examples :
  HrrShChecks.HrrShChecks hs_ch (hs_hrr [7] [hs_sv; hs_sel 23]) hs_gen = C08_Lib.OK tt /\
  HrrShChecks.HrrShChecks hs_ch (hs_hrr [7] [hs_sv; hs_sel 24]) hs_gen = C08_Lib.Alert 47 /\
  HrrShChecks.HrrShChecks hs_ch (hs_hrr [7] [hs_sv]) hs_gen = C08_Lib.Alert 47.
Proof. exact (conj hrr_sh_accepted (conj hrr_sh_group_not_offered hrr_sh_no_change)). Qed.

(* 2. The error funnel (hand model of _getMsg / _getNextRecordFromSocket / _sendError /
   _shutdown / readAsync / writeAsync / closeAsync / _handshakeWrapperAsync at /repo 7b4ef0e,
   i.e. with the wrapper clause of 6da5459 / 0bc7834 that turns TLSIllegalParameterException /
   TLSDecodeError / TLSDecryptionFailed into alerts and closes even when the alert cannot be
   sent).  The state distinguishes alerts handed to the real socket (`wire`) from alerts sitting
   in BufferedSocket's write queue (`queued`, flag `buffering` = sock.buffer_writes). *)
(* C08 funnel: every handshake/read/write/close call that ends by raising leaves the
   connection closed, the socket closed (if closeSocket) and the session not resumable.
   wf_event excludes the holes hole_read_pretry, hole_generator_exit,
   hole_wrapper_reraises_alert_without_shutdown and hole_checker_alert_leaves_connection_open below, and
   in writeAsync a BaseException that is no Exception (write_keyboard_interrupt_leaves_open in
   Proofs/C08_Funnel.v); the exceptions of keeps_resumable are hole_write_ignore_abrupt and
   hole_close_notify_keeps_resumable. *)
Theorem funnel_postcondition :
  forall ly dp a sf st r st',
    wf_event ly dp a = true ->
    funnel ly dp a sf st = (Raised r, st') ->
    closed st' = true
    /\ (close_socket st = true -> sock_closed st' = true)
    /\ (has_session st = true -> keeps_resumable ly a st = false -> resumable st' = false)
    /\ has_session st' = has_session st.
Proof.
  intros ly dp a sf st r st' Hwf H.
  pose proof (funnel_shuts ly dp a sf st r st' Hwf H) as S.
  split; [exact (shut_closed S)|]. split; [exact (shut_sock_closed S)|].
  split; [|exact (frame_session (shut_frame S))].
  intros Hs Hk. exact (shut_unresumable S Hk Hs).
Qed.

(* _sendError writes its alert whatever the write-buffering mode (TLS <= 1.2 client between
   ServerHello and its own Finished has sock.buffer_writes set): flush, buffering off, send *)
Theorem send_error_alert_is_written_not_queued :
  forall d st,
    sendError d false st
    = (Raised (mkr E_TLSLocalAlert (Some d)), shutdown false (send_alert_now d st))
    /\ wire (send_alert_now d st) = wire st ++ queued st ++ [WAlert level_fatal d]
    /\ queued (send_alert_now d st) = []
    /\ buffering (send_alert_now d st) = false
    /\ wire (shutdown false (send_alert_now d st))
       = wire st ++ queued st ++ [WAlert level_fatal d; WShutdown false]
    /\ queued (shutdown false (send_alert_now d st)) = []
    /\ buffering (shutdown false (send_alert_now d st)) = false.
Proof.
  intros d st. destruct (send_alert_now_trace d st) as (W1 & Q1 & B1).
  destruct (sendError_trace d st) as (W & Q & B). repeat split; assumption.
Qed.

Theorem funnel_send_error_alert_written :
  forall ly dp d st o st',
    is_pretry dp = false ->
    layer_eqb ly LClose && closed st = false ->
    queued st = [] ->
    funnel ly dp (ASendError d) false st = (o, st') ->
    wire st' = wire st ++ alert_pre ly
                       ++ WAlert level_fatal d :: WShutdown false :: alert_tail ly st
    /\ queued st' = [] /\ buffering st' = false
    /\ (fault st = None -> o = Raised (mkr E_TLSLocalAlert (Some d))).
Proof.
  intros ly dp d st o st' Hp Hc Hq H. rewrite funnel_sendError in H by exact Hc.
  cbn [sendError] in H. rewrite (outer_local_alert Hp) in H.
  pose proof (layer_prefix_pending ly dp d st Hq) as P. set (st1 := layer_prefix ly dp (ASendError d) st) in *.
  destruct (sendError_trace d st1) as (W2 & Q2 & B2). rewrite app_assoc, P, <- app_assoc in W2.
  assert (T : forall r, wire (shutdown r (shutdown false (send_alert_now d st1)))
                        = wire st ++ alert_pre ly ++ [WAlert level_fatal d; WShutdown false; WShutdown r]
                        /\ queued (shutdown r (shutdown false (send_alert_now d st1))) = []
                        /\ buffering (shutdown r (shutdown false (send_alert_now d st1))) = false).
  { intros r. destruct (shutdown_trace r _ Q2) as (W3 & Q3 & B3).
    rewrite W3, W2, <- !app_assoc. repeat split; congruence. }
  destruct ly; injection H as <- <-; cbn [alert_tail].
  - (* LHandshake: no further _shutdown *)
    repeat split; try congruence. intros E.
    change (fault st1) with (fault st). rewrite E. reflexivity.
  - (* LRead *) destruct (T false) as (W3 & Q3 & B3). repeat split; assumption.
  - (* LWrite *) destruct (T (ignore_abrupt st)) as (W3 & Q3 & B3). repeat split; assumption.
  - (* LClose *) destruct (T false) as (W3 & Q3 & B3). repeat split; assumption.
Qed.

(* a class that _getMsg / _getNextRecordFromSocket map to an alert: the fatal alert is on the
   wire before the first _shutdown, and TLSLocalAlert(d) is what the caller gets *)
Theorem funnel_alert_then_close :
  forall ly dp e d0 st o st' d,
    mapped_alert dp e = Some d ->
    layer_eqb ly LClose && closed st = false ->
    queued st = [] ->
    funnel ly dp (ARaise e d0) false st = (o, st') ->
    wire st' = wire st ++ alert_pre ly
                       ++ WAlert level_fatal d :: WShutdown false :: alert_tail ly st
    /\ queued st' = [] /\ buffering st' = false
    /\ (fault st = None -> o = Raised (mkr E_TLSLocalAlert (Some d))).
Proof.
  intros ly dp e d0 st o st' d Hm Hc Hq H. rewrite (funnel_raise_mapped ly dp e d0 d false st Hm) in H.
  exact (funnel_send_error_alert_written ly dp d st o st' (mapped_not_pretry Hm) Hc Hq H).
Qed.

Theorem funnel_alert_unsendable :
  forall ly dp e d0 st o st' d,
    mapped_alert dp e = Some d ->
    layer_eqb ly LClose = false ->
    queued st = [] ->
    funnel ly dp (ARaise e d0) true st = (o, st') ->
    o = Raised (mkr E_SockError None)
    /\ (exists tail, wire st' = wire st ++ tail /\ forallb is_shutdown_ev tail = true)
    /\ queued st' = []
    /\ closed st' = true.
Proof.
  intros ly dp e d0 st o st' d Hm Hl Hq H.
  rewrite (raise_alert_unsendable ly dp e d0 st d) in H; [|unfold mapped_alert_ly; rewrite Hm; reflexivity|exact Hl].
  injection H as <- <-.
  destruct (shutdown_trace (layer_eqb ly LWrite && ignore_abrupt st) st Hq) as (W & Q & _).
  repeat split; [eexists; split; [exact W|reflexivity]|exact Q].
Qed.

(* since 6da5459: the three protocol-error classes reaching the handshake wrapper unconverted
   (raised directly in the handshake body, in the Checker, in the record read of
   _sendMsgThroughSocket, or TLSDecodeError / TLSDecryptionFailed in a parser) end in a fatal
   alert on the wire before closure and TLSLocalAlert (documented) for the caller *)
Theorem handshake_direct_protocol_error_alerts :
  forall dp e d0 st o st' d,
    is_pretry dp = false -> mapped_alert dp e = None -> wrapper_alert e = Some d ->
    funnel LHandshake dp (ARaise e d0) false st = (o, st') ->
    o = Raised (mkr E_TLSLocalAlert (Some d))
    /\ st' = shutdown false (send_alert_now d st)
    /\ wire st' = wire st ++ queued st ++ [WAlert level_fatal d; WShutdown false]
    /\ queued st' = [] /\ buffering st' = false
    /\ closed st' = true
    /\ (close_socket st = true -> sock_closed st' = true)
    /\ (has_session st = true -> resumable st' = false)
    /\ documented E_TLSLocalAlert = true.
Proof.
  intros dp e d0 st o st' d Hp Hm Hw H.
  rewrite (funnel_raise_wrapped dp e d0 d false st Hp Hm Hw) in H.
  injection H as <- <-. destruct (sendError_trace d st) as (W & Q & B).
  pose proof (sendError_shut d st) as S.
  repeat split; auto using (shut_closed S), (shut_sock_closed S). exact (shut_unresumable S eq_refl).
Qed.

(* since 0bc7834: when that alert cannot be sent the caller gets socket.error and the
   connection is closed all the same (only the shutdown on the wire) *)
Theorem wrapper_alert_unsendable_closes :
  forall dp e d0 st o st' d,
    is_pretry dp = false -> mapped_alert dp e = None -> wrapper_alert e = Some d ->
    funnel LHandshake dp (ARaise e d0) true st = (o, st') ->
    o = Raised (mkr E_SockError None)
    /\ st' = shutdown false st
    /\ (queued st = [] -> wire st' = wire st ++ [WShutdown false])
    /\ closed st' = true
    /\ (close_socket st = true -> sock_closed st' = true)
    /\ (has_session st = true -> resumable st' = false)
    /\ documented E_SockError = true.
Proof.
  intros dp e d0 st o st' d Hp Hm Hw H.
  rewrite (raise_alert_unsendable LHandshake dp e d0 st d) in H; [|unfold mapped_alert_ly; rewrite Hm, Hp; exact Hw|reflexivity].
  injection H as <- <-.
  pose proof (shut_shutdown false false st st (fun E => E) (frame_refl st)) as S.
  repeat split; auto using (shut_closed S), (shut_sock_closed S).
  - intros Hq. apply (shutdown_trace false st Hq).
  - exact (shut_unresumable S eq_refl).
Qed.

(* ... and these are exactly three classes (none of them has a subclass) *)
Theorem wrapper_converts_exactly :
  forall e, wrapper_alert e = match e with
                              | E_TLSIllegalParameterException => Some illegal_parameter
                              | E_TLSDecodeError => Some decode_error
                              | E_TLSDecryptionFailed => Some decrypt_error
                              | _ => None
                              end.
Proof.
  destruct e; reflexivity.
Qed.

Theorem direct_illegal_parameter_alert :
  forall st,
    funnel LHandshake DDirect (ARaise E_TLSIllegalParameterException None) false st
      = (Raised (mkr E_TLSLocalAlert (Some illegal_parameter)),
         shutdown false (send_alert_now illegal_parameter st))
    /\ protocol_violation E_TLSIllegalParameterException = true
    /\ documented E_TLSIllegalParameterException = false
    /\ documented E_TLSLocalAlert = true.
Proof.
  intros st. repeat split.
Qed.

(* alerts received from the peer, for EVERY value of the level byte: what is not a warning
   and not close_notify is treated as fatal (levels 2, 0, 3, 255, ...) *)
Theorem received_non_warning_alert_closes :
  forall ly dp level descr sf st o st',
    level <> level_warning -> descr <> close_notify ->
    layer_eqb ly LClose = false -> fault st = None ->
    funnel ly dp (APeerAlert level descr) sf st = (o, st') ->
    o = Raised (mkr E_TLSRemoteAlert (Some descr))
    /\ closed st' = true
    /\ (close_socket st = true -> sock_closed st' = true)
    /\ (has_session st = true -> resumable st' = false)
    /\ (queued st = [] ->
        queued st' = []
        /\ exists tail, wire st' = wire st ++ WShutdown false :: tail
                        /\ forallb is_shutdown_ev tail = true).
Proof.
  intros ly dp level descr sf st o st' Hl Hd Hly Hf H.
  destruct (peer_alert_run Hly H) as (M & S & O).
  apply Z.eqb_neq in Hl, Hd. unfold peer_reply in M. rewrite Hl, Hd in *. cbn [orb andb] in M.
  split; [rewrite (O Hf), andb_false_r; reflexivity|].
  split; [exact (shut_closed S)|split; [exact (shut_sock_closed S)|split; [exact (shut_unresumable S eq_refl)|]]].
  intros Hq. destruct (shutdown_trace false st Hq) as (W1 & Q1 & _).
  exact (shut_more_trace M Q1 W1).
Qed.

Theorem received_warning_alert_closes :
  forall ly dp descr sf st o st',
    descr <> close_notify ->
    layer_eqb ly LClose = false -> fault st = None ->
    funnel ly dp (APeerAlert level_warning descr) sf st = (o, st') ->
    o = Raised (mkr E_TLSRemoteAlert (Some descr))
    /\ closed st' = true
    /\ (close_socket st = true -> sock_closed st' = true)
    /\ (has_session st = true -> resumable st' = false).
Proof.
  intros ly dp descr sf st o st' Hd Hly Hf H.
  destruct (peer_alert_run Hly H) as (_ & S & O).
  apply Z.eqb_neq in Hd. rewrite Hd in *.
  split; [rewrite (O Hf), andb_false_r; reflexivity|].
  exact (conj (shut_closed S) (conj (shut_sock_closed S) (shut_unresumable S eq_refl))).
Qed.

Theorem received_warning_reply_written :
  forall ly dp descr st o st',
    descr <> close_notify ->
    layer_eqb ly LClose = false -> queued st = [] ->
    buffering st = false \/ close_socket st = true ->
    funnel ly dp (APeerAlert level_warning descr) false st = (o, st') ->
    queued st' = []
    /\ exists tail, wire st' = wire st ++ WAlert level_warning close_notify :: WShutdown false :: tail
                    /\ forallb is_shutdown_ev tail = true.
Proof.
  intros ly dp descr st o st' Hd Hly Hq Hb H.
  destruct (peer_alert_run Hly H) as (M & _).
  apply Z.eqb_neq in Hd. unfold peer_reply in M. rewrite Hd, Z.eqb_refl in M. cbn [orb andb negb] in M.
  destruct (warning_reply_trace (WAlert level_warning close_notify) st Hq Hb) as [W1 Q1].
  exact (shut_more_trace M Q1 W1).
Qed.

(* hole of the code: write-buffering mode without closeSocket: the close_notify reply is only
   queued, nothing ever flushes it *)
Theorem hole_warning_reply_stays_queued :
  forall dp descr st o st',
    descr <> close_notify -> fault st = None ->
    buffering st = true -> close_socket st = false ->
    funnel LHandshake dp (APeerAlert level_warning descr) false st = (o, st') ->
    queued st' = queued st ++ [WAlert level_warning close_notify]
    /\ exists tail, wire st' = wire st ++ tail /\ forallb is_shutdown_ev tail = true.
Proof.
  intros dp descr st o st' Hd Hf Hb Hc H.
  rewrite peer_alert_stages, outer_remote_alert in H by reflexivity.
  apply Z.eqb_neq in Hd. unfold peer_reply in H. rewrite Hd, Z.eqb_refl in H.
  destruct (is_pretry dp); injection H as _ <-; cbn; rewrite Hb, Hc; (split; [reflexivity|]);
    eexists; (split; [reflexivity|reflexivity]).
Qed.

Theorem received_close_notify_in_read :
  forall dp level sf st,
    is_pretry dp = false ->
    exists st', funnel LRead dp (APeerAlert level close_notify) sf st = (Done, st')
                /\ closed st' = true /\ resumable st' = resumable st
                /\ (close_socket st = true -> sock_closed st' = true).
Proof.
  intros dp level sf st Hp.
  rewrite peer_alert_stages, outer_remote_alert, Hp, Z.eqb_refl by reflexivity.
  eexists. split; [reflexivity|]. unfold peer_reply.
  destruct (_ && _); repeat split; cbn; intros ->; apply orb_true_r.
Qed.

Theorem received_alert_in_close :
  forall dp level descr sf st o st',
    is_pretry dp = false ->
    closed st = false ->
    funnel LClose dp (APeerAlert level descr) sf st = (o, st') ->
    closed st' = true
    /\ (close_socket st = true -> sock_closed st' = true)
    /\ (if descr =? close_notify
        then o = Done /\ resumable st' = resumable st
        else o = Raised (mkr E_TLSRemoteAlert (Some descr))
             /\ (has_session st = true -> resumable st' = false)).
Proof.
  intros dp level descr sf st o st' Hp Hc H. rewrite (peer_alert_close Hp Hc) in H. injection H as <- <-.
  split; [reflexivity|]. split; [cbn; intros ->; apply orb_true_r|].
  destruct (descr =? close_notify); split; try reflexivity. cbn. intros ->. reflexivity.
Qed.

Example ex_funnel_received_level_255 :
  funnel LHandshake DParser (APeerAlert 255 40) false (init_state LHandshake)
  = (Raised (mkr E_TLSRemoteAlert (Some 40)),
     mkcst true true false false [WShutdown false] true false None false [])
  /\ funnel LRead DParser (APeerAlert 0 80) false (init_state LRead)
     = (Raised (mkr E_TLSRemoteAlert (Some 80)),
        mkcst true true true false [WShutdown false; WShutdown false] true false None false []).
Proof. exact ex_received_level_255. Qed.

Example ex_funnel_buffering_decode_error_written :
  funnel LHandshake DParser (ARaise E_DecodeError None) false
         (mkcst true false false false [] false false None true [])
  = (Raised (mkr E_TLSLocalAlert (Some 50)),
     mkcst true false false false [WAlert 2 50; WShutdown false] false false None false []).
Proof. exact ex_buffering_decode_error_written. Qed.

(* a class the callees are specified to raise reaches the caller as a documented one (the hypothesis
   `fault st = None` is not used: raise_documented holds without it) *)
Theorem documented_exceptions_only :
  forall ly dp e d0 sf st r st',
    specified_ly ly dp e = true -> fault st = None ->
    funnel ly dp (ARaise e d0) sf st = (Raised r, st') ->
    documented (rclass r) = true.
Proof.
  intros ly dp e d0 sf st r st' Hs _. exact (raise_documented ly dp e d0 sf st r st' Hs).
Qed.

Theorem funnel_does_not_launder_crashes :
  forall ly dp e sf st,
    is_crash e = true ->
    layer_eqb ly LClose && closed st = false ->
    documented e = false
    /\ funnel ly dp (ARaise e None) sf st =
       (Raised (mkr e None),
        let st1 := layer_prefix ly dp (ARaise e None) st in
        if is_pretry dp then st1
        else shutdown (layer_eqb ly LWrite && ignore_abrupt st) st1).
Proof.
  intros ly dp e sf st Hc Hcl.
  (* every undocumented builtin is a class that nothing answers *)
  destruct e; try discriminate Hc; (split; [reflexivity|]);
    (apply funnel_raise_unhandled;
     [destruct dp; reflexivity|reflexivity|intros _; destruct ly; repeat split|reflexivity|exact Hcl]).
Qed.

(* the residue after 6da5459: any other non-TLSAlert class raised directly in a handshake
   body still reaches the caller unchanged, socket closed, NO alert *)
Theorem direct_raise_still_without_alert :
  forall e d sf st,
    subclass e E_TLSAlert = false ->
    subclass e E_GeneratorExit = false ->
    subclass e E_StopIteration = false ->
    wrapper_alert e = None ->
    funnel LHandshake DDirect (ARaise e d) sf st = (Raised (mkr e d), shutdown false st).
Proof.
  intros e d sf st H1 H2 H3 H4.
  apply (funnel_raise_unhandled LHandshake DDirect); repeat split; assumption || discriminate.
Qed.

(* in the TLSProtocolException family the residue is exactly: TLSProtocolException itself,
   TLSUnexpectedMessage, TLSRecordOverflow, TLSBadRecordMAC, TLSInsufficientSecurity,
   TLSUnknownPSKIdentity, TLSHandshakeFailure -- all undocumented *)
Theorem residue_protocol_classes_exact :
  forall e, subclass e E_TLSProtocolException = true ->
    existsb (exc_eqb e) residue_protocol_classes
    = match wrapper_alert e with None => true | Some _ => false end.
Proof.
  destruct e; vm_compute; congruence.
Qed.

Theorem residue_protocol_classes_no_alert :
  forall e d sf st,
    existsb (exc_eqb e) residue_protocol_classes = true ->
    funnel LHandshake DDirect (ARaise e d) sf st = (Raised (mkr e d), shutdown false st)
    /\ subclass e E_TLSProtocolException = true
    /\ documented e = false.
Proof.
  intros e d sf st H.
  destruct e; try discriminate;
    (split; [apply direct_raise_still_without_alert; reflexivity|split; reflexivity]).
Qed.

(* readAsync / writeAsync / closeAsync have no such conversion *)
Theorem other_layers_direct_protocol_error_no_alert :
  forall ly e d0 sf st d,
    layer_eqb ly LHandshake = false ->
    layer_eqb ly LClose && closed st = false ->
    wrapper_alert e = Some d ->
    funnel ly DDirect (ARaise e d0) sf st
    = (Raised (mkr e d0), shutdown (layer_eqb ly LWrite && ignore_abrupt st) st)
    /\ documented e = false.
Proof.
  intros ly e d0 sf st d Hl Hc Hw.
  destruct (wrapper_alert_class_facts e d Hw) as (G & _ & S & _ & _ & D). split; [|exact D].
  rewrite (funnel_raise_unhandled ly DDirect e d0 sf st eq_refl); try discriminate; try assumption; [destruct ly; reflexivity|].
  split; [exact G|].
  destruct (wrapper_alert_inv e d Hw) as [-> | [-> | ->]]; destruct ly; try discriminate; repeat split.
Qed.

Theorem tls_protocol_exceptions_are_undocumented :
  forall e, subclass e E_TLSProtocolException = true -> documented e = false.
Proof. destruct e; vm_compute; congruence. Qed.

Theorem hole_generator_exit :
  forall ly dp sf st,
    layer_eqb ly LClose && closed st = false ->
    funnel ly dp (ARaise E_GeneratorExit None) sf st
    = (Raised (mkr E_GeneratorExit None), layer_prefix ly dp (ARaise E_GeneratorExit None) st).
Proof.
  intros ly dp sf st Hc. rewrite funnel_raise_unmapped; [|destruct dp; reflexivity|reflexivity|exact Hc].
  unfold outer. destruct (is_pretry dp), ly; reflexivity.
Qed.

Theorem hole_wrapper_reraises_alert_without_shutdown :
  forall dp d sf st,
    fault st = None ->
    funnel LHandshake dp (ARaise E_TLSRemoteAlert d) sf st = (Raised (mkr E_TLSRemoteAlert d), st).
Proof.
  intros dp d sf st Hf.
  rewrite funnel_raise_unmapped by (reflexivity || (destruct dp; reflexivity)). cbn [layer_prefix].
  unfold outer. destruct (is_pretry dp); [reflexivity|].
  cbn [through layer_handler]. unfold wrapper_handler. cbn [rclass]. conc. rewrite Hf. reflexivity.
Qed.

Theorem hole_checker_alert_leaves_connection_open :
  exists st st',
    funnel LHandshake DChecker (ARaise E_TLSLocalAlert (Some 80)) false st
      = (Raised (mkr E_TLSLocalAlert (Some 80)), st')
    /\ closed st' = false /\ sock_closed st' = false /\ resumable st' = true.
Proof.
  exists (mkcst false false true true [] true false None false []). eexists.
  split; [vm_compute; reflexivity|]. repeat split.
Qed.

Theorem hole_write_ignore_abrupt :
  forall e d sf st r st',
    ignore_abrupt st = true ->
    funnel LWrite DDirect (ARaise e d) sf st = (Raised r, st') ->
    resumable st' = resumable st.
Proof.
  intros e d sf st r st' Hi H. rewrite funnel_raise_unmapped in H by (reflexivity || discriminate).
  unfold outer in H. cbn [layer_prefix is_pretry through layer_handler] in H. apply pep479_state in H as [r0 H].
  unfold write_handler in H. rewrite Hi in H.
  destruct (subclass _ E_GeneratorExit); [|destruct (subclass _ E_Exception)];
    injection H as _ <-; reflexivity.
Qed.

(* readAsync before its try; since 8b57b65 also writeAsync's "closed" test (by design: a
   write on a closed connection no longer touches the session) *)
Theorem hole_read_pretry :
  forall e d sf st,
    subclass e E_StopIteration = false ->
    funnel LRead DPreTry (ARaise e d) sf st = (Raised (mkr e d), st).
Proof.
  intros e d sf st H. apply (funnel_raise_unhandled LRead DPreTry); reflexivity || discriminate || exact H.
Qed.

Theorem write_on_closed_leaves_session_alone :
  forall sf st,
    funnel LWrite DPreTry (ARaise E_TLSClosedConnectionError None) sf st
    = (Raised (mkr E_TLSClosedConnectionError None), st)
    /\ documented E_TLSClosedConnectionError = true.
Proof.
  intros sf st. split; reflexivity.
Qed.

Theorem hole_close_notify_keeps_resumable :
  forall l sf st,
    fault st = None ->
    exists st', funnel LHandshake DParser (APeerAlert l close_notify) sf st
                = (Raised (mkr E_TLSRemoteAlert (Some close_notify)), st')
                /\ closed st' = true /\ resumable st' = resumable st.
Proof.
  intros l sf st Hf.
  rewrite peer_alert_stages, outer_remote_alert by reflexivity.
  cbn [is_pretry fault shutdown]. rewrite peer_reply_fault, Hf.
  eexists. split; [reflexivity|]. unfold peer_reply. destruct (_ && _); split; reflexivity.
Qed.

(* since 0ab9df1: a handshake record cannot be sent and the pending record is not an alert:
   _shutdown(False), then the socket error (no longer swallowed) *)
Theorem failed_handshake_send_reports_socket_error :
  forall sf st,
    funnel LHandshake DRecOnly AShutRaiseSock sf st
    = (Raised (mkr E_SockError None), shutdown false (shutdown false st)).
Proof.
  reflexivity.
Qed.

Example ex_funnel_read_bad_mac :
  wf_event LRead DRecord (ARaise E_TLSBadRecordMAC None) = true
  /\ mapped_alert DRecord E_TLSBadRecordMAC = Some bad_record_mac
  /\ funnel LRead DRecord (ARaise E_TLSBadRecordMAC None) false (init_state LRead)
     = (Raised (mkr E_TLSLocalAlert (Some 20)),
        mkcst true true true false [WAlert 2 20; WShutdown false; WShutdown false]
              true false None false []).
Proof. exact ex_read_bad_mac. Qed.

Example ex_funnel_handshake_decode_error :
  specified DParser E_DecodeError = true
  /\ funnel LHandshake DParser (ARaise E_DecodeError None) false (init_state LHandshake)
     = (Raised (mkr E_TLSLocalAlert (Some 50)),
        mkcst true true false false [WAlert 2 50; WShutdown false] true false None false []).
Proof. exact ex_handshake_decode_error. Qed.

Example ex_funnel_handshake_direct_decryption_failed :
  specified_ly LHandshake DDirect E_TLSDecryptionFailed = true
  /\ is_pretry DDirect = false /\ mapped_alert DDirect E_TLSDecryptionFailed = None
  /\ wrapper_alert E_TLSDecryptionFailed = Some decrypt_error
  /\ funnel LHandshake DDirect (ARaise E_TLSDecryptionFailed None) false (init_state LHandshake)
     = (Raised (mkr E_TLSLocalAlert (Some 51)),
        mkcst true true false false [WAlert 2 51; WShutdown false] true false None false []).
Proof. exact ex_handshake_direct_decryption_failed. Qed.

Example ex_funnel_crash_attribute_error :
  is_crash E_AttributeError = true
  /\ funnel LHandshake DParser (ARaise E_AttributeError None) false (init_state LHandshake)
     = (Raised (mkr E_AttributeError None),
        mkcst true true false false [WShutdown false] true false None false []).
Proof. exact ex_crash_attribute_error. Qed.


(* 3. Bounded work and memory of the parsers (hand model Model/C08_Work.v: cost-instrumented
   Parser primitives and every list-parsing loop built on them, explicit fuel = |input|+1;
   the decompressor is an oracle with the ASSUMED contract "output never exceeds the limit";
   synced to /repo 0a4bdcb: ClientHello.parse rejects duplicate extension types after the loop
   (6da5459), the zlib path calls decompressobj(15).decompress(data, expected_length+1) and rejects
   any leftover (e070e0f) -- since then the real zlib call satisfies the contract;
   synced to /repo 79180d8: EncryptedExtensions.parse and CertificateRequest._parse_tls13 reject
   duplicate extension types too (7769c7a) = parse_ext_list_nodup; the loops left WITHOUT a
   duplicate test are NewSessionTicket.parse (= parse_ext_list) and the per-entry extension list of
   CertificateEntry.parse (inside parse_cert_list)). *)
(* Every parsing loop, run on ANY byte string bs with fuel |bs|+1, never returns Err OutOfFuel
   (each iteration strictly consumes input) and takes <= c*|bs|+c0 model steps.
   linear_work f c c0 := forall bs, bytes_ok bs ->
                           m_out (f bs) <> Err OutOfFuel /\ 0 <= m_steps (f bs) <= c * zlen bs + c0 *)
Theorem parser_work_linear :
  linear_work parse_ext_list 1 4 /\
  linear_work parse_ext_list_nodup 2 4 /\
  linear_work parse_client_hello_exts 8 13 /\
  linear_work parse_sni 2 5 /\
  linear_work parse_alpn 3 4 /\
  linear_work parse_npn 3 3 /\
  linear_work parse_key_shares 1 5 /\
  linear_work parse_psk 3 9 /\
  linear_work parse_status_request 2 7 /\
  (forall len ll, 1 <= len -> 0 <= ll -> linear_work (parse_var_list len ll) 2 4) /\
  (forall el en ll, 1 <= el -> 1 <= en -> 0 <= ll -> linear_work (parse_var_tuple_list el en ll) 5 4) /\
  (forall len cnt, 1 <= len -> linear_work (p_fix_list len cnt) 2 3) /\
  (forall chk, (forall c, chk c <> Some OutOfFuel) ->
     linear_work (parse_cert_list chk) 3 13 /\ linear_work (parse_cert_list12 chk) 1 5) /\
  linear_work parse_ca_list 2 4 /\
  (forall tls12, linear_work (parse_cert_request12 tls12) 5 13) /\
  (forall B (h : Z -> list Z -> M B) ch kh cah kah Cs Ca,
     0 <= ch -> 0 <= kh -> 0 <= cah -> 0 <= kah -> (forall t, top ch kh cah kah (h t)) ->
     ch <= Cs -> cah + 1 <= Ca -> ch * 4 + (kh + 3) + 1 <= Cs * 4 -> (cah + 1) * 4 + kah + 1 <= Ca * 4 ->
     linear_work (parse_ext_list_with h) Cs (kh + 4)).
Proof.
  split; [exact (top_work parse_ext_list_top)|].
  split; [exact (top_work parse_ext_list_nodup_top)|].
  split; [exact (top_work parse_client_hello_exts_top)|].
  split; [exact (top_work parse_sni_top)|].
  split; [exact (top_work parse_alpn_top)|].
  split; [exact (top_work parse_npn_top)|].
  split; [exact (top_work parse_key_shares_top)|].
  split; [exact (top_work parse_psk_top)|].
  split; [exact (top_work parse_status_request_top)|].
  split; [intros len ll H1 H2; exact (top_work (step_top (parse_var_list_step len ll H1 H2) ltac:(lia)))|].
  split; [intros el en ll H1 H2 H3; exact (top_work (step_top (parse_var_tuple_list_step el en ll H1 H2 H3) ltac:(lia)))|].
  split; [intros len cnt H1; exact (top_work (step_top (p_fix_list_step len cnt H1) ltac:(lia)))|].
  split; [intros chk H; split; [exact (top_work (parse_cert_list_top chk H))|exact (top_work (parse_cert_list12_top chk H))]|].
  split; [exact (top_work (step_top parse_ca_list_step ltac:(lia)))|].
  split; [intros b; exact (top_work (parse_cert_request12_top b))|].
  intros B h ch kh cah kah Cs Ca H1 H2 H3 H4 Hh H5 H6 H7 H8.
  apply (top_work (ca := Ca) (ka := kah + 1)), (parse_ext_list_with_top h ch kh cah kah); [lia | exact Hh | unfold absorbs; lia].
Qed.

(* the per-iteration fact behind it: whenever a loop body parses an element -- zero-length
   elements included -- strictly fewer bytes remain *)
Theorem loop_bodies_strictly_consume :
  strictly_consumes sni_elem /\ strictly_consumes alpn_elem /\ strictly_consumes (p_var 1) /\
  strictly_consumes (p_var 2) /\ strictly_consumes key_share_elem /\
  strictly_consumes psk_identity_elem /\
  (forall B (h : Z -> list Z -> M B), (forall t, top 0 0 0 0 (h t)) -> strictly_consumes (ext_elem h)) /\
  strictly_consumes (ext_elem h_client_hello) /\
  (forall chk, (forall c, chk c <> Some OutOfFuel) ->
     strictly_consumes (cert_entry chk) /\ strictly_consumes (cert12_elem chk)) /\
  (forall len, 1 <= len -> strictly_consumes (p_get len)) /\
  (forall el en, 1 <= el -> 0 < en -> strictly_consumes (run_loop Count (p_get el) en)).
Proof.
  split; [apply (step_strict sni_elem_step); lia|].
  split; [apply (step_strict alpn_elem_step); lia|].
  split; [apply (step_strict (var_step 1 ltac:(lia))); lia|].
  split; [apply (step_strict (var_step 2 ltac:(lia))); lia|].
  split; [apply (step_strict key_share_elem_step); lia|].
  split; [apply (step_strict psk_identity_elem_step); lia|].
  split; [intros B h Hh; apply (step_strict (ext_elem_step h 0 0 0 0 ltac:(lia) Hh)); lia|].
  split; [apply (step_strict (ext_elem_step h_client_hello 3 9 2 2 ltac:(lia) h_client_hello_top)); lia|].
  split; [intros chk H; split; [apply (step_strict (cert_entry_step chk H))|apply (step_strict (cert12_elem_step chk H))]; lia|].
  split; [intros len Hl; apply (step_strict (get_step len ltac:(lia))); lia|].
  intros el en Hel Hen. apply (step_strict (tuple_inner_step el en Hel Hen)). lia.
Qed.

(* allocation (bytes + list cells) <= c*|bs|+c0, on the failing paths too;
   CompressedCertificate: UNDER THE ASSUMED CONTRACT of the decompressor (first premise); the
   decompressor is called with limit expected_length+1 and returns (output, stopped cleanly) *)
Theorem alloc_bounded :
  linear_alloc parse_ext_list 2 1 /\
  linear_alloc parse_ext_list_nodup 3 1 /\
  linear_alloc parse_client_hello_exts 5 3 /\
  linear_alloc parse_sni 2 1 /\
  linear_alloc parse_alpn 2 1 /\
  linear_alloc parse_npn 2 1 /\
  linear_alloc parse_key_shares 2 1 /\
  linear_alloc parse_psk 2 2 /\
  linear_alloc parse_status_request 2 1 /\
  (forall len ll, 1 <= len -> 0 <= ll -> linear_alloc (parse_var_list len ll) 2 (256 ^ ll)) /\
  (forall el en ll, 1 <= el -> 1 <= en -> 0 <= ll -> linear_alloc (parse_var_tuple_list el en ll) 4 2) /\
  (forall len cnt, 1 <= len -> linear_alloc (p_fix_list len cnt) 2 (Z.max 0 cnt + 1)) /\
  (forall chk, (forall c, chk c <> Some OutOfFuel) ->
     linear_alloc (parse_cert_list chk) 4 2 /\ linear_alloc (parse_cert_list12 chk) 2 1) /\
  linear_alloc parse_ca_list 2 1 /\
  (forall tls12, linear_alloc (parse_cert_request12 tls12) 4 259) /\
  (forall (dec : list Z -> Z -> res (list Z * bool)) (algo_ok : Z -> bool),
     (forall d lim out clean, 0 <= lim -> dec d lim = Ok (out, clean) -> zlen out <= lim) ->
     (forall data expected, 0 <= expected ->
        0 <= m_alloc (decompress_cert dec data expected) <= expected + 1 /\
        match m_out (decompress_cert dec data expected) with
        | Ok out => zlen out = expected
        | Err e => e = BadCertificateErr
        end) /\
     (forall bs, bytes_ok bs ->
        m_out (parse_compressed_cert dec algo_ok bs) <> Err OutOfFuel /\
        0 <= m_steps (parse_compressed_cert dec algo_ok bs) <= 6 /\
        0 <= m_alloc (parse_compressed_cert dec algo_ok bs) <= zlen bs + 16777216 /\
        (forall algo expected out,
           m_out (parse_compressed_cert dec algo_ok bs) = Ok (algo, expected, out) ->
           zlen out = expected /\ 0 <= expected <= 16777215))).
Proof.
  split; [exact (top_alloc parse_ext_list_top)|].
  split; [exact (top_alloc parse_ext_list_nodup_top)|].
  split; [exact (top_alloc parse_client_hello_exts_top)|].
  split; [exact (top_alloc parse_sni_top)|].
  split; [exact (top_alloc parse_alpn_top)|].
  split; [exact (top_alloc parse_npn_top)|].
  split; [exact (top_alloc parse_key_shares_top)|].
  split; [exact (top_alloc parse_psk_top)|].
  split; [exact (top_alloc parse_status_request_top)|].
  split; [intros len ll H1 H2; exact (top_alloc (step_top (parse_var_list_step len ll H1 H2) ltac:(lia)))|].
  split; [intros el en ll H1 H2 H3; exact (top_alloc (step_top (parse_var_tuple_list_step el en ll H1 H2 H3) ltac:(lia)))|].
  split; [intros len cnt H1; exact (top_alloc (step_top (p_fix_list_step len cnt H1) ltac:(lia)))|].
  split; [intros chk H; split; [exact (top_alloc (parse_cert_list_top chk H))|exact (top_alloc (parse_cert_list12_top chk H))]|].
  split; [exact (top_alloc (step_top parse_ca_list_step ltac:(lia)))|].
  split; [intros b; exact (top_alloc (parse_cert_request12_top b))|].
  intros dec algo_ok Hdec. split.
  - intros data expected He. split; [apply (decompress_cert_costs dec Hdec data expected He)|].
    destruct (decompress_cert_result dec data expected) as (_ & R).
    destruct (m_out (decompress_cert dec data expected)); [exact (proj1 R)|exact R].
  - intros bs Hb. destruct (parse_compressed_cert_top dec algo_ok Hdec bs Hb) as (T1 & T2 & T3).
    split; [exact T1|]. split; [lia|]. split; [lia|].
    intros algo expected out. exact (parse_compressed_cert_result dec algo_ok bs algo expected out Hb).
Qed.

(* Defragmenter: draining a buffer of n bytes of handshake data returns the messages in order,
   in <= n/4+1 get_message calls, allocating <= n bytes; what stays buffered is an incomplete
   message (<= 2^24+2 bytes: the ONLY cap); bytes moved by "del buf[:length]" are bounded
   QUADRATICALLY (8*moved <= n^2) -- and that bound is attained (defrag_moves_quadratic) *)
Theorem defrag_bound :
  (forall buf, bytes_ok buf ->
     exists ms r it al mv,
       defrag_get_messages buf = Ok (ms, r, it, al, mv) /\
       concat ms ++ r = buf /\ hs_size r = None /\ zlen r <= 16777218 /\
       1 <= it /\ 4 * (it - 1) <= zlen buf /\
       0 <= al <= zlen buf /\
       0 <= mv /\ 8 * mv <= zlen buf * zlen buf) /\
  (forall size buf, 1 <= size -> bytes_ok buf ->
     exists ms r it al mv,
       defrag_get_static size buf = Ok (ms, r, it, al, mv) /\
       concat ms ++ r = buf /\ zlen r < size /\
       1 <= it /\ size * (it - 1) <= zlen buf /\
       0 <= al <= zlen buf /\
       0 <= mv /\ 2 * size * mv <= zlen buf * zlen buf).
Proof.
  split.
  - intros buf Hb.
    (* what hs_size = dyn_size 1 3 leaves is at most 1 + 3 + 256 ^ 3 - 2 bytes *)
    exact (defrag_loop_bound hs_size 4 (fun r => zlen r <= 16777218) ltac:(lia)
             (fun b Hb => dyn_size_cases 1 3 b Hb ltac:(lia) ltac:(lia)) (length buf) buf Hb (le_n _)).
  - intros size buf Hs Hb.
    assert (Hsize : forall b, bytes_ok b ->
              match static_size size b with Some n => size <= n <= zlen b | None => zlen b < size end).
    { intros b _. pose proof (static_size_cases size b) as K. destruct (static_size size b); lia. }
    destruct (defrag_loop_bound (static_size size) size (fun r => zlen r < size) Hs Hsize (length buf) buf Hb (le_n _))
      as (ms & r & it & al & mv & E & Hcat & _ & rest).
    exists ms, r, it, al, mv. exact (conj E (conj Hcat rest)).
Qed.

(* ASN1Parser: "for i in range(getChildCount()): getChild(i)" is QUADRATIC in the value length
   (ocsp.py only; not reached from the TLS state machine); never out of fuel *)
Theorem asn1_children_quadratic : forall value, bytes_ok value ->
  m_out (asn1_all_children value) <> Err OutOfFuel /\
  0 <= 2 * m_steps (asn1_all_children value) <= 3 * zlen value * zlen value + 12 * zlen value + 10 /\
  0 <= 2 * m_alloc (asn1_all_children value) <= 3 * zlen value * zlen value + 5 * zlen value + 2.
Proof.
  intros value Hb. pose proof (zlen_nonneg value) as Hn.
  destruct (asn1_all_children_costs value Hb) as (F & S & A).
  assert (0 <= 2 * (zlen value / 2) <= zlen value) by (split; [apply Z.mul_nonneg_nonneg, Z.div_pos | apply Z.mul_div_le]; lia).
  split; [exact F|]. split; nia.
Qed.

(* hypotheses are satisfiable, statements are not vacuous, the contract is load-bearing *)
Example decompressor_contract_satisfiable :
  forall d lim out clean, 0 <= lim -> rle_dec_limited d lim = Ok (out, clean) -> zlen out <= lim.
Proof.
  intros d lim out clean Hl H. unfold rle_dec_limited in H. injection H as <- _.
  unfold zlen. rewrite firstn_length. lia.
Qed.
Example decompressor_contract_needed :
  m_out (decompress_cert rle_dec_unlimited [200; 0] 10) = Err BadCertificateErr /\
  m_alloc (decompress_cert rle_dec_unlimited [200; 0] 10) = 200 /\
  ~ (forall d lim out clean, 0 <= lim -> rle_dec_unlimited d lim = Ok (out, clean) -> zlen out <= lim).
Proof.
  split; [vm_compute; reflexivity|]. split; [vm_compute; reflexivity|].
  intros H. specialize (H [200; 0] 10 (rle_expand [200; 0]) true ltac:(lia) eq_refl).
  vm_compute in H. apply H. reflexivity.
Qed.
Example decompressor_limited_example :
  decompress_cert rle_dec_limited [200; 0] 10 = (Err BadCertificateErr, 1, 11) /\
  decompress_cert rle_dec_limited [3; 7; 2; 9] 5 = (Ok [7; 7; 7; 9; 9], 1, 5).
Proof. split; vm_compute; reflexivity. Qed.
Example cert_oracle_hyp_satisfiable : forall c : list Z, (fun _ : list Z => @None exn) c <> Some OutOfFuel.
Proof. intros c. discriminate. Qed.
Example ext_handler_hyp_satisfiable : forall t, top 3 9 2 2 (h_client_hello t).
Proof. exact h_client_hello_top. Qed.
Example work_bytes_example : bytes_ok [0;0;0;5;0;3;0;0;0; 0;16;0;5;0;3;2;104;50; 171;171;0;2;7;7].
Proof. unfold bytes_ok. repeat constructor; lia. Qed.
Example work_client_hello_exts_example :
  parse_client_hello_exts [0;0;0;5;0;3;0;0;0; 0;16;0;5;0;3;2;104;50; 171;171;0;2;7;7]
  = (Ok [(0, [(0, [])]); (16, [(0, [104; 50])]); (43947, [(-3, [7; 7])])], 27, 42).
Proof. vm_compute. reflexivity. Qed.
Example work_ext_list_nodup_example :
  parse_ext_list_nodup [171;171;0;1;7; 171;172;0;0] = (Ok [(43947, [7]); (43948, [])], 11, 13) /\
  parse_ext_list_nodup [171;171;0;1;7; 171;171;0;0] = (Err DecodeError, 11, 13) /\
  parse_ext_list [171;171;0;1;7; 171;171;0;0] = (Ok [(43947, [7]); (43947, [])], 9, 11).
Proof. repeat split; vm_compute; reflexivity. Qed.
Example work_client_hello_duplicate_example :
  parse_client_hello_exts [0;0;0;0; 171;171;0;0; 0;0;0;0] = (Err DecodeError, 16, 18).
Proof. vm_compute. reflexivity. Qed.
Example work_sni_zero_length_example :
  parse_sni [0;6;0;0;0;0;0;0] = (Ok (Some [(0, []); (0, [])]), 10, 10) /\
  parse_sni [0;6;0;0;0;0;0] = (Err DecodeError, 8, 8).
Proof. split; vm_compute; reflexivity. Qed.
Example defrag_moves_quadratic :
  (match defrag_get_messages (empty_msgs 100) with Ok (_, _, it, al, mv) => (it, al, mv) | Err _ => (0, 0, 0) end)
    = (101, 400, 19800) /\
  (match defrag_get_messages (empty_msgs 200) with Ok (_, _, it, al, mv) => (it, al, mv) | Err _ => (0, 0, 0) end)
    = (201, 800, 79600).
Proof.
  assert (F : forall k, (k <= length (empty_msgs k))%nat)
    by (intros k; pose proof (zlen_empty_msgs k); unfold zlen in *; lia).
  unfold defrag_get_messages. rewrite !defrag_empty_msgs by apply F. split; reflexivity.
Qed.
