(* Property C13 -- the theorems, about Model/C13_Resume.v.  A history is a list of events (connection
   attempt offering any client Session object, close clean/fatal/abrupt, clock, server reconfiguration incl.
   ticket-key rotation and cache parameters, ticket alteration/forgery, deviating-client events);
   `reachable w` = w is the world after ANY history from ANY initial configuration.
   The model describes the tree with /repo 51120a0 (client fallback, F1) and e172bf7 (TLS 1.3
   ticket lifetime); before those commits the statements fail on wit_f1_history and wit_13_expired (see comments).
   Every connection of every history is `conn_delta w cp sv` for a reachable w, and its log
   entry is `d_log (conn_delta ...)`, so the statements below speak about all of them.
   ideal_aead = H-ideal-AEAD (symbolic): open succeeds exactly on seals under the same key. *)
From Coq Require Import ZArith List Bool Lia.
From TV Require Import Model.C13_Resume Proofs.C13_Decide Proofs.C13_Hist Proofs.C13_Thms.
Import ListNotations.
Open Scope Z_scope.

Section C13.
Variable blob : Type.
Variable seal : Z -> Z -> payload -> blob.
Variable open : Z -> blob -> option payload.
Variable tamper : blob -> Z -> blob.
Variable junk : Z -> blob.

(* resume_sound + resume_preserves, TLS <= 1.2 (session ID and ticket), all histories:
   the server resumes => suite still acceptable and offered, SNI / SRP user / EtM / EMS consistent,
   found in the cache (resumable, not older than maxAge) or under a CURRENT ticket key within the
   lifetime (ByBoth: both, the cached object is used, /repo 4da1727), and it stems from a connection r0 of the history that completed, whose suite, EMS, EtM,
   server name, client identity and master secret the resumed connection has. *)
Theorem resume_sound_and_preserves_ideal : ideal_aead blob seal open tamper junk ->
  forall w cp sv cr,
  reachable blob seal open tamper junk w -> zget (w_servers w) (cp_srv cp) = Some sv ->
  let r := d_log blob (conn_delta blob seal open w cp sv) in
  r_out r = ODone true cr -> r_ver r < 4 ->
  exists h s o,
    r_hello r = Some h /\ r_sview r = Some s /\ r_src r = Some o /\
    zmem (s_suite s) (o_acc cp) = true /\ hello_consistent s h /\
    match o with
    | ByCache => accepted_by_cache blob (sv_cfg sv) (sv_store sv) h (w_now w) s
    | ByTicket k => accepted_by_ticket blob open (sv_cfg sv) h (w_now w) k s
    | ByBoth k => accepted_by_both blob open (sv_cfg sv) (sv_store sv) h (w_now w) k s
    | ByPsk _ => False
    end /\
    exists r0 v0, In r0 (w_log w) /\ is_done (r_out r0) /\ r_sview r0 = Some v0 /\ same_security s v0 /\
                  (o = ByCache \/ (exists k, o = ByBoth k) -> r_out r0 = ODone false false /\ v0 = s).
Proof.
  intros I w cp sv cr R Z. pose proof (reachable_inv R) as HI. cbv zeta.
  destruct (conn_delta_case blob seal open w cp sv); show_delta; intros Hout Hver; try discriminate Hout.
  { (* case_done13 *) lia. }
  (* case_resumed12 *)
  pose proof (inv_servers HI sv (zget_in Z)) as Hsv.
  destruct (server_try_resume_sound (proj1 Hsv) TR) as [Hacc [Hcons Hpath]].
  exists h, s, o. do 5 (split; [reflexivity || assumption|]). split; [exact Hpath|].
  assert ((o = ByCache \/ exists k, o = ByBoth k) \/ exists k, o = ByTicket k) as [Ho|[k ->]]
    by (destruct o; [eauto..|destruct Hpath]).
  - (* by ID: the cached object itself was stored by a completed full handshake *)
    destruct (accepted_cached Hpath Ho) as [e [A [<- _]]]. destruct (entry_origin Hsv A) as [r0 [R1 [R2 R3]]].
    exists r0, (ce_sess e). split; [exact R1|]. split; [rewrite R2; exists false, false; reflexivity|].
    split; [exact R3|]. split; [repeat split|auto].
  - (* by ticket: the session is the payload of a ticket the client holds *)
    destruct Hpath as [b [p [HT [_ [O [_ ->]]]]]].
    destruct (opened_offer_origin I HI CO (or_introl HT) O) as [r0 [sid0 [R1 [R2 R3]]]].
    exists r0, (sess_of_payload p sid0). do 3 (split; [assumption|]). split; [repeat split|].
    intros [Hc|[k' Hc]]; discriminate Hc.
Qed.

(* TLS 1.3 PSK, all histories.  resume_sound is complete: current key, ticket version, WITHIN LIFETIME
   (holds since /repo e172bf7; before that commit a ticket with lifetime 100 s resumed 1000 s
   later), PRF hash, binder secret, issuing connection completed.
   resume_preserves is PARTIAL: client identity / hash / EMS / EtM carried over; server name and
   cipher suite of the issuing connection are not (RFC 8446 permits; refuted below, known finding). *)
Theorem resume_sound_tls13_and_preserves_partial_ideal : ideal_aead blob seal open tamper junk ->
  forall w cp sv cr,
  reachable blob seal open tamper junk w -> zget (w_servers w) (cp_srv cp) = Some sv ->
  let r := d_log blob (conn_delta blob seal open w cp sv) in
  r_out r = ODone true cr -> 4 <= r_ver r ->
  exists h b bk k p s,
    r_hello r = Some h /\ h_psk h = Some (b, bk) /\ r_sview r = Some s /\ r_src r = Some (ByPsk k) /\
    In k (sv_keys (sv_cfg sv)) /\ open k b = Some p /\ p_ver p = 4 /\
    w_now w <= p_created p + sv_life (sv_cfg sv) /\ p_hash p = o_fhash cp /\ bk = p_ms p /\
    exists r0 v0, In r0 (w_log w) /\ is_done (r_out r0) /\ r_sview r0 = Some v0 /\
                  s_ccert s = s_ccert v0 /\ s_hash s = s_hash v0 /\ s_ems s = true /\ s_etm s = false /\
                  s_origin s = s_origin v0.
Proof.
  intros I w cp sv cr R _. pose proof (reachable_inv R) as HI. cbv zeta.
  destruct (conn_delta_case blob seal open w cp sv); show_delta; intros Hout Hver; try discriminate Hout.
  - (* case_done13 *) destruct psk as [[k p]|]; [|discriminate Hout].
    destruct (server_psk_sound PS) as [b [bk [HP [K [O [Vp [Lf [Hh B]]]]]]]].
    exists h, b, bk, k, p, (view13 blob w cp sv h (Some (k, p))).
    do 10 (split; [reflexivity || assumption|]).
    destruct (opened_offer_origin I HI CO (or_intror (ex_intro _ bk HP)) O) as [r0 [sid0 [R1 [R2 R3]]]].
    exists r0, (sess_of_payload p sid0). repeat split; assumption || (symmetry; exact Hh).
  - (* case_resumed12 *) lia.
Qed.

(* a declined offer leaves no trace: a connection that completes without resumption (whatever ticket /
   ID / PSK was offered and for whatever reason it was declined: expired, other PRF hash, wrong version,
   altered, foreign key, invalidated) has, on the server, only the client identity proved on THIS
   connection, its own origin, the hello's server name, the negotiated suite, and is not marked resumed
   on either end *)
Theorem declined_leaves_no_trace :
  forall w cp sv cr,
  let r := d_log blob (conn_delta blob seal open w cp sv) in
  r_out r = ODone false cr ->
  cr = false /\
  exists h s, r_hello r = Some h /\ r_sview r = Some s /\
    s_ccert s = (if sv_reqcert (sv_cfg sv) then cp_ccert cp else 0) /\
    s_origin s = Z.of_nat (length (w_log w)) /\ s_suite s = o_fsuite cp /\ s_sni s = h_sni h /\
    r_src r = None.
Proof.
  intros w cp sv cr. cbv zeta.
  destruct (conn_delta_case blob seal open w cp sv); show_delta; intros Hout; try discriminate Hout.
  - (* case_done13 *) destruct psk as [[k p]|]; [discriminate Hout|]. injection Hout as <-.
    split; [reflexivity|]. eexists. eexists. repeat split.
  - (* case_full12 *) injection Hout as <-. split; [reflexivity|]. eexists. eexists. repeat split.
Qed.

(* altered, forged or foreign ticket bytes: the server declines (and tries nothing else) *)
Theorem ticket_forgery_rejected_ideal : ideal_aead blob seal open tamper junk ->
  forall cfg st acc (h : hello blob) now b,
  h_ticket h = Some b -> not_under_current_key seal tamper junk (sv_keys cfg) b ->
  server_try_resume blob open cfg st acc h now = (st, SFull).
Proof.
  intros I cfg st acc h now b HT HN. apply server_try_resume_unopenable with (b := b); [exact HT|].
  exact (not_current_unopenable blob seal open tamper junk I _ _ HN).
Qed.

Theorem psk_forgery_rejected_ideal : ideal_aead blob seal open tamper junk ->
  forall cfg cp (h : hello blob) now b bk,
  h_psk h = Some (b, bk) -> not_under_current_key seal tamper junk (sv_keys cfg) b ->
  server_psk blob open cfg cp h now = S13Full.
Proof.
  intros I cfg cp h now b bk HP HN. apply server_psk_unopenable with (b := b) (bk := bk); [exact HP|].
  exact (not_current_unopenable blob seal open tamper junk I _ _ HN).
Qed.

(* unknown session ID: declined *)
Theorem unknown_session_id_declined :
  forall cfg st acc (h : hello blob) now,
  h_ticket h = None -> cache_find (h_sid h) (purge (sv_maxage cfg) now st) = None ->
  snd (server_try_resume blob open cfg st acc h now) = SFull.
Proof.
  intros cfg st acc h now HT Hno. unfold server_try_resume. rewrite HT. cbn [negb andb].
  destruct ((nz (h_sid h) && sv_usecache cfg) || false); [|reflexivity].
  destruct (sv_usecache cfg && nz (h_sid h)); [|reflexivity].
  unfold cache_get. rewrite Hno. reflexivity.
Qed.

(* invalidated_never_resumes, server side: after any connection bound to the cached session died
   abnormally at the server (cr_ks), no connection of any continuation resumes it by ID, nor by a
   ticket matched with the cached object.  Since /repo 4da1727 ticket resumptions whose hello names the
   cached session are bound to it (ByBoth), so their failure counts; before, the history
   [full; close; resumed from ticket; abrupt close at the server; ticket expires; offer by ID] resumed
   (see ticketconn_failure_reaches_cache).  Tickets alone stay stateless: refuted at the end.  It holds whatever
   the AEAD: the premise ideal_aead is not used. *)
Theorem invalidated_never_resumes_ideal : ideal_aead blob seal open tamper junk ->
  forall w cp sv cr crec sid,
  reachable blob seal open tamper junk w -> zget (w_servers w) (cp_srv cp) = Some sv ->
  In crec (w_conns w) -> cr_ks crec = true -> cr_sobj crec = Some sid -> cr_srv crec = cp_srv cp ->
  let r := d_log blob (conn_delta blob seal open w cp sv) in
  r_out r = ODone true cr -> r_ver r < 4 ->
  r_src r = Some ByCache \/ (exists k, r_src r = Some (ByBoth k)) ->
  forall s, r_sview r = Some s -> s_sid s <> sid.
Proof.
  intros _ w cp sv cr crec sid R Z Hin Hks Hso Hsrv. pose proof (reachable_inv R) as HI. cbv zeta.
  destruct (conn_delta_case blob seal open w cp sv); show_delta; intros Hout Hver Hsrc s' Hs Heq;
    try discriminate Hout.
  { (* case_done13 *) lia. }
  (* case_resumed12 *) injection Hs as <-.
  (* resumed through the cache: the entry is resumable; the invariant says it is not *)
  destruct (server_try_resume_sound (proj1 (inv_servers HI sv (zget_in Z))) TR) as [_ [_ Hacc]].
  destruct (accepted_cached Hacc) as [e [A [B C]]].
  { destruct Hsrc as [Hsrc|[k Hsrc]]; injection Hsrc as ->; eauto. }
  rewrite (inv_ks HI crec Hin sid sv Hks Hso) in C;
    [discriminate C|rewrite Hsrv; exact Z|exact A|rewrite B; exact Heq].
Qed.

(* invalidated_never_resumes, client side: a Session object whose resumable flag is cleared is not
   offered and the connection is not a resumption (any version, any mechanism); it holds of every world: neither
   reachable nor the lookup of the server is used *)
Theorem invalidated_never_offered_by_client :
  forall w cp sv i c0,
  reachable blob seal open tamper junk w -> zget (w_servers w) (cp_srv cp) = Some sv ->
  cp_offer cp = Some i -> zget (w_clients w) i = Some c0 -> c_res c0 = false ->
  let r := d_log blob (conn_delta blob seal open w cp sv) in
  r_offer_valid r = false /\ forall cr, r_out r <> ODone true cr.
Proof.
  intros w cp sv i c0 _ _ Hoff Hc0 Hres. cbv zeta.
  pose proof (conn_delta_case blob seal open w cp sv) as C.
  (* the object fails valid(): it is not used, so no ticket, PSK or session ID of it reaches the server *)
  assert (c_valid blob c0 = false) as Hv by (unfold c_valid; rewrite Hres; reflexivity).
  assert (forall h c, client_offer blob cp (offered blob w cp) (w_now w) (w_fresh w) <> Offer blob h (Some c)) as Unused.
  { intros h c CO. destruct (os_used (client_offer_sound CO) c eq_refl) as [c1 [E [V _]]].
    unfold offered in E. rewrite Hoff, Hc0 in E. congruence. }
  split.
  - destruct C; show_delta; rewrite Hoff, Hc0; exact Hv.
  - intros cr. destruct C; show_delta; intros Hout; try discriminate Hout.
    + (* case_done13 *) destruct psk as [[k p]|]; [|discriminate Hout].
      destruct (server_psk_sound PS) as [b [bk [HP _]]].
      destruct (os_psk (client_offer_sound CO) b bk HP) as [c [t [-> _]]]. exact (Unused _ _ CO).
    + (* case_resumed12 *) exact (Unused _ _ CO).
Qed.

(* fallback_completes -- FULL (session ID, TLS <= 1.2 ticket, TLS 1.3 PSK): whenever the server
   declines (decision SFull / S13Full) and a full negotiation is possible, both ends complete a full
   handshake.  Before /repo 51120a0 the TLS <= 1.2 ticket case was refuted (finding F1): history
   [full handshake with ticket under key 1; clean close; server replaces the key by 7; the client offers
   the session] ended with the client's unexpected_message alert; see fallback_f1_history_completes. *)
Theorem fallback_completes :
  forall w cp sv h used,
  reachable blob seal open tamper junk w -> zget (w_servers w) (cp_srv cp) = Some sv ->
  client_offer blob cp (offered blob w cp) (w_now w) (w_fresh w) = Offer blob h used ->
  o_fsuite cp <> 0 -> cp_half cp = 0 (* the transport delivers the handshake *) ->
  let r := d_log blob (conn_delta blob seal open w cp sv) in
  let v := Z.min (cp_maxv cp) (sv_maxv (sv_cfg sv)) in
  (4 <= v -> server_psk blob open (sv_cfg sv) cp h (w_now w) = S13Full -> r_out r = ODone false false) /\
  (v < 4 -> snd (server_try_resume blob open (sv_cfg sv) (sv_store sv) (o_acc cp) h (w_now w)) = SFull ->
   r_out r = ODone false false).
Proof.
  intros w cp sv h used R _ CO Hfs Hhalf. cbv zeta. unfold offered in CO.
  assert (client_resume_branch blob used h (if sv_usecache (sv_cfg sv) then w_fresh w + 1 else 0) = false) as B
    by (apply (no_misread (reachable_inv R) CO); destruct (sv_usecache _); auto).
  (* the decisions are given, so the attempt is computed *)
  apply Z.eqb_neq in Hfs. unfold conn_delta. cbv beta zeta. rewrite CO.
  split; intros Hv Hd.
  - apply Z.leb_le in Hv. rewrite Hv, Hfs, Hd. reflexivity.
  - apply Z.leb_gt in Hv. rewrite Hv. destruct (server_try_resume _ _ _ _ _ _ _) as [st1 d]. cbn [snd] in Hd.
    rewrite Hd, Hfs, B, Hhalf. reflexivity.
Qed.

(* Connections overlap: a history may hold several connections open at once (close events name any open
   connection) and may hold a full handshake up before the client's Finished reaches the server (cp_half).
   A held-up handshake leaves nothing resumable: no cache entry, no ticket. *)
Theorem suspended_leaves_nothing_resumable :
  forall w cp sv,
  let d := conn_delta blob seal open w cp sv in
  r_out (d_log blob d) = OSuspended ->
  d_issue blob d = None /\ r_sview (d_log blob d) = None /\
  forall st e, d_store blob d = Some st -> In e st -> In e (sv_store sv).
Proof.
  intros w cp sv. cbv zeta.
  destruct (conn_delta_case blob seal open w cp sv); show_delta; intros Hout; try discriminate Hout.
  (* case_suspended12 *) repeat split. intros st e Hs. injection Hs as <-. exact (try_resume_store_in TR).
Qed.

(* "a session enters the cache only after both Finished messages verified": in every reachable world every
   cache entry stems from a connection of the history that completed as a full handshake *)
Theorem cache_only_completed :
  forall w e, reachable blob seal open tamper junk w -> entries blob w e ->
  exists r, In r (w_log w) /\ r_out r = ODone false false /\ r_sview r = Some (ce_sess e).
Proof.
  intros w e R [sv [Hs He]].
  exact (entry_origin (inv_servers (reachable_inv R) sv Hs) He).
Qed.

(* "resumable is monotone: once cleared by a fatal error it is never set again" (server's cached object;
   connections sharing it may close in any order, cleanly or not) *)
Theorem resumable_monotone_server :
  forall w crec sid sv e,
  reachable blob seal open tamper junk w -> In crec (w_conns w) -> cr_ks crec = true -> cr_sobj crec = Some sid ->
  zget (w_servers w) (cr_srv crec) = Some sv -> In e (sv_store sv) -> s_sid (ce_sess e) = sid ->
  ce_res e = false.
Proof. intros w crec sid sv e R Hin Hks Hso Z. exact (inv_ks (reachable_inv R) crec Hin sid sv Hks Hso Z e). Qed.

(* honest ticket offer resumes (completeness of acceptance, all inputs): a ticket sealed under a current
   key, within lifetime, suite still acceptable, offered with a consistent ClientHello (suite offered, SRP
   user / server name / EtM / EMS as in the session) is accepted and the resumed session is exactly the
   payload's, SRP user name included.  Server without SessionCache (with one: ByBoth may use the cached
   object).  For SRP sessions this became true with /repo 19b1cb2. *)
Theorem honest_ticket_offer_resumes_ideal : ideal_aead blob seal open tamper junk ->
  forall cfg st acc (h : hello blob) now k n p,
  h_ticket h = Some (seal k n p) -> In k (sv_keys cfg) -> now <= p_created p + sv_life cfg ->
  sv_usecache cfg = false ->
  zmem (p_suite p) acc = true -> hello_consistent (sess_of_payload p (h_sid h)) h ->
  server_try_resume blob open cfg st acc h now = (st, SResume (sess_of_payload p (h_sid h)) (ByTicket k)) /\
  s_srp (sess_of_payload p (h_sid h)) = p_srp p.
Proof.
  intros I cfg st acc h now k n p HT K L U A C. split; [|reflexivity].
  unfold server_try_resume. rewrite HT. rewrite orb_true_r.
  unfold ticket_to_session. rewrite (try_decrypt_seal blob seal open tamper junk I _ _ _ _ K).
  replace (p_created p + sv_life cfg <? now) with false by (symmetry; apply Z.ltb_ge; exact L).
  rewrite U. cbn [andb]. cbn [s_suite sess_of_payload]. rewrite A. cbn [negb].
  rewrite (consistency_complete blob _ (ByTicket k) h C). reflexivity.
Qed.

End C13.

(* the hypotheses are satisfiable: the symbolic AEAD used to run the model *)
Example ideal_aead_instance : ideal_aead sblob Sealed sopen Tampered Junk.
Proof. exact sym_aead_ideal. Qed.

(* The statements about one history are checked by running the model: the n witnesses are read off the
   run, then every conjunct is evaluated.  apply conj and not split: split also closes an equation, by
   conversion without the VM. *)
Tactic Notation "by_running" integer(n) := cbv zeta; do n eexists; repeat apply conj; vm_compute; (reflexivity || discriminate).

(* the history on which fallback_completes failed before the client repair /repo 51120a0 completes *)
Example fallback_f1_history_completes :
  let w := srun [wit_cfg 3 [1] 400] wit_f1_history in
  let cp := wit_cp 3 (Some 0) 1 49199 in
  exists sv h used,
    zget (w_servers w) 0 = Some sv /\
    client_offer sblob cp (offered sblob w cp) (w_now w) (w_fresh w) = Offer sblob h used /\
    h_ticket h <> None /\
    snd (server_try_resume sblob sopen (sv_cfg sv) (sv_store sv) (o_acc cp) h (w_now w)) = SFull /\
    r_out (d_log sblob (conn_delta sblob Sealed sopen w cp sv)) = ODone false false.
Proof. by_running 3. Qed.

(* the history that resumed before /repo e172bf7 against the TLS 1.3 lifetime conjunct (ticketLifetime 100 s,
   offered 1000 s later by a client that keeps the ticket) is declined and completes as a full handshake *)
Example tls13_expired_history_declined :
  let w := srun [wit_cfg 4 [1] 400] wit_13_expired in
  let cp := wit_cp 4 (Some 0) 1 4865 in
  exists sv h,
    zget (w_servers w) 0 = Some sv /\
    r_hello (d_log sblob (conn_delta sblob Sealed sopen w cp sv)) = Some h /\ h_psk h <> None /\
    r_out (d_log sblob (conn_delta sblob Sealed sopen w cp sv)) = ODone false false.
Proof. by_running 2. Qed.

(* the history of finding ticket-connection-failure-not-propagated-to-cache (resumed before /repo 4da1727) falls back *)
Example ticketconn_failure_reaches_cache :
  let w := srun [wit_cfg_both] wit_ticketconn_history in
  let cp := wit_cp 3 (Some 0) 1 49199 in
  exists sv r1 h,
    zget (w_servers w) 0 = Some sv /\
    nth_error (w_log w) 1 = Some r1 /\ r_src r1 = Some (ByBoth 1) /\ r_out r1 = ODone true true /\
    r_hello (d_log sblob (conn_delta sblob Sealed sopen w cp sv)) = Some h /\
    h_ticket h = None /\ h_sid h <> 0 /\
    r_out (d_log sblob (conn_delta sblob Sealed sopen w cp sv)) = ODone false false.
Proof. by_running 3. Qed.

(* resume_preserves (server name, suite) REFUTED for TLS 1.3 (design level: RFC 8446 permits; known
   finding); the client identity is carried over *)
Theorem resume_preserves_tls13_sni_suite_refuted :
  let w := srun [wit_cfg 4 [1] 400] wit_13_sni in
  let cp := wit_cp 4 (Some 0) 2 4867 in
  exists sv s r0 v0,
    zget (w_servers w) 0 = Some sv /\
    r_out (d_log sblob (conn_delta sblob Sealed sopen w cp sv)) = ODone true true /\
    r_sview (d_log sblob (conn_delta sblob Sealed sopen w cp sv)) = Some s /\
    nth_error (w_log w) 0 = Some r0 /\ r_sview r0 = Some v0 /\
    s_ccert s = s_ccert v0 /\ s_ccert s = 1 /\ s_sni s <> s_sni v0 /\ s_suite s <> s_suite v0.
Proof. by_running 4. Qed.

(* the SRP history that ended in the server's handshake_failure before /repo 19b1cb2 (tickets carried no
   SRP user name) resumes with the user name preserved *)
Theorem honest_srp_ticket_offer_resumes :
  let w := srun [wit_cfg 3 [1] 400] wit_srp_history in
  let cp := wit_cp_srp (Some 0) in
  exists sv h used b p s,
    zget (w_servers w) 0 = Some sv /\
    client_offer sblob cp (offered sblob w cp) (w_now w) (w_fresh w) = Offer sblob h used /\
    h_ticket h = Some b /\ sopen 1 b = Some p /\ h_srp h = 1 /\
    r_out (d_log sblob (conn_delta sblob Sealed sopen w cp sv)) = ODone true true /\
    r_sview (d_log sblob (conn_delta sblob Sealed sopen w cp sv)) = Some s /\ s_srp s = 1.
Proof. by_running 6. Qed.

(* invalidated_never_resumes REFUTED for the ticket path at the server (inherent to stateless tickets,
   RFC 5077; known finding) *)
Theorem invalidated_never_resumes_ticket_refuted :
  let w := srun [wit_cfg 3 [1] 400] wit_ticket_survives in
  let cp := wit_cp 3 (Some 0) 1 49199 in
  exists sv crec,
    zget (w_servers w) 0 = Some sv /\ nth_error (w_conns w) 0 = Some crec /\ cr_ks crec = true /\
    r_out (d_log sblob (conn_delta sblob Sealed sopen w cp sv)) = ODone true true /\
    r_src (d_log sblob (conn_delta sblob Sealed sopen w cp sv)) = Some (ByTicket 1).
Proof. by_running 2. Qed.
