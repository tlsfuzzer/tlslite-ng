(* Property C20.  What is evaluated on the tables, and how it is lifted, is in Proofs/C20_Suites.v.

   Domain (finite, explicit in every statement): s in all_suites (every id in
   CipherSuite.ietfNames or in any CipherSuite.*Suites list of the tree under test),
   v in all_versions = [0..4] for (3,0)..(3,4), with  negotiable s v = true : some
   server credential class may select s at version v, or some client accepts s in a
   ServerHello of version v (the handshake's own filters under all-permissive settings).
   Gen/Suites.v is regenerated from /repo on every run; meaning_of s parses the
   independently written IANA name of s (Spec/Iana.v). *)
From Coq Require Import ZArith List Bool String.
From TV Require Import Gen.Suites Spec.Iana Model.C20_Classify Proofs.C20_Suites.
Import ListNotations.
Open Scope string_scope.
Open Scope Z_scope.

(* nothing below is read through a default value; every list of the library has a stated meaning *)
Theorem tables_wellformed : tables_wf = true /\ semantics_cover = true.
Proof. split; vm_compute; reflexivity. Qed.

(* the hypotheses are satisfiable: TLS_ECDHE_RSA_WITH_AES_128_GCM_SHA256 in TLS 1.2 *)
Example negotiable_example : In 49199 all_suites /\ In 3 all_versions /\ negotiable 49199 3 = true.
Proof. split; [|split]; vm_compute; auto 200. Qed.

(* key length, IV length, cipher constructor, MAC length and digest (RecordLayer._getCipherSettings,
   _getMacSettings), the PRF really applied by calc_key for every label (key expansion, master secret,
   extended master secret, Finished) / the TLS 1.3 key-schedule hash, the exporter, the deprecated
   calc* helpers, the TLS 1.3 KeyUpdate (hash and length of the next traffic secret, of the new key and
   IV, in all four role/direction wrappers), the TLS 1.3 PSK rule (filter_for_prfs and the server's
   selection guard accept a PSK for the suite exactly when its hash is the suite's), and the
   key-exchange class chosen by client and server,
   are those denoted by the IANA name *)
Theorem classification_matches_name : forall s v,
  In s all_suites -> In v all_versions -> negotiable s v = true ->
  exists m r, meaning_of s = Some m /\ row_of s = Some r /\
    cipher_settings_ok m r = true /\ mac_settings_ok m r = true /\ prf_ok m r v = true /\
    labels_ok m r v = true /\ exporter_ok m r v = true /\ deprecated_ok m r v = true /\
    keyupdate_ok m r v = true /\ psk_ok m r v = true /\ cert_ok m r = true /\ chk_dispatch s = true.
Proof.
  intros s v Hs Hv Hn.
  destruct (classification_lifted s v (pp_classification s v (pair_checked s v Hs Hv Hn))) as (m & r & H).
  pose proof (sp_dispatch s (suite_checked s v Hs Hv Hn)) as HD.
  exists m, r. tauto.
Qed.

(* a suite is negotiable only in a version that defines it: TLS 1.3 suites exactly in TLS 1.3,
   AEAD and SHA-2 MAC suites not before TLS 1.2 *)
Theorem never_in_undefined_version : forall s v,
  In s all_suites -> In v all_versions -> negotiable s v = true ->
  (exists m, meaning_of s = Some m /\ m_minv m <= v <= m_maxv m) /\ chk_version_classes s v = true.
Proof.
  intros s v Hs Hv Hn. pose proof (pair_checked s v Hs Hv Hn) as P.
  split; [exact (version_lifted s v (pp_version s v P))|exact (pp_version_classes s v P)].
Qed.

(* filterForVersion by itself, for every known id (negotiable or not) *)
Theorem filter_for_version_sound : forall s v,
  In s all_suites -> In v all_versions -> chk_ffv s v = true.
Proof.
  intros s v Hs Hv. pose proof ffv_all as H. rewrite forallb_forall in H.
  exact (H (s, v) (in_pairs s v Hs Hv)).
Qed.

(* cipherNames=[w] / macNames=[w] / keyExchangeNames=[w] admit exactly the suites whose name denotes w
   ("aead" is the MAC word of AEAD suites; TLS 1.3 suites are tied to no key-exchange word) *)
Theorem settings_words_match : forall s v,
  In s all_suites -> In v all_versions -> negotiable s v = true ->
  chk_cipher_words s v = true /\ chk_mac_words s v = true /\ chk_kx_words s v = true.
Proof.
  intros s v Hs Hv Hn. pose proof (pair_checked s v Hs Hv Hn) as P.
  exact (conj (pp_cipher_words s v P) (conj (pp_mac_words s v P) (pp_kx_words s v P))).
Qed.

(* getCipherName() is the cipher word of the name; getMacName() is the HMAC word of the name, and
   None (or "aead") for an AEAD suite *)
Theorem accessors_match : forall s v,
  In s all_suites -> In v all_versions -> negotiable s v = true ->
  chk_cipher_accessor s = true /\ chk_mac_accessor s = true.
Proof.
  intros s v Hs Hv Hn. pose proof (suite_checked s v Hs Hv Hn) as S.
  exact (conj (sp_cipher_accessor s S) (sp_mac_accessor s S)).
Qed.

(* membership in each of the library's *Suites lists equals the stated meaning of that list
   (Model/C20_Classify.v list_semantics) evaluated on the parsed name *)
Theorem list_membership_matches_name : forall s v,
  In s all_suites -> In v all_versions -> negotiable s v = true -> chk_lists s = true.
Proof. intros s v Hs Hv Hn. exact (sp_lists s (suite_checked s v Hs Hv Hn)). Qed.

(* every negotiable suite is in exactly one cipher list, one MAC list (sha/sha256/sha384/md5/aead),
   one key-exchange list and one version list *)
Theorem lists_partition : forall s v,
  In s all_suites -> In v all_versions -> negotiable s v = true -> chk_partition s = true.
Proof. intros s v Hs Hv Hn. exact (sp_partition s (suite_checked s v Hs Hv Hn)). Qed.

(* resumed connections (TLS <= 1.2) take the suite for the key block and the Finished values from the session
   being resumed, on both sides; the client really sends illegal_parameter and aborts when the ServerHello names
   another suite; full handshakes use the negotiated suite; a server with several key pairs filters the suites by the
   certificate it is about to send; the client refuses (illegal_parameter) a certificate whose key type is not one
   the suite accepts -- which types those are is part of classification_matches_name (chk_dispatch)
   (structure of tlsconnection.py, read from its ast) *)
Theorem resumption_uses_session_suite : chk_suite_sources = true.
Proof. exact suite_sources_ok. Qed.

(* beyond the property (all known ids with a registered meaning, negotiable or not): an id whose
   record-layer settings, accessor names or membership in the lists consulted by the record layer, the
   key derivation and the version filter deviate from its name can never be negotiated.  (Today exactly
   0x003E, 0x0040, 0x0068, 0x006A: in aes*Suites but in no MAC list; reported in the evidence notes.) *)
Theorem static_defects_not_negotiable : forall s v,
  In s all_suites -> In v all_versions -> chk_static s = false -> negotiable s v = false.
Proof.
  intros s v Hs Hv Hc. destruct (negotiable s v) eqn:Hn; [|reflexivity].
  rewrite (negotiable_static s v Hs Hv Hn) in Hc. discriminate.
Qed.

(* Until /repo commit d5db436 ("fix: AEAD suites 0x00A3/0x00A5 must not be listed as HMAC-SHA384
   suites") the MAC parts of settings_words_match, accessors_match, list_membership_matches_name and
   lists_partition were false of the code at s = 163 = 0x00A3 TLS_DHE_DSS_WITH_AES_256_GCM_SHA384,
   v = 3 (in sha384Suites and in aeadSuites). *)
