(* Property C06 -- handshake messages are accepted only in the order the protocol allows.

   Model.C06_HsOrder : the receive side of the handshake coroutines as a finite automaton over
                       record-level events (epoch, payload), parametric in the gate table;
   Gen.C06_Gates     : every self._getMsg(...) call site, every unexpected_message abort site with
                       its conditions, and the defragmenter pieces they rely on, regenerated from
                       /repo on each run;
   Spec.C06_HsGrammar: what the RFCs let an endpoint accept, as regular expressions.

   Every statement quantifies over ALL traces (lists of events of any length) or over ALL
   automaton states.  The finite product automaton is decided by vm_compute and lifted by the
   soundness lemma Proofs.C06_Sound.check_live_sound; the state-wise statements are proved for every
   gate table that meets a condition on its rows, which is evaluated on the table.

   Before /repo commit 8fbaa01 the inclusion, the TLS 1.3 Finished ordering and the TLS 1.3
   interleaving ban were false of the code, through six classes of deviating edges (NewSessionTicket
   accepted unannounced / from a client, announced ticket skipped, ChangeCipherSpec accepted
   with a partial message buffered, protected or interleaved TLS 1.3 ChangeCipherSpec ignored,
   first ServerHello/ClientHello not ending its record).  Traces through those edges are rejected
   since that commit: [former_deviation_traces_rejected]. *)
From Coq Require Import ZArith List Bool String.
From TV Require Import Model.C06_GateTypes Model.C06_HsOrder Spec.C06_HsGrammar Model.C06_Check
                       Gen.C06_Gates Proofs.C06_Sound Proofs.C06_Step Proofs.C06_Incl.
Import ListNotations.

(* The tables read from the source are the ones the automaton is built on: a widened, removed,
   reordered or added _getMsg call site, a changed condition of an ordering check, or a changed
   defragmenter primitive breaks one of these obligations. *)
Theorem gates_as_modelled : extracted_gates = modelled_gates.
Proof. vm_compute. reflexivity. Qed.
Theorem order_checks_as_modelled : extracted_order_checks = modelled_order_checks.
Proof. vm_compute. reflexivity. Qed.
Theorem defragmenter_as_modelled : extracted_defrag = modelled_defrag.
Proof. vm_compute. reflexivity. Qed.
Theorem early_data_as_modelled : extracted_early_data = modelled_early_data.
Proof. vm_compute. reflexivity. Qed.
Theorem gate_calls_as_modelled : extracted_gate_calls = modelled_gate_calls.
Proof. vm_compute. reflexivity. Qed.

(* Language inclusion, full: whatever trace makes the endpoint complete its handshake is a
   sequence the grammar allows -- every configuration, traces of any length. *)
Theorem accepted_subset_allowed : forall c w,
  In c all_cfgs -> completes modelled_gates c w = true -> allowed c w = true.
Proof. intros c w Hc Hd. exact (proj1 (incl_both c w Hc Hd)). Qed.

(* The traces that the code accepted before 8fbaa01 (one or two per deviation class) abort. *)
Theorem former_deviation_traces_rejected :
  Forall (fun x => let '(d, c, w) := x in
            completes modelled_gates c w = false /\ allowed c w = false) deviation_witnesses
  /\ completes modelled_gates ord13_cfg ord13_witness = false.
Proof.
  pose proof witnesses_rejected_all as H. apply andb_prop in H. destruct H as [H1 H2].
  rewrite forallb_forall in H1. split.
  - apply Forall_forall. intros [[d c] w] Hin. specialize (H1 _ Hin). cbn beta iota in H1.
    apply andb_prop in H1. destruct H1 as [A B]. apply negb_true_iff in A, B. split; assumption.
  - apply negb_true_iff. exact H2.
Qed.

(* Application data (empty or not, under any keys) offered at any handshake position is never
   delivered: the endpoint aborts, or -- a record that does not open, inside the early-data
   window of a TLS 1.3 server -- drops it without any change of state.  (Holds for every c: the
   hypothesis In c all_cfgs is not used.) *)
Theorem no_appdata_before_finished : forall c s e,
  In c all_cfgs -> handshaking s = true -> In e app_syms ->
  let s' := fst (step modelled_gates c s e) in
  is_abort s' = true \/ (ed s = true /\ s' = s).
Proof.
  intros c s e Hc Hh He. unfold app_syms in He. apply in_flat_map in He.
  destruct He as [ep [_ [<-|[<-|[]]]]]; apply noapp_t; try exact Hh; exact (app_gate_closed_at c s Hh).
Qed.

(* <= 1.2: every accepted trace contains exactly one ChangeCipherSpec, unprotected and with
   value 1, and exactly one Finished, after it, under the new keys, as its last event.
   1.3 (finished_order_tls13; for every trace since 8fbaa01): exactly one Finished, under the handshake
   keys, ending its record, as the last event. *)
Theorem ccs_finished_order : forall c w,
  In c all_cfgs -> completes modelled_gates c w = true -> matches (ccs_fin_order c) w = true.
Proof. intros c w Hc Hd. exact (proj2 (incl_both c w Hc Hd)). Qed.

Theorem finished_order_tls13 : forall c w,
  In c all_cfgs -> c_v13 c = true -> completes modelled_gates c w = true ->
  matches (seqs [Star (alts ([At AOther; At (ACcs E0); At (ACcs E1)] ++
                             (* dropped undecryptable records of the early-data window *)
                             (if c_early c then [At (AUndec E0); At (AUndec E1)] else [])));
                 At (AMsg E1 Fin MustAlign)]) w = true.
Proof.
  intros c w Hc Hv Hd. pose proof (ccs_finished_order c w Hc Hd) as H.
  unfold ccs_fin_order in H. rewrite Hv in H. exact H.
Qed.

(* After completion no event whatsoever leads back to a handshake position (for every c: the hypothesis
   In c all_cfgs is not used) ... *)
Theorem renegotiation_never_starts : forall c s e,
  In c all_cfgs -> is_post s = true -> post_or_abort (fst (step modelled_gates c s e)) = true.
Proof. intros c s e _. apply post_closed_t. Qed.

(* ... and the role's renegotiation trigger (HelloRequest to a client, ClientHello to a
   server) is answered by a no_renegotiation warning with the state kept (<=1.2), or by a
   fatal unexpected_message (1.3). *)
Theorem renegotiation_refused : forall c s a,
  In c all_cfgs -> is_post s = true -> buf s = BEmpty ->
  let r := step modelled_gates c s (rd_at c (pc s), PH (reneg_msg c) a) in
  if c_v13 c
  then pc (fst r) = P_Abort R_unexpected /\ snd r = None
  else pc (fst r) = P_Post /\ gotc (fst r) = gotc s /\ snd r = Some 100%Z.
Proof. exact reneg. Qed.

(* TLS 1.3 (before 8fbaa01 the code ignored a ChangeCipherSpec here): while a handshake
   message is partially received every record of another content type aborts (or, when it does
   not even open inside the early-data window, is dropped unread).  (Holds for every c: neither
   In c all_cfgs nor c_v13 c = true is used; v13_at c (pc s) = true is what counts.) *)
Theorem tls13_no_interleave : forall c s e p,
  In c all_cfgs -> c_v13 c = true ->
  handshaking s = true -> v13_at c (pc s) = true -> buf s = BPartial ->
  In p non_hs_payloads ->
  let s' := fst (step modelled_gates c s (e, p)) in
  is_abort s' = true \/ (ed s = true /\ s' = s).
Proof. intros c s e p _ _. apply interleave_t. Qed.

(* The early-data window (RecordLayer.early_data_ok; TLS 1.3 server, every configuration with
   or without early data offered, every automaton state in a handshake position, every event):
   - outside the window a record that does not open under the read keys aborts;
   - the window is open after an event only if it was open before (and the event was a dropped
     record, a TLS 1.3 ChangeCipherSpec or buffered bytes -- see Proofs.C06_Step.window_open_t) or
     the event was the first ClientHello of a configuration that offered early data;
   - the second ClientHello closes it.
   Together with accepted_subset_allowed (whose grammar admits undecryptable records only between
   the first ClientHello and the first record that opens / the second ClientHello) this is the
   statement that wrong-epoch records are never skipped elsewhere.  (Holds for every c: the hypothesis
   In c cfgs_server13 is not used.) *)
Theorem early_data_window_closes : forall c s e,
  In c cfgs_server13 -> handshaking s = true ->
  let s' := fst (step modelled_gates c s e) in
  (undec_sym c s e = true -> ed s = false -> is_abort s' = true) /\
  (ed s' = true -> is_abort s' = false ->
     ed s = true \/ (c_early c = true /\ pc s = S_CH)) /\
  (pc s = S13_CH2 -> (exists a, e = (E0, PH CH a)) -> ed s' = false \/ is_abort s' = true).
Proof.
  intros c s e _ Hh.
  split; [exact (undec_aborts_t _ c s e Hh (app_gate_closed_at c s Hh))|split].
  - intros He Hn. destruct (window_open_t _ c s e Hh He Hn) as [Hed _|Hc _ Hs _];
      [left; exact Hed|right; split; assumption].
  - intros Hp [a ->]. exact (second_hello_t _ c s a Hp).
Qed.

(* the hypotheses of the theorems above are satisfiable by non-trivial states *)
Example ex_honest_tls12_client :
  completes modelled_gates (cl12 KEcdhe true false false)
    [hs E0 SH; hs E0 CertN; hs E0 SKE; hs E0 CR; hs E0 SHD; hs E0 NST; ccs0; hs E1 Fin] = true
  /\ In (cl12 KEcdhe true false false) all_cfgs.
Proof. split; [vm_compute; reflexivity|unfold all_cfgs; apply in_or_app; left; in_list]. Qed.

Example ex_honest_tls13_server :
  completes modelled_gates (sv13 KCert13 true true false)
    [hs E0 CH; ccs0; hs E0 CH; hs E1 CertN; hs E1 CV; hs E1 Fin] = true
  /\ In (sv13 KCert13 true true false) all_cfgs.
Proof. split; [vm_compute; reflexivity|unfold all_cfgs; do 3 (apply in_or_app; right); in_list]. Qed.

Example ex_early_hrr_server :
  completes modelled_gates (sv13e KPsk13 false true false)
    [hs E0 CH; ccs0; (E2, PApp false); hs E0 CH; hs E1 Fin] = true
  /\ completes modelled_gates (sv13e KPsk13 false true false)
    [hs E0 CH; ccs0; hs E0 CH; (E2, PApp false); hs E1 Fin] = false
  /\ In (sv13e KPsk13 false true false) cfgs_server13.
Proof. split; [vm_compute; reflexivity|split; [vm_compute; reflexivity|unfold cfgs_server13; in_list]]. Qed.

Example ex_partial_state :
  let s := mk_st C13_CRCert BPartial false E1 false in
  handshaking s = true /\ v13_at (cl13 KCert13 false false) (pc s) = true.
Proof. vm_compute. split; reflexivity. Qed.
