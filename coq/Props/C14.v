(* Property C14 -- results do not depend on how the transport chunks, delays or blocks. *)
From Coq Require Import ZArith List Bool Lia.
From TV Require Import Base.Prelude Model.C14_Transport Model.C14_Buffered Model.C14_Defrag
  Proofs.C14_Transport Proofs.C14_Buffered Proofs.C14_Defrag.
From TV Require Import Base.PreludeFacts.
Import ListNotations.
Open Scope Z_scope.

(* RecordSocket.recv (and any program built from "read exactly n bytes": _recvHeader, recv,
   k records in a row) over ANY two receive states -- plain socket or BufferedSocket, any
   read-ahead buffer content, scripts of any length, any chunking, any number of would-blocks
   anywhere -- that carry the same byte stream and the same terminal event returns the same
   outcome, and after a completed read the two states still carry the same stream. *)
Theorem recv_chunk_independent :
  forall ra1 ra2, ra_ok ra1 -> ra_ok ra2 ->
  forall (A : Type) (p : prog A) (st1 st2 : rstate),
  stream_of st1 = stream_of st2 ->
  out_of (run_sock ra1 p st1) = out_of (run_sock ra2 p st2) /\
  (forall a, out_of (run_sock ra1 p st1) = Done a ->
     stream_of (state_of (run_sock ra1 p st1)) = stream_of (state_of (run_sock ra2 p st2))).
Proof.
  intros ra1 ra2 H1 H2 A p st1 st2 Hst.
  destruct (run_agrees ra1 H1 p st1) as [Ha Hb].
  destruct (run_agrees ra2 H2 p st2) as [Hc Hd].
  rewrite Hst in Ha, Hb.
  split; [congruence|].
  intros a Hdone. rewrite (Hb a Hdone). symmetry. apply (Hd a). congruence.
Qed.

(* the form in the property text: every script gives the result of the one-chunk script *)
Theorem record_recv_same_as_one_chunk :
  forall limit tls13 k (s : list rev),
  out_of (run_sock ra_raw (recv_many limit tls13 k) ([], s)) =
  out_of (run_sock ra_raw (recv_many limit tls13 k) ([], canon (flatten s))).
Proof.
  intros limit tls13 k s. apply recv_chunk_independent; try exact ra_raw_ok.
  unfold stream_of. cbn [fst snd]. rewrite flatten_canon. reflexivity.
Qed.

(* the result is the direct reading of the byte stream (no scheduling in the specification) *)
Theorem recv_is_stream_function :
  forall ra, ra_ok ra -> forall (A : Type) (p : prog A) (st : rstate),
  out_of (run_sock ra p st) = out_of (run_spec p (stream_of st)).
Proof. exact (fun ra H A p st => proj1 (run_agrees ra H p st)). Qed.

(* only the number of yields differs: it is exactly the number of would-blocks consumed *)
Theorem recv_yields_are_wouldblocks :
  forall ra (A : Type) (p : prog A) (st : rstate),
  yields_of (run_sock ra p st) = count_wb (snd st) - count_wb (snd (state_of (run_sock ra p st))).
Proof. exact (fun ra A p st => proj2 (run_yields ra p st)). Qed.

(* BufferedSocket.recv is transparent: RecordSocket over BufferedSocket = over the plain socket *)
Theorem buffered_recv_transparent :
  forall limit tls13 k (s : list rev),
  out_of (run_sock ra_buffered (recv_many limit tls13 k) ([], s)) =
  out_of (run_sock ra_raw (recv_many limit tls13 k) ([], s)) /\
  (forall a, out_of (run_sock ra_buffered (recv_many limit tls13 k) ([], s)) = Done a ->
     stream_of (state_of (run_sock ra_buffered (recv_many limit tls13 k) ([], s))) =
     stream_of (state_of (run_sock ra_raw (recv_many limit tls13 k) ([], s)))).
Proof. exact (fun limit tls13 k s =>
  recv_chunk_independent ra_buffered ra_raw ra_buffered_ok ra_raw_ok _ (recv_many limit tls13 k)
                         ([], s) ([], s) eq_refl). Qed.

(* b'' is end of stream, never would-block: a read the stream cannot satisfy raises
   TLSAbruptCloseError; on a stream ending in EOF nothing stays suspended and no socket
   error is invented *)
Theorem eof_is_abrupt_close :
  forall ra, ra_ok ra -> forall need st,
  snd (stream_of st) = TEof -> zlen (fst (stream_of st)) < need ->
  out_of (recv_all ra need st) = Raised AbruptClose.
Proof.
  intros ra Hra need st Ht Hl. rewrite (proj1 (recv_all_spec ra Hra need st)).
  destruct (stream_of st) as [d t]. cbn [fst snd] in *. subst t.
  rewrite take_spec_short by exact Hl. reflexivity.
Qed.

Theorem eof_never_suspends :
  forall ra, ra_ok ra -> forall limit tls13 k st,
  snd (stream_of st) = TEof ->
  out_of (run_sock ra (recv_many limit tls13 k) st) <> Pending /\
  (forall e, out_of (run_sock ra (recv_many limit tls13 k) st) <> Raised (SockError e)).
Proof. exact (fun ra H limit tls13 k st =>
  eof_never_pending ra H (recv_many limit tls13 k) (clean_recv_many limit tls13 k) st). Qed.

(* blocking call = generator run to completion: a blocking socket is the script without its
   would-blocks; same outcome, no yields *)
Theorem async_equals_blocking :
  forall ra, ra_ok ra -> forall (A : Type) (p : prog A) rbuf s,
  out_of (run_sock ra p (rbuf, strip_wb s)) = out_of (run_sock ra p (rbuf, s)) /\
  yields_of (run_sock ra p (rbuf, strip_wb s)) = 0 /\
  yields_of (run_sock ra p (rbuf, s)) <= count_wb s.
Proof.
  intros ra Hra A p rbuf s. split; [|split].
  - apply recv_chunk_independent; try assumption.
    unfold stream_of. cbn [fst snd]. rewrite flatten_strip_wb. reflexivity.
  - destruct (run_yields ra p (rbuf, strip_wb s)) as [H0 Hy]. cbn [snd] in Hy.
    rewrite count_wb_strip in Hy.
    pose proof (count_wb_nonneg (snd (state_of (run_sock ra p (rbuf, strip_wb s))))). lia.
  - destruct (run_yields ra p (rbuf, s)) as [_ Hy]. cbn [snd] in Hy.
    pose proof (count_wb_nonneg (snd (state_of (run_sock ra p (rbuf, s))))). lia.
Qed.

Example recv_example :
  let s := [Data [22; 3]; WouldBlock; Data [3; 0; 2; 7]; WouldBlock; Data [9; 23; 3; 3]] in
  run_sock ra_buffered (record_recv 16384 false) ([], s)
  = (2, Done ({| h_ssl2 := false; h_type := 22; h_vmaj := 3; h_vmin := 3; h_len := 2;
                 h_pad := 0; h_esc := false |}, [7; 9]), ([23; 3; 3], []))
  /\ stream_of ([], s) = ([22; 3; 3; 0; 2; 7; 9; 23; 3; 3], TOpen).
Proof. vm_compute. split; reflexivity. Qed.

(* _sockSendAll under ANY partial-accept / would-block / failure schedule puts a prefix of the
   data on the wire, in order, all of it when it completes; it only raises for a real socket
   error; it is suspended only when the schedule is exhausted.  send_all returns (yields, outcome, wire,
   schedule left): snd (fst (fst r)) is the outcome, snd (fst r) the wire, snd r the schedule *)
Theorem send_all_exact :
  forall (s : list sev) data y wire,
  let r := send_all data y wire s in
  let o := snd (fst (fst r)) in
  let wire' := snd (fst r) in
  exists sent rest, data = sent ++ rest /\ wire' = wire ++ sent /\
    (o = Done tt -> rest = []) /\
    (forall e, o = Raised e -> exists n, e = SockError n /\ is_wb n = false) /\
    (o = Pending -> snd r = []).
Proof.
  intros s data y wire.
  destruct (send_all_sends _ (fun n H => H) s data y wire)
    as [(sent & rest & Hdata & Hw & Hall) Herror Hexhausted _].
  exists sent, rest. repeat split; try assumption.
  intros e He. destruct (Herror e He) as [n Hexc Hhard _]. exists n. split; assumption.
Qed.

(* and it does complete on every schedule without hard failures that keeps accepting *)
Theorem send_all_completes_on_live_schedules :
  forall (s : list sev) data y wire,
  forallb pos_accept_or_wb s = true -> Z.max 1 (zlen data) <= n_accepts s ->
  snd (fst (fst (send_all data y wire s))) = Done tt.
Proof. exact send_all_completes. Qed.

Example send_example :
  record_send 3 3 23 [1; 2; 3] 0 [SBlock; Accept 2; Accept 0; SBlock; Accept 100]
  = (4, Done tt, [23; 3; 3; 0; 3; 1; 2; 3], []).
Proof. vm_compute. reflexivity. Qed.

(* The generator API flushes with BufferedSocket.flush_async (since /repo 8168763).
   FULL statement, for EVERY schedule (would-blocks, partial accepts, failures, exhaustion) and
   any disciplined mixture of buffered sends, direct sends and flush_async:
   completes => wire ++ queue is exactly the data sent so far, in order;
   raises    => only a real socket error, never a would-block (that it stands in the schedule: bs_run_spec);
   suspended => only because the schedule is exhausted. *)
Theorem buffered_flush_order :
  forall ops y bsk wire (s : list sev),
  no_sync_flush ops = true ->
  disciplined ops (bw bsk) (q_empty bsk) = true ->
  let r := bs_run ops y bsk wire s in
  (o_of r = Done tt ->
     w_of r ++ concat (queue (b_of r)) = wire ++ concat (queue bsk) ++ sent_data ops) /\
  (forall e, o_of r = Raised e -> real_error e) /\
  (o_of r = Pending -> s_of r = []).
Proof.
  intros ops y bsk wire s Hns Hd.
  destruct (bs_run_spec ops y bsk wire s Hd) as [Hdone Hraised Hpending].
  split; [exact Hdone|]. split; [|exact Hpending].
  intros e He. destruct (Hraised e He) as [n Hexc Hhard _]. exists n. auto.
Qed.

(* the pattern tlslite's generators use for a flight, over EVERY schedule: a prefix of the
   flight is on the wire in order; all of it, queue empty and buffering off, when it completes *)
Theorem buffered_flight_order :
  forall msgs wire (s : list sev),
  let r := bs_run (flight_a msgs) 0 bs_init wire s in
  exists sent rest, concat msgs = sent ++ rest /\ w_of r = wire ++ sent /\
    (o_of r = Done tt -> rest = [] /\ b_of r = bs_init) /\
    (forall e, o_of r = Raised e -> real_error e) /\
    (o_of r = Pending -> s_of r = []).
Proof.
  intros msgs wire s. cbn zeta. unfold flight_a. rewrite (flight_run WFlushA) by (right; reflexivity).
  destruct (bs_step WFlushA _ wire s) as [[[[y1 o] b] w] s'] eqn:St.
  destruct (bs_step_sends St) as [_ [(sent & rest & Hdata & Hw & Hall) Herror Hexhausted _]].
  unfold o_of, w_of, b_of, s_of. cbn [fst snd op_data queue] in *. exists sent, rest.
  split; [exact Hdata|]. split; [exact Hw|].
  split; [intros Hd; rewrite Hd; split; [exact (Hall Hd)|reflexivity]|]. split; [|exact Hexhausted].
  intros e He. destruct (Herror e He) as [n Hexc Hhard _]. exists n. split; [exact Hexc|].
  apply Hhard. discriminate.
Qed.

(* buffering is transparent: a non-empty buffered flight IS one _sockSendAll of the concatenated
   messages -- same yields, outcome, wire and remaining schedule, for every schedule *)
Theorem buffered_flight_is_direct_send :
  forall msgs wire (s : list sev), zlen (concat msgs) <> 0 ->
  let '(y, o, w, s') := send_all (concat msgs) 0 wire s in
  bs_run (flight_a msgs) 0 bs_init wire s =
  (y, o, match o with Done _ => bs_init | _ => {| bw := true; queue := [] |} end, w, s').
Proof.
  intros msgs wire s Hne. unfold flight_a. rewrite (flight_run WFlushA) by (right; reflexivity).
  cbn [bs_step]. unfold bs_flush_async. cbn [queue bw].
  destruct (zlen (concat msgs) =? 0) eqn:E; [apply Z.eqb_eq in E; contradiction|].
  rewrite flush_loop_is_send_all.
  destruct (send_all (concat msgs) 0 wire s) as [[[y o] w] s']. reflexivity.
Qed.

(* and it completes on every schedule without hard failures that keeps accepting *)
Theorem buffered_flight_completes_on_live_schedules :
  forall msgs wire (s : list sev),
  forallb pos_accept_or_wb s = true -> Z.max 1 (zlen (concat msgs)) <= n_accepts s ->
  o_of (bs_run (flight_a msgs) 0 bs_init wire s) = Done tt /\
  w_of (bs_run (flight_a msgs) 0 bs_init wire s) = wire ++ concat msgs.
Proof.
  intros msgs wire s Hs Hn.
  assert (Ho : o_of (bs_run (flight_a msgs) 0 bs_init wire s) = Done tt).
  { destruct (zlen (concat msgs) =? 0) eqn:E.
    - apply Z.eqb_eq in E. rewrite (flight_a_empty msgs wire s E). reflexivity.
    - apply Z.eqb_neq in E. pose proof (buffered_flight_is_direct_send msgs wire s E) as H.
      pose proof (send_all_completes s (concat msgs) 0 wire Hs Hn) as Hc.
      destruct (send_all (concat msgs) 0 wire s) as [[[y o] w] s']. rewrite H. exact Hc. }
  split; [exact Ho|].
  destruct (buffered_flight_order msgs wire s) as (sent & rest & H1 & H2 & H3 & _).
  rewrite H2, H1, (proj1 (H3 Ho)), app_nil_r. reflexivity.
Qed.

Example buffered_flight_example :
  bs_run (flight_a [[1; 2; 3]]) 0 bs_init [] [Accept 1; SBlock; Accept 5] = (2, Done tt, bs_init, [1; 2; 3], []).
Proof. vm_compute. reflexivity. Qed.

(* BufferedSocket.flush() (socket.sendall) remains in the class as a blocking-socket API; it is
   called only by BufferedSocket.close()/shutdown(), never by a generator with a non-empty queue
   (checked on every live run: sendall is never reached).  On accept-only schedules -- what a
   blocking socket presents -- it keeps order ... *)
Theorem sync_flush_order_on_blocking_sockets :
  forall ops y bsk wire (s : list sev),
  forallb sev_accept_only s = true ->
  disciplined ops (bw bsk) (q_empty bsk) = true ->
  let r := bs_run ops y bsk wire s in
  (forall e, o_of r <> Raised e) /\
  (o_of r = Done tt ->
     w_of r ++ concat (queue (b_of r)) = wire ++ concat (queue bsk) ++ sent_data ops).
Proof.
  intros ops y bsk wire s Hs Hd.
  destruct (bs_run_spec ops y bsk wire s Hd) as [Hdone Hraised _].
  split; [|exact Hdone].
  intros e He. destruct (Hraised e He) as [n _ _ Hin]. exact (accept_only_no_fail s n Hs Hin).
Qed.

(* ... and it must not be used on a non-blocking socket: a would-block inside sendall is an
   exception after the queue was cleared (finding C14-1: before /repo 8168763 the generators flushed with it) *)
Theorem sync_flush_is_blocking_socket_api_only :
  exists msgs (s : list sev),
  forallb sev_ok s = true /\
  snd (fst (fst (send_all (concat msgs) 0 [] s))) = Done tt /\
  o_of (bs_run (flight_a msgs) 0 bs_init [] s) = Done tt /\
  o_of (bs_run (flight msgs) 0 bs_init [] s) = Raised (SockError EWOULDBLOCK) /\
  w_of (bs_run (flight msgs) 0 bs_init [] s) <> concat msgs /\
  queue (b_of (bs_run (flight msgs) 0 bs_init [] s)) = [].
Proof.
  exists wb_witness_msgs, wb_witness_script.
  destruct flush_would_block_loses_data as (_ & -> & ->).
  rewrite (buffered_flight_example : bs_run (flight_a wb_witness_msgs) 0 bs_init [] wb_witness_script = _).
  repeat split. discriminate.
Qed.

(* For ANY defragmenter (any set of static/dynamic types, in any priority order, bytes
   non-negative) and ANY sequence of records of defined types fed through the drain/add loop of
   _getNextRecord: per content type the messages extracted, in order, are exactly the complete
   messages of that type's concatenated byte stream, and what stays buffered is the unparsed
   rest -- no message is lost, duplicated or cut differently, however the stream was split
   into or packed across records. *)
Theorem defrag_extracts_stream_messages :
  forall records d, dinv d -> records_ok d records ->
  exists ms d', feed records d = Ok (ms, d') /\ dinv d' /\ get_message d' = None /\
  forall t dec, decoder_of t d = Some dec ->
    msgs_of t ms = fst (parse_stream dec (buffer_of t d ++ stream_for t records)) /\
    buffer_of t d' = snd (parse_stream dec (buffer_of t d ++ stream_for t records)).
Proof.
  intros records d Hinv Hrec. destruct (feed_spec records d Hinv Hrec) as (ms & d' & F & I & N & _ & P).
  exists ms, d'. split; [exact F|]. split; [exact I|]. split; [exact N|].
  intros t dec Hdec. rewrite (P t dec Hdec). split; reflexivity.
Qed.

(* hence: two fragmentations/coalescings of the same per-type streams give the same messages *)
Theorem defrag_refragment_invariant :
  forall d records1 records2,
  dinv d -> records_ok d records1 -> records_ok d records2 ->
  (forall t, stream_for t records1 = stream_for t records2) ->
  exists ms1 d1 ms2 d2,
    feed records1 d = Ok (ms1, d1) /\ feed records2 d = Ok (ms2, d2) /\
    forall t, defined t d = true -> msgs_of t ms1 = msgs_of t ms2 /\ buffer_of t d1 = buffer_of t d2.
Proof.
  intros d records1 records2 Hinv H1 H2 Hs.
  destruct (feed_spec records1 d Hinv H1) as (ms1 & d1 & F1 & _ & _ & _ & S1).
  destruct (feed_spec records2 d Hinv H2) as (ms2 & d2 & F2 & _ & _ & _ & S2).
  exists ms1, d1, ms2, d2. split; [exact F1|]. split; [exact F2|].
  intros t Hdef. rewrite defined_decoder in Hdef.
  destruct (decoder_of t d) as [dec|] eqn:Ed; [|discriminate].
  specialize (S1 t dec Ed). rewrite Hs, (S2 t dec Ed) in S1. injection S1 as -> ->. split; reflexivity.
Qed.

(* get_message serves types in priority order *)
Theorem defrag_priority :
  forall d t m d', get_message d = Some ((t, m), d') ->
  exists pre e post, d = pre ++ e :: post /\ e_type e = t /\
    (forall e', In e' pre -> msg_size (e_dec e') (e_buf e') = None) /\
    exists n, msg_size (e_dec e) (e_buf e) = Some n /\ m = firstn (Z.to_nat n) (e_buf e) /\
      d' = pre ++ (e_type e, e_dec e, skipn (Z.to_nat n) (e_buf e)) :: post.
Proof.
  induction d as [|e d IH]; intros t m d' H; [discriminate|].
  cbn [get_message] in H.
  destruct (msg_size (e_dec e) (e_buf e)) as [n|] eqn:E.
  - injection H as <- <- <-. exists [], e, d.
    split; [reflexivity|]. split; [reflexivity|]. split; [intros e' []|].
    exists n. repeat split. exact E.
  - destruct (get_message d) as [[m0 d0]|] eqn:Eg; [|discriminate].
    injection H as -> <-.
    destruct (IH t m d0 eq_refl) as (pre & e1 & post & H1 & H2 & H3 & n & H4 & H5 & H6).
    exists (e :: pre), e1, post. cbn [app]. rewrite <- H1, H6.
    split; [reflexivity|]. split; [exact H2|].
    split; [intros e' [<-|Hin]; [exact E|exact (H3 e' Hin)]|].
    exists n. auto.
Qed.

Theorem defrag_is_empty_spec :
  forall d, (is_empty d = true <-> forall e, In e d -> e_buf e = []) /\ is_empty (clear_buffers d) = true.
Proof. exact (fun d => conj (is_empty_spec d) (clear_buffers_empty d)). Qed.

(* the hypotheses are met by the defragmenter TLSRecordLayer builds, and a concrete run *)
Example tls_defrag_meets_hypotheses : dinv tls_defrag.
Proof. unfold dinv, tls_defrag. cbn. repeat split. repeat constructor. Qed.

Example defrag_example :
  feed [(22, [1; 0]); (21, [2]); (22, [0; 1; 9; 2]); (21, [40]); (22, [0; 0; 0])] tls_defrag
  = Ok ([(22, [1; 0; 0; 1; 9]); (21, [2; 40]); (22, [2; 0; 0; 0])],
        [(20, Static 1, []); (21, Static 2, []); (22, Dynamic 1 3, [])]).
Proof. vm_compute. reflexivity. Qed.

From TV Require Import Model.C14_AsyncSM Proofs.C14_AsyncSM.

(* driving an operation through AsyncStateMachine = running the generator to completion: for ANY
   operation that suspends any number of times on 0 (wants read) or 1 (wants write) and ANY
   sequence of read/write events of that length, next() is called once per event, no exception
   arises, completion is reported exactly once and the machine is idle again.  Stated for a
   handshake operation AND for a READ operation -- in particular a read that has to write
   (answering KeyUpdate / close_notify / heartbeat / post-handshake auth under would-block yields
   1): write events resume the reader and the data is delivered exactly once. *)
Theorem asm_runs_generator_to_completion :
  forall ys evs, all01 ys = true -> length evs = length ys -> forallb is_io evs = true ->
  (snd (asm_trace (SetHandshake (yields01 ys) :: evs) asm_idle) = asm_idle /\
   no_exn (fst (asm_trace (SetHandshake (yields01 ys) :: evs) asm_idle)) /\
   events (fst (asm_trace (SetHandshake (yields01 ys) :: evs) asm_idle)) = [EConnect]) /\
  (forall v, is01 v = false ->
   snd (asm_trace (InRead (yields01 ys ++ [GY v]) :: evs) asm_idle) = asm_idle /\
   no_exn (fst (asm_trace (InRead (yields01 ys ++ [GY v]) :: evs) asm_idle)) /\
   events (fst (asm_trace (InRead (yields01 ys ++ [GY v]) :: evs) asm_idle)) = [ERead v]).
Proof. exact (fun ys evs H1 H2 H3 =>
  conj (asm_handshake_completes ys evs H1 H2 H3) (fun v Hv => asm_read_completes ys evs v H1 Hv H2 H3)). Qed.

(* while a reader is suspended on a write the machine asks for a write event, and that event
   (like a read event) resumes the reader *)
Theorem asm_reader_waiting_to_write :
  forall g c, is_io c = true ->
  wants_write (running_rd 1 g) = Some true /\ wants_read (running_rd 1 g) = Some false /\
  asm_call c (running_rd 1 g) = do_read g (running_rd 1 g).
Proof. intros g c Hc. repeat split. exact (io_call_running_rd 1 g c eq_refl Hc). Qed.

Example asm_read_that_writes_example :
  fst (asm_trace [InRead [GY 0; GY 1; GY 1; GY 77]; InRead []; InWrite; InWrite] asm_idle)
  = [([], None, Some true, Some false); ([], None, Some false, Some true);
     ([], None, Some false, Some true); ([ERead 77], None, None, None)].
Proof. vm_compute. reflexivity. Qed.

(* single active operation: starting another one while one is active is refused *)
Theorem asm_single_active :
  forall m g, 0 < active_ops m ->
  asm_call (SetHandshake g) m = fail XAssert /\
  asm_call (SetClose g) m = fail XAssert /\
  asm_call (SetWrite g) m = fail XAssert.
Proof. intros m g H. cbn [asm_call]. rewrite (busy_refuses m H). repeat split. Qed.

Example asm_example :
  fst (asm_trace [SetHandshake (yields01 [0; 1]); InRead []; InWrite; InRead [GY 0; GY 77]; InWrite] asm_idle)
  = [([], None, Some true, Some false); ([], None, Some false, Some true);
     ([EConnect], None, None, None); ([], None, Some true, Some false); ([ERead 77], None, None, None)].
Proof. vm_compute. reflexivity. Qed.

From TV Require Import Gen.C14_Wrappers Proofs.C14_Wrappers.

(* every blocking entry point (handshakeClient*, handshakeServer, read, write, close,
   send_heartbeat_request, MessageSocket.*Blocking) only drains the generator of its asynchronous
   counterpart and hands it EVERY one of its parameters, each to the parameter of the same name
   (table extracted from the ast of /repo on every run) *)
Theorem blocking_wrappers_forward_every_parameter : forallb wrapper_ok wrappers = true.
Proof. exact wrappers_forward. Qed.

From TV Require Import Model.C14_ReadLoop Proofs.C14_ReadLoop.

(* what a call returns plus what stays buffered is what was buffered plus the data of the messages
   it consumed (nothing lost, duplicated or reordered), tickets are counted once, a suspended
   call has consumed everything that was sent *)
Theorem read_call_conserves :
  forall mx mn ms t st,
  let '(r, st', ms') := read_loop mx mn t st ms in
  exists consumed, ms = consumed ++ ms' /\
    delivered r ++ r_buf st' = r_buf st ++ data_of consumed /\
    r_tickets st' = r_tickets st + n_tickets consumed /\
    (r = RPending -> ms' = []).
Proof. exact read_loop_conserves. Qed.

(* a poll (min <= 0, empty buffer) handles exactly ONE message -- whatever else has already
   arrived -- unless that message is a KeyUpdate, which is transparent to the call *)
Theorem poll_handles_exactly_one_message :
  forall mx mn m ms st,
  mn <= 0 -> r_buf st = [] -> r_closed st = false -> m <> MKeyUpdate ->
  read_call mx mn st (m :: ms) =
  (fst (finish mx (fst (handle m st))), snd (finish mx (fst (handle m st))), ms).
Proof.
  intros mx mn m ms st Hmn Hb Hc Hm. unfold read_call. cbn [read_loop].
  unfold loop_cond at 1. rewrite Hb, Hc, orb_true_r. cbn [andb negb].
  destruct (handle m st) as [st1 t1] eqn:Eh. cbn [fst].
  (* only a KeyUpdate asks for another round *)
  assert (Ht : t1 = false) by (destruct m; cbn in Eh; congruence).
  subst t1.
  assert (Hcond : loop_cond mn false st1 = false).
  { unfold loop_cond. rewrite andb_false_r, orb_false_r.
    pose proof (zlen_nonneg (r_buf st1)). destruct (zlen (r_buf st1) <? mn) eqn:E; [lia|reflexivity]. }
  destruct ms as [|m2 ms2]; cbn [read_loop]; rewrite Hcond; destruct (finish mx st1); reflexivity.
Qed.

Theorem keyupdate_is_transparent_to_a_call :
  forall mx mn ms st, loop_cond mn true st = true ->
  read_call mx mn st (MKeyUpdate :: ms) = read_call mx mn st ms.
Proof. intros mx mn ms st H. unfold read_call. cbn [read_loop handle]. rewrite H. reflexivity. Qed.

Example poll_example :
  read_stages [([MTicket; MTicket; MData [1; 2; 3]], [(None, 0); (None, 0); (None, 0); (None, 0)])] r_init []
  = [(RBytes [], 1, false); (RBytes [], 2, false); (RBytes [1; 2; 3], 2, false); (RPending, 2, false)].
Proof. vm_compute. reflexivity. Qed.

From TV Require Import Model.C14_Fragment Proofs.C14_Fragment.

(* _sendMsg for EVERY record size k >= 1 and every message: the record payloads concatenate to the
   message, each carries between 1 and k bytes; only an empty message gives a single empty record
   (so no zero-length handshake/heartbeat record is ever produced, whatever divides what) *)
Theorem sender_fragmentation_exact :
  forall k buf, 1 <= k ->
  concat (fragment k buf) = buf /\
  Forall (fun r => zlen r <= k) (fragment k buf) /\
  (buf <> [] -> Forall (fun r => 1 <= zlen r) (fragment k buf)) /\
  (buf = [] -> fragment k buf = [[]]).
Proof.
  intros k buf Hk. pose proof (fragment_fuel_sizes k Hk (length buf) buf) as S.
  split; [apply fragment_fuel_concat|]. split; [|split].
  - eapply Forall_impl; [|exact S]. intros r H. apply H, le_n.
  - intros Hne. eapply Forall_impl; [|exact S]. intros r H. apply H, Hne.
  - intros ->. reflexivity.
Qed.

Example fragment_example : fragment 4 [1; 2; 3; 4; 5; 6; 7; 8] = [[1; 2; 3; 4]; [5; 6; 7; 8]].
Proof. vm_compute. reflexivity. Qed.
