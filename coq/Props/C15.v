(* Property C15 -- the theorems, each derived from the general lemmas of Proofs/C15_*.v.
   fmt / encode / decode: Model/C15_Fmt.v;  format terms: Model/C15_Messages.v;
   Writer / Parser primitives: Model/C15_Codec.v. *)
From Coq Require Import ZArith List Bool Lia.
From TV Require Import Base.Prelude Base.PreludeFacts Base.Bytes Model.C15_Codec Model.C15_Fmt Model.C15_Messages
  Proofs.C15_Codec Proofs.C15_Fmt Proofs.C15_Messages.
Import ListNotations.
Open Scope Z_scope.

(* Whatever the encoder produces parses back to the same value with nothing left over
   (for EVERY value: an encoding that lost or wrapped a field could not satisfy this). *)
Theorem decode_encode : forall f v bs,
  wf_fmt f -> encode f v = Ok bs -> decode f bs = Ok (v, []).
Proof. intros f v bs W. apply (decode_encode_nil f W). Qed.

(* hence distinct values never share an encoding: an absent list (None), an empty list and a
   one-element list, or an absent and an empty string, stay distinct on the wire *)
Theorem encode_injective : forall f v1 v2 bs,
  wf_fmt f -> encode f v1 = Ok bs -> encode f v2 = Ok bs -> v1 = v2.
Proof.
  intros f v1 v2 bs W H1 H2. pose proof (decode_encode_nil f W _ _ H1) as D.
  rewrite (decode_encode_nil f W _ _ H2) in D. congruence.
Qed.

(* ... and, for self-delimiting formats, whatever follows the encoding is left untouched *)
Theorem decode_encode_delim : forall f v bs r,
  wf_fmt f -> delim f -> encode f v = Ok bs -> decode f (bs ++ r) = Ok (v, r).
Proof. intros f v bs r W D H. exact (acc_dec (encode_accepts f v bs H) W r (or_introl D)). Qed.

(* parse-then-write is byte-identical: what the decoder accepted is exactly the encoding
   of the value it returned, followed by the unconsumed rest (every byte string) *)
Theorem encode_decode : forall f bs v r,
  wf_fmt f -> all_bytes bs = true -> decode f bs = Ok (v, r) ->
  exists pre, bs = pre ++ r /\ encode f v = Ok pre.
Proof.
  intros f bs v r W B H. destruct (decode_ok f bs v r W H) as [pre [-> A]].
  exists pre. split; [reflexivity|]. apply (acc_enc A). rewrite all_bytes_app in B. apply andb_prop in B. apply B.
Qed.

(* the encoder succeeds exactly on the values whose every field fits (wf_val is written
   directly from the field widths); any other value is an error, never a shorter or
   wrapped encoding; a successful encoding has exactly the specified size *)
Theorem encode_never_truncates : forall f v,
  ((exists bs, encode f v = Ok bs) <-> wf_val f v) /\
  (~ wf_val f v -> is_ok (encode f v) = false) /\
  (forall bs, encode f v = Ok bs -> zlen bs = vsize f v).
Proof.
  intros f v. pose proof (encode_spec f v) as S. destruct (encode f v) as [bs|e]; cbn [ok_iff] in S.
  - (* S : wf_val f v /\ zlen bs = vsize f v /\ accepts f bs v *)
    split; [split; [intros _; apply S|exists bs; reflexivity]|].
    split; [intros N; destruct (N (proj1 S))|intros bs' H; injection H as <-; apply S].
  - (* S : ~ wf_val f v *)
    split; [split; [intros [bs H]; discriminate|intros K; destruct (S K)]|]. split; [reflexivity|discriminate].
Qed.

(* Writer.add / add_var_bytes: in range => the exact big-endian bytes; out of range => ValueError *)
Theorem writer_never_wraps : forall w x n,
  (forall w', w_add w x n = Ok w' <-> (0 <= n /\ 0 <= x < 256 ^ n) /\ w' = w ++ be_bytes (Z.to_nat n) x) /\
  (~ (0 <= n /\ 0 <= x < 256 ^ n) -> w_add w x n = Err ValueError) /\
  (forall d, 256 ^ n <= zlen d -> w_add_var_bytes w d n = Err ValueError).
Proof.
  intros w x n. split; [intros w'; apply w_add_ok|].
  split; [apply w_add_overflow|intros d; apply w_add_var_bytes_overflow].
Qed.

(* strictness of the decoder, every well-formed format, every input: the only failure is DecodeError (in
   particular the fuel of a repetition never runs out); what is consumed is a prefix of the input; a
   self-delimiting format does not look past what it consumes, and accepts no truncation of it *)
Theorem decode_strict : forall f,
  wf_fmt f ->
  (forall bs e, decode f bs = Err e -> e = DecodeError) /\
  (forall bs v r, decode f bs = Ok (v, r) -> exists pre, bs = pre ++ r) /\
  (delim f -> forall pre r v, decode f (pre ++ r) = Ok (v, r) ->
     (forall r', decode f (pre ++ r') = Ok (v, r')) /\
     (forall k, (k < length pre)%nat -> decode f (firstn k pre) = Err DecodeError)).
Proof.
  intros f W. split; [intros bs e; apply (decode_err f bs e W)|]. split.
  - intros bs v r H. destruct (decode_ok f bs v r W H) as [pre [E _]]. exists pre. exact E.
  - intros D pre r v H. split; [apply (decode_ext f pre r v W D H)|apply (decode_truncated f W D pre r v H)].
Qed.

(* length-delimited structures: never read past the declared length, reject trailing bytes
   inside the structure, reject inner/outer length disagreement in both directions *)
Theorem bounded_strict : forall ll f,
  wf_fmt f -> 0 < ll ->
  (forall bs v r, decode (FBounded ll f) bs = Ok (v, r) ->
     exists lb body, bs = lb ++ body ++ r /\ zlen lb = ll /\ zlen body = be_val lb /\
                     decode f body = Ok (v, [])) /\
  (delim f -> forall enc v, decode f enc = Ok (v, []) ->
     forall n rest, 0 <= n < 256 ^ ll -> n <> zlen enc ->
     decode (FBounded ll f) (be_bytes (Z.to_nat ll) n ++ enc ++ rest) = Err DecodeError).
Proof.
  intros ll f W Hl. split; [intros bs v r; apply bounded_inv|].
  intros D. apply (bounded_length_mismatch ll f (conj Hl W) D).
Qed.

(* every format term that describes a tlslite class is well-formed, so all of the above
   applies to it *)
Theorem messages_wf :
  wf_fmt fmt_RecordHeader3 /\ wf_fmt fmt_Alert /\ wf_fmt fmt_ChangeCipherSpec /\ wf_fmt fmt_Heartbeat /\
  wf_fmt fmt_KeyUpdate /\ wf_fmt fmt_HelloRequest /\ wf_fmt fmt_ServerHelloDone /\
  wf_fmt fmt_ClientHello /\ wf_fmt fmt_ServerHello /\ wf_fmt fmt_EncryptedExtensions /\
  wf_fmt fmt_Certificate12 /\ wf_fmt fmt_Certificate13 /\
  (forall b, wf_fmt (fmt_CertificateRequest b)) /\ wf_fmt fmt_CertificateRequest13 /\
  (forall b, wf_fmt (fmt_CertificateVerify b)) /\ wf_fmt fmt_CertificateStatus /\
  (forall k s, wf_fmt (fmt_ServerKeyExchange k s)) /\ (forall k b, wf_fmt (fmt_ClientKeyExchange k b)) /\
  (forall n, 0 <= n -> wf_fmt (fmt_Finished n)) /\ wf_fmt fmt_NextProtocol /\
  wf_fmt fmt_NewSessionTicket13 /\ wf_fmt fmt_NewSessionTicket10 /\ wf_fmt fmt_SessionTicketPayload /\
  wf_fmt fmt_CompressedCertificate /\ wf_fmt fmt_RecordHeader2 /\ wf_fmt fmt_ClientHelloSSL2 /\
  (forall c, wf_fmt (fmt_Ext c) /\ delim (fmt_Ext c)).
Proof.
  repeat match goal with |- _ /\ _ => split end; auto with c15_wf.
Qed.

(* RecordHeader2 through the API view create(length, padding, securityEscape): what fits round-trips
   and is reported back with the same fields; the encoder refuses exactly a length that needs more
   bits than the header FORM has (2-byte form 15 bits, 3-byte form 14 bits) or a non-byte padding *)
Theorem rh2_roundtrip : forall len pad esc,
  (forall v, rh2_val len pad esc = Some v ->
     (exists bs, encode fmt_RecordHeader2 v = Ok bs /\ decode fmt_RecordHeader2 bs = Ok (v, [])) /\
     rh2_fields v = Some (len, pad, esc)) /\
  (rh2_val len pad esc = None <->
     ~ (0 <= len /\ if rh2_short pad esc then len < 32768 else len < 16384 /\ 0 <= pad < 256)).
Proof.
  intros len pad esc. split.
  - intros v H. pose proof (rh2_val_spec len pad esc) as S. rewrite H in S. destruct S as [Wv F].
    split; [|exact F]. apply (encode_never_truncates fmt_RecordHeader2 v) in Wv. destruct Wv as [bs Hb].
    exists bs. split; [exact Hb|]. apply (decode_encode_nil _ wf_RecordHeader2 _ _ Hb).
  - unfold rh2_val. destruct (rh2_short pad esc).
    + destruct ((0 <=? len) && (len <? 32768)) eqn:E.
      * split; [discriminate|]. intros N. destruct N. lia.
      * split; [|reflexivity]. intros _ [A B]. lia.
    + destruct ((0 <=? len) && (len <? 16384) && (0 <=? pad) && (pad <? 256)) eqn:E.
      * split; [discriminate|]. intros N. destruct N. lia.
      * split; [|reflexivity]. intros _ [A [B C]]. lia.
Qed.

(* Parser.get / getVarBytes started at the writer's old end read back exactly what Writer.add /
   add_var_bytes appended, and stop at the writer's new end *)
Theorem get_add : forall a x n w c,
  w_add a x n = Ok w ->
  exists p', p_get (mkParser (w ++ c) (zlen a) 0 0) n = Ok (x, p') /\ pindex p' = zlen w /\ pbytes p' = w ++ c.
Proof. exact C15_Codec.get_add. Qed.

Theorem getVarBytes_addVarBytes : forall a d ll w c,
  w_add_var_bytes a d ll = Ok w ->
  exists p', p_getVarBytes (mkParser (w ++ c) (zlen a) 0 0) ll = Ok (d, p')
             /\ pindex p' = zlen w /\ pbytes p' = w ++ c.
Proof.
  intros a d ll w c H. apply w_add_var_bytes_ok in H. destruct H as [[Hl Hd] ->]. rewrite <- !app_assoc.
  fold (at_pos a (be_bytes (Z.to_nat ll) (zlen d) ++ d ++ c) 0 0). rewrite p_getVarBytes_app by assumption.
  eexists. split; [reflexivity|]. cbn [pindex pbytes]. rewrite !zlen_app, be_zlen_Z by exact Hl.
  split; [lia|reflexivity].
Qed.

(* startLengthCheck ... stopLengthCheck succeeds exactly if the code in between (which never
   writes the check fields) consumed the declared number of bytes *)
Theorem length_check_sound : forall p ll p1 p2,
  p_startLengthCheck p ll = Ok p1 ->
  pindexCheck p2 = pindexCheck p1 -> plengthCheck p2 = plengthCheck p1 ->
  (p_stopLengthCheck p2 = Ok tt <-> pindex p2 = pindex p1 + plengthCheck p1) /\
  (exists q, p_get p ll = Ok (plengthCheck p1, q) /\ pindex p1 = pindex q /\ pindexCheck p1 = pindex q).
Proof. exact C15_Codec.length_check_sound. Qed.

(* the decoder's integer / fixed-bytes clauses are Parser.get / getFixBytes on the
   input that remains at the parser's index *)
Theorem decode_is_parser : forall a r ic lc n,
  0 <= n ->
  (p_get (at_pos a r ic lc) n =
     match decode (FU n) r with
     | Ok (VInt x, r') => Ok (x, mkParser (a ++ r) (zlen a + n) ic lc)
     | Ok _ => Err TypeError
     | Err e => Err e end) /\
  (p_getFixBytes (at_pos a r ic lc) n =
     match decode (FFix n) r with
     | Ok (VBytes x, r') => Ok (x, mkParser (a ++ r) (zlen a + n) ic lc)
     | Ok _ => Err TypeError
     | Err e => Err e end).
Proof.
  intros a r ic lc n Hn. rewrite p_get_take, p_getFixBytes_take by exact Hn. cbn [decode].
  destruct (take n r) as [[x r']|]; split; reflexivity.
Qed.

(* the hypotheses are satisfiable: non-trivial well-formed values *)
(* Model/C15_Messages.v ex_client_hello: a ClientHello with session id, two suites, SNI +
   supported_groups + an unknown extension *)
Example ex_client_hello_encodes :
  exists bs, encode fmt_ClientHello ex_client_hello = Ok bs /\ zlen bs = 83 /\
             decode fmt_ClientHello bs = Ok (ex_client_hello, []).
Proof. eexists. split; [vm_compute; reflexivity|]. split; vm_compute; reflexivity. Qed.

(* a value that does not fit: 256-byte session id in a 1-byte length field *)
Example ex_overflow :
  encode (FVar 1) (VBytes (repeat 0 256)) = Err ValueError /\
  encode (FU 2) (VInt 65536) = Err ValueError /\ encode (FU 2) (VInt (-1)) = Err ValueError.
Proof. repeat split; vm_compute; reflexivity. Qed.

(* trailing byte inside an extension, inner/outer disagreement, truncation *)
Example ex_strict :
  decode (Ext CtxUniversal) [0;12;0;3;1;65;0] = Err DecodeError /\        (* srp: 1-byte identity + junk *)
  decode (Ext CtxUniversal) [0;10;0;4;0;4;0;29] = Err DecodeError /\      (* groups: inner 4 > outer *)
  decode (Ext CtxUniversal) [0;10;0;4;0;2;0] = Err DecodeError /\         (* truncated *)
  decode (Ext CtxUniversal) [0;10;0;4;0;2;0;29;9] = Ok (VTag 10 (VSome (vlist [VInt 29])), [9]).
Proof. repeat split; vm_compute; reflexivity. Qed.

(* key_share in ClientHello: absent list, empty list (asks for a HelloRetryRequest) and one share
   are three different encodings, each decoding to itself *)
Example ex_key_share_none_vs_empty :
  encode (Ext CtxUniversal) (VTag 51 VNone) = Ok [0;51;0;0] /\
  encode (Ext CtxUniversal) (VTag 51 (VSome VNil)) = Ok [0;51;0;2;0;0] /\
  decode (Ext CtxUniversal) [0;51;0;2;0;0] = Ok (VTag 51 (VSome VNil), []) /\
  decode (Ext CtxUniversal) [0;51;0;0] = Ok (VTag 51 VNone, []).
Proof. repeat split; vm_compute; reflexivity. Qed.

(* SSLv2 CLIENT-HELLO: a CIPHER-SPECS-LENGTH that is not a multiple of 3 is rejected even when every
   announced byte is present; lengths exceeding the input and a missing byte are rejected *)
Example ex_ssl2_hello_strict :
  decode fmt_ClientHelloSSL2 ([1;3;1; 0;3; 0;0; 0;2] ++ [0;0;47] ++ [7;7]) =
    Ok (VPair (VInt 1) (VPair (VInt 3) (VPair (VInt 1)
        (VTag 3 (VTag 0 (VTag 2 (VPair (VBytes [0;0;47]) (VPair (VBytes []) (VBytes [7;7])))))))), []) /\
  decode fmt_ClientHelloSSL2 ([1;3;1; 0;4; 0;0; 0;2] ++ [0;0;47;255] ++ [7;7]) = Err DecodeError /\
  decode fmt_ClientHelloSSL2 ([1;3;1; 0;3; 0;0; 0;3] ++ [0;0;47] ++ [7;7]) = Err DecodeError /\
  decode fmt_ClientHelloSSL2 ([1;3;1; 0;6; 0;0; 0;2] ++ [0;0;47] ++ [7;7]) = Err DecodeError.
Proof. repeat split; vm_compute; reflexivity. Qed.

(* a repeated extension type is outside the domain of the hello / EncryptedExtensions /
   CertificateRequest extension blocks: refused by the decoder and by the encoder alike *)
Example ex_duplicate_extension :
  decode fmt_EncryptedExtensions [8;0;0;12; 0;10; 0;21;0;1;7; 0;21;0;1;9] = Err DecodeError /\
  encode fmt_EncryptedExtensions
    (VPair (VInt 8) (vlist [VTag 21 (VBytes [7]); VTag 21 (VBytes [9])])) = Err ValueError /\
  decode fmt_EncryptedExtensions [8;0;0;12; 0;10; 0;21;0;1;7; 0;22;0;1;9]
    = Ok (VPair (VInt 8) (vlist [VTag 21 (VBytes [7]); VTag 22 (VBytes [9])]), []).
Proof. repeat split; vm_compute; reflexivity. Qed.

(* a security-escape record without padding uses the 3-byte header: length 0x4123 does not fit *)
Example ex_rh2_escape_length :
  rh2_val 16675 0 true = None /\ rh2_val 16383 0 true = Some (VTag 127 (VPair (VInt 255) (VInt 0))) /\
  rh2_val 16675 0 false = Some (VTag 193 (VInt 35)) /\ rh2_val 32768 0 false = None.
Proof. repeat split; vm_compute; reflexivity. Qed.
