(* Property C18.  The long arguments are in Proofs/C18_*.v. *)
From Coq Require Import ZArith List Bool String.
From TV Require Import Base.Prelude Base.C18_Lib
     Model.C18_Cache Spec.C18_CacheSpec Model.C18_Conc Model.C18_LockSteps Model.C18_Rsa Gen.Locks
     Proofs.C18_Cache Proofs.C18_CacheWit Proofs.C18_Conc Proofs.C18_Locks Proofs.C18_Rsa Proofs.C18_Lin Proofs.C18_LinEx Proofs.C18_LinSpec.
Import ListNotations.
Open Scope Z_scope.

(* For EVERY history with a monotone clock (repeated IDs included), every maxEntries >= 1 and every
   maxAge: the cache answers exactly as the abstract log specification ("the session last stored
   under the ID iff younger than maxAge, still valid, and fewer than maxEntries-1 stores happened
   after it"), holds at most maxEntries-1 entries, and raises nothing but the documented KeyError
   of a failed lookup.
   On tlslite-ng before commit 7684882 ("SessionCache must not drop a live entry when a session ID
   is stored twice") they hold for pairwise distinct stored IDs only and fail in general: witnesses
   dup_history and leak_history, kept as regression cases in Proofs/C18_CacheWit.v. *)
Theorem cache_refines_spec : forall n maxAge h,
  1 <= n -> monotone h -> outcomes n maxAge h = spec_outcomes n maxAge h.
Proof. intros n maxAge h Hn Hm. exact (proj1 (exec_init n maxAge Hn h Hm)). Qed.

Theorem cache_size_bound : forall n maxAge h,
  1 <= n -> monotone h -> zlen (c_dict (final_cache n maxAge h)) <= n - 1.
Proof. intros n maxAge h Hn Hm. destruct (proj2 (exec_init n maxAge Hn h Hm)) as [st [t Hs]]. exact (sim_size _ _ _ _ _ Hs). Qed.

Theorem cache_no_internal_error : forall n maxAge h,
  1 <= n -> monotone h -> all_documented h (outcomes n maxAge h) = true.
Proof. intros n maxAge h Hn Hm. rewrite (cache_refines_spec n maxAge h Hn Hm). apply spec_documented. Qed.

(* the invariant _purge's early exit relies on: live slots carry non-decreasing timestamps *)
Theorem cache_timestamps_sorted : forall n maxAge h,
  1 <= n -> monotone h -> live_slots_sorted (final_cache n maxAge h).
Proof.
  intros n maxAge h Hn Hm. destruct (proj2 (exec_init n maxAge Hn h Hm)) as [st [t Hs]].
  exact (sim_sorted _ _ _ _ _ Hs).
Qed.

(* Residue: the guard 1 <= maxEntries cannot be dropped.  SessionCache(0) (accepted by the
   constructor) raises IndexError from every store after having inserted into the dict. *)
Theorem cache_zero_capacity_refuted : exists maxAge h,
  monotone h /\ all_documented h (outcomes 0 maxAge h) = false /\
  0 - 1 < zlen (c_dict (final_cache 0 maxAge h)).
Proof. exists 100, [(0, Put 1 10)]. split; [exact I|]. split; vm_compute; reflexivity. Qed.

(* the two histories that refute the statements above on the code before commit 7684882:
   dup_history is answered as the specification says, leak_history leaves one dict entry *)
Example former_witnesses_ok :
  outcomes 3 100 dup_history = spec_outcomes 3 100 dup_history /\
  zlen (c_dict (final_cache 2 100 leak_history)) = 1.
Proof.
  split; [|exact leak_history_now_ok].
  destruct dup_history_now_ok as [Hm Hs]. rewrite Hm, Hs. reflexivity.
Qed.

(* a history meeting the hypotheses that exercises eviction, expiry and invalidation *)
Definition example_history : history :=
  [(0, Put 1 10); (1, Put 2 11); (2, Get 1); (2, Put 3 12); (3, Get 1); (3, SetValid 12 false);
   (4, Get 3); (4, SetValid 12 true); (5, Get 3); (8, Get 2); (8, Purge); (9, Put 4 13);
   (9, Put 4 14); (10, Get 4); (10, Put 5 15); (11, Get 4); (20, Get 4)].
Example example_history_ok :
  monotone example_history /\
  outcomes 3 6 example_history =
  [ORet None; ORet None; ORet (Some 10); ORet None; OExc KeyError; ORet None;
   OExc KeyError; ORet None; ORet (Some 12); OExc KeyError; ORet None; ORet None;
   ORet None; ORet (Some 14); ORet None; ORet (Some 14); OExc KeyError].
Proof. split; [cbn; repeat split; discriminate|vm_compute; reflexivity]. Qed.

(* Any number of threads, any programs that touch shared variables only between acquire and
   release of the one lock, any schedule (any number of pre-emptions, any length): if the
   schedule runs all threads to completion, the final shared store and every thread's final
   local state are those of a sequential execution of whole operations in some order. *)
Theorem well_locked_serializable : forall (Lo V : Type) (c cf : config Lo V) (sched : list nat),
  g_lock c = None ->
  (forall t, In t (g_threads c) -> well_locked (t_prog t) = true) ->
  run_sched c sched = Some cf -> terminal cf ->
  exists order, serial order (g_store c, g_threads c) = (g_store cf, g_threads cf).
Proof. exact serializable_all. Qed.

(* ... and no schedule can get stuck before every thread has finished *)
Theorem well_locked_no_deadlock : forall (Lo V : Type) (c c' : config Lo V) (sched : list nat),
  g_lock c = None ->
  (forall t, In t (g_threads c) -> well_locked (t_prog t) = true) ->
  run_sched c sched = Some c' ->
  (exists t, In t (g_threads c') /\ t_prog t <> []) ->
  exists i c'', fire c' i = Some c''.
Proof.
  intros Lo V c c' sched Hl Hw Hr Hn. apply progress_from; [|exact Hn].
  exact (reachable_wl Lo V sched c c' (initial_wl Lo V c Hl Hw) Hr).
Qed.

(* the discipline depends only on the shape of the steps, which is what the extractor sees *)
Theorem well_locked_by_shape : forall (Lo V : Type) (p : list (step Lo V)),
  well_locked p = well_locked_shape (map (@shape_of Lo V) p).
Proof. intros Lo V p. exact (wl_of_shape Lo V p false). Qed.

(* The lock discipline of the code, on the step lists extracted from /repo (Gen/Locks.v).
   Every public/dunder instance method of SessionCache, VerifierDB(BaseDB) and Python_RSAKey(RSAKey)
   -- discovered from the class bodies, see extracted_methods_complete -- and every path through it:
   every access to an attribute that any of these methods writes is inside the class's single lock,
   and each path has at most one critical section.  The only assignment outside a lock that is
   tolerated is an idempotent initialisation (XInit with immutable dependencies: RSAKey.decrypt's
   `self._key_hash = secureHash(d)`); anything else -- a memo, a cached buffer, a statistics counter --
   is an XWrite and breaks this theorem; an attribute no __init__ creates makes the extractor refuse. *)
Theorem extracted_lock_discipline : all_methods_ok all_methods = true.
Proof. exact extracted_methods_ok. Qed.
(* (On the code before commit d3942bb, "BaseDB.keys() must copy the key view while holding the lock",
   this fails for VerifierDB.keys.) *)

(* every clock read (time.time()) of the analysed methods is inside the critical section, and a
   SessionCache call reads the clock exactly once: the timestamp is taken at the linearization point,
   which is what makes the timestamps non-decreasing along the list (cache_timestamps_sorted) and
   is an assumption of the sequential model that cache_linearizable builds on.  (to_shape maps XClock to
   a shared read, so extracted_lock_discipline already demands it; stated separately for visibility.) *)
Theorem extracted_clock_reads_locked :
  forallb (fun m : xmethod => let '(_, _, p) := m in clock_locked false p) all_methods = true /\
  count_clock SessionCache_getitem = 1%nat /\ count_clock SessionCache_setitem = 1%nat.
Proof. split; [|split]; vm_compute; reflexivity. Qed.

(* no write to any attribute of self (known or new, binding or contents) outside the lock: to_shape maps
   every XWrite to a shared write whatever the attribute is, so a new cache attribute filled outside the
   lock -- e.g. a memo of decoded database entries -- breaks method_ok; stated separately *)
Theorem extracted_writes_under_lock :
  forallb (fun m : xmethod => let '(_, _, p) := m in writes_locked false p) all_methods = true.
Proof. vm_compute. reflexivity. Qed.

(* the analysed set: every public/dunder instance method of the three shared classes (discovered from the
   class bodies through the MRO, so a new method is analysed automatically) and the helper
   Python_RSAKey._rawPrivateKeyOp on its own, for rsa_trace_tie; nothing silently dropped.
   Not analysed, with the reason in translator/units_locks.py: constructors, BaseDB.create/open (set-up),
   RSAKey.write (abstract), static/class methods (no instance). *)
Theorem extracted_methods_complete :
  map (fun e : string * string * list (list xstep) => let '(c, n, _) := e in (c, n)) all_method_paths =
  [("SessionCache", "__getitem__"); ("SessionCache", "__setitem__");
   ("VerifierDB", "__setitem__"); ("VerifierDB", "__getitem__"); ("VerifierDB", "__delitem__");
   ("VerifierDB", "__contains__"); ("VerifierDB", "check"); ("VerifierDB", "keys");
   ("Python_RSAKey", "_rawPrivateKeyOp"); ("Python_RSAKey", "hasPrivateKey");
   ("Python_RSAKey", "acceptsPassword"); ("Python_RSAKey", "__len__"); ("Python_RSAKey", "hashAndSign");
   ("Python_RSAKey", "hashAndVerify"); ("Python_RSAKey", "MGF1"); ("Python_RSAKey", "EMSA_PSS_encode");
   ("Python_RSAKey", "RSASSA_PSS_sign"); ("Python_RSAKey", "EMSA_PSS_verify");
   ("Python_RSAKey", "RSASSA_PSS_verify"); ("Python_RSAKey", "sign"); ("Python_RSAKey", "verify");
   ("Python_RSAKey", "encrypt"); ("Python_RSAKey", "decrypt")]%string.
Proof. reflexivity. Qed.

(* Object-level serializability.  `sem` is ANY small-step reading of the method bodies; all
   that is asked of it is (1) lock discipline and a single critical section per call (decided
   on shapes), (2) a call executed alone does what the sequential model `mstep` says.  Then
   any number of concurrent calls, under any schedule, leave the object in the state and
   return the results that the sequential model yields for some order of the calls, and
   every call has returned. *)
Theorem object_serializable : forall (Lo V W Call R : Type) (mstep : W -> Call -> W * R)
    (sem : Call -> list (step Lo V)) (absS : store V -> W) (res : Lo -> option R) (lo0 : Lo)
    (calls : list Call),
  (forall call, In call calls -> well_locked (sem call) = true) ->
  (forall call, In call calls -> (count_acq (sem call) <= 1)%nat) ->
  (forall call, In call calls -> sem call <> []) ->
  (forall call st, In call calls ->
     absS (fst (run_all st lo0 (sem call))) = fst (mstep (absS st) call) /\
     res (snd (run_all st lo0 (sem call))) = Some (snd (mstep (absS st) call))) ->
  forall st0 sched cf,
  run_sched (lin_config Lo V Call sem lo0 calls st0) sched = Some cf -> terminal cf ->
  exists order,
    absS (g_store cf) = fst (mserial W Call R mstep calls order (absS st0, map (fun _ => None) calls)) /\
    map (fun t => res (t_lo t)) (g_threads cf) =
      snd (mserial W Call R mstep calls order (absS st0, map (fun _ => None) calls)) /\
    Forall (fun r => r <> None) (snd (mserial W Call R mstep calls order (absS st0, map (fun _ => None) calls))).
Proof.
  intros Lo V W Call R mstep sem absS res lo0 calls WL ONE NE EFF st0 sched cf. rewrite lin_config_obj.
  exact (object_serializable_args Lo V W Call R mstep sem absS res (fun _ => lo0) calls WL ONE NE EFF st0 sched cf).
Qed.

(* SessionCache.  Hypothesis 1: the access pattern of `sem` is the one extracted from /repo
   (Gen/Locks.v) -- this includes the clock read (XClock, a shared read) INSIDE the critical section.
   Hypothesis 2: run alone, a call does what Model.C18_Cache.apply does with the clock value read
   at that point (cache_mstep: clock = previous reading + a per-call advance).  Together they say
   "the timestamp is taken at the linearization point"; hence along any sequential order the clock
   values are non-decreasing (serial_calls_refine_spec: the history is monotone) and the list stays
   ordered in time (cache_timestamps_sorted).  If the code read the clock before acquiring the lock,
   hypothesis 1 would fail on the extracted list (extracted_lock_discipline breaks) -- the seeded
   change "build the list element before taking the lock" is exactly that.
   Conclusion: every interleaving of any number of __getitem__/__setitem__ calls equals the
   sequential model for some order of the calls.  (With advances >= 0 a sequential run of calls is
   covered by serial_calls_refine_spec / cache_refines_spec; that `mserial order`, which runs thread
   indices, is the `mfold` of the calls in that order is not proved.) *)
Theorem cache_linearizable : forall (Lo V : Type) (sem : ccall -> list (step Lo V))
    (absS : store V -> world * Z) (res : Lo -> option outcome) (lo0 : Lo) (calls : list ccall),
  (forall call, In call calls -> cache_method (fst call) = Some (map (@shape_of Lo V) (sem call))) ->
  (forall call st, In call calls ->
     absS (fst (run_all st lo0 (sem call))) = fst (cache_mstep (absS st) call) /\
     res (snd (run_all st lo0 (sem call))) = Some (snd (cache_mstep (absS st) call))) ->
  forall st0 sched cf,
  run_sched (lin_config Lo V ccall sem lo0 calls st0) sched = Some cf -> terminal cf ->
  exists order,
    let m := mserial (world * Z) ccall outcome cache_mstep calls order (absS st0, map (fun _ => None) calls) in
    absS (g_store cf) = fst m /\
    map (fun t => res (t_lo t)) (g_threads cf) = snd m /\
    Forall (fun r => r <> None) (snd m).
Proof.
  intros Lo V sem absS res lo0 calls Hshape Heff.
  apply object_serializable; try exact Heff; intros call Hin;
    destruct (cache_shapes_ok _ _ (Hshape call Hin)) as [Hw [Hc Hne]].
  - unfold well_locked. rewrite wl_of_shape. exact Hw.
  - rewrite count_acq_of_shape. exact Hc.
  - intros E. apply Hne. rewrite E. reflexivity.
Qed.

(* ... and what that sequential run returns: calls executed one after the other (`mfold`, each
   reading a clock that never goes back) return exactly the outcomes of the abstract
   specification for the history they form. *)
Theorem serial_calls_refine_spec : forall n maxAge t0 (cs : list ccall),
  1 <= n -> Forall (fun c : ccall => 0 <= snd c) cs ->
  snd (mfold (init_world n maxAge, t0) cs) = spec_outcomes n maxAge (hist_of t0 cs) /\
  monotone (hist_of t0 cs).
Proof.
  intros n maxAge t0 cs Hn Hd.
  assert (monotone (hist_of t0 cs)) as Hm by (eapply monotone_from_monotone, hist_of_monotone; exact Hd).
  split; [|exact Hm].
  rewrite (proj1 (mfold_exec cs (init_world n maxAge) t0)).
  exact (cache_refines_spec n maxAge (hist_of t0 cs) Hn Hm).
Qed.

(* the two hypotheses are satisfiable for every list of get/put calls: a step program with exactly
   the extracted shapes whose sequential effect is the model (Proofs/C18_LinEx.v) *)
Example cache_linearizable_hypotheses_instance : forall calls : list ccall,
  Forall (fun c => match fst c with Get _ | Put _ _ => True | _ => False end) calls ->
  (forall call, In call calls -> cache_method (fst call) = Some (map (@shape_of exLo exV) (ex_sem call))) /\
  (forall call st, In call calls ->
     ex_abs (fst (run_all st None (ex_sem call))) = fst (cache_mstep (ex_abs st) call) /\
     (fun lo : exLo => lo) (snd (run_all st None (ex_sem call))) = Some (snd (cache_mstep (ex_abs st) call))).
Proof.
  intros calls Hall. rewrite Forall_forall in Hall.
  assert (forall call, In call calls -> exists sh, cache_method (fst call) = Some sh) as Hm.
  { intros [[id|id s| |s b] d] Hin; specialize (Hall _ Hin); cbn [fst] in Hall; try contradiction;
      cbn [fst cache_method]; eauto. }
  split.
  - intros call Hin. apply ex_sem_shape, Hm, Hin.
  - intros call st Hin. destruct (Hm call Hin) as [sh H]. exact (ex_sem_effect call sh st H).
Qed.

(* Python_RSAKey: squaring both halves of the blinding pair, as _rawPrivateKeyOp does after every use,
   keeps blinder * unblinder^e = 1 (mod n) *)
Theorem blinding_invariant : forall n e b u, 1 < n ->
  binv n e b u -> binv n e ((b * b) mod n) ((u * u) mod n).
Proof. intros n e b u Hn. exact (Proofs.C10_MathP.blind_pair_square n e Hn b u). Qed.

(* the hand-written step program performs the lock operations and the accesses to
   blinder/unblinder in exactly the order extracted from /repo *)
Theorem rsa_trace_tie : forall n e invmod helper,
  xsteps_eqb (rsa_trace (rsa_prog n e invmod helper))
             (racy_trace (written "Python_RSAKey" all_methods) Python_RSAKey_rawPrivateKeyOp) = true.
Proof. intros. vm_compute. reflexivity. Qed.

(* Any number of concurrent calls of _rawPrivateKeyOp on one key, any schedule: every call
   returns m^d mod n and the pair is left valid.  Hypotheses: the key works (H-rsa-key) and the
   random unblinder a first pass draws is invertible mod n. *)
Theorem concurrent_private_ops_correct : forall n e d invmod helper,
  1 < n -> 0 <= e -> 0 <= d ->
  (forall x, 0 <= x < n -> helper x = (x ^ d) mod n) ->
  (forall x, (x ^ (e * d)) mod n = x mod n) ->
  forall calls b0 u0 sched cf,
  (b0 = 0 \/ binv n e b0 u0) ->
  (forall mr, In mr calls -> unit_ok n invmod (snd mr)) ->
  run_sched (rsa_config n e invmod helper b0 u0 calls) sched = Some cf -> terminal cf ->
  Forall2 (fun mr t => l_c (t_lo t) = (fst mr ^ d) mod n) calls (g_threads cf) /\
  pair_ok n e (g_store cf).
Proof. exact concurrent_private_ops_correct_all. Qed.

(* the hypotheses are satisfiable: p = 11, q = 23, e = 3, d = 37, CRT helper *)
Example rsa_hypotheses_instance :
  1 < toy_n /\ 0 <= toy_e /\ 0 <= toy_d /\
  (forall x, 0 <= x < toy_n -> toy_helper x = (x ^ toy_d) mod toy_n) /\
  (forall x, (x ^ (toy_e * toy_d)) mod toy_n = x mod toy_n) /\
  unit_ok toy_n toy_invmod 2 /\ unit_ok toy_n toy_invmod 100.
Proof.
  split; [reflexivity|]. split; [discriminate|]. split; [discriminate|].
  split; [exact toy_key_helper|]. split; [exact toy_key_ed|]. split; reflexivity.
Qed.
