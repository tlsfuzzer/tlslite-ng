(* Property C04 -- tampering with the handshake in flight cannot yield two endpoints that
   disagree.

   The attacker is an ARBITRARY function on every flight (a1 .. a5 : list msg -> list msg), in
   both directions; the honest endpoints' message contents are arbitrary oracles.  The only
   idealisation is on the primitives (H_ideal_hash, H_ideal_prf, and `unforgeable`: a Finished
   value under an honest key that the attacker delivers was computed by an honest endpoint);
   theorems that use it carry the suffix _ideal.  The Section variables are those of Section Flows of
   Model/C04_Tamper.v, where each is explained. *)
From Coq Require Import ZArith List Bool.
From TV Require Import Model.C04_Tamper Model.C04_Toy Model.C04_SitesExpected Gen.C04_Sites
                       Proofs.C04_Tamper Proofs.C04_Hrr Proofs.C04_Toy Proofs.C04_Examples Proofs.C04_Sites.
Import ListNotations.
Open Scope Z_scope.

Section C04.
  Variable hash : Z -> transcript -> list Z.
  Variable fin : Z -> Z -> list Z -> list Z.
  Variable prf_of : Z -> Z -> Z.
  Variable suite_ok : Z -> Z -> bool.
  Variables cmin cmax smin smax : Z.
  Variable c_hello : chello.
  Variable s_ch_ok : chello -> bool.
  Variable s_reply12 : Z -> chello -> option (shello * list msg).
  Variable c_extra_ok : chello -> shello -> bool.
  Variable c_flight12 : transcript -> list msg.
  Variable s_flight_ok : transcript -> list msg -> bool.
  Variable c_flight_ok : transcript -> list msg -> bool.
  Variable s_nst : transcript -> list msg.
  Variable c_key s_key : transcript -> Z.
  Variable s_resume : Z -> chello -> option (shello * Z).
  Variable c_sess_key : Z.
  Variable s_hrr : chello -> option (shello * option (list Z) * Z).
  Variable c_hello2 : chello -> shello -> option chello.
  Variable s_reply13 : transcript -> chello -> option (shello * list msg * option (nat * Z)).
  Variable c_psk_keys : list Z.
  Variable c_flight13 : transcript -> list msg.
  Variable psk_alg : Z -> Z.

  Hypothesis H_ideal_hash : forall a t a' t', hash a t = hash a' t' -> a = a' /\ t = t'.
  Hypothesis H_ideal_prf : forall k l d k' l' d', fin k l d = fin k' l' d' -> k = k' /\ l = l' /\ d = d'.

  Notation R12 := (run12 hash fin prf_of suite_ok cmin cmax smin smax c_hello s_ch_ok s_reply12 c_extra_ok
                         c_flight12 s_flight_ok c_flight_ok s_nst c_key s_key).
  Notation R12r := (run12r hash fin prf_of suite_ok cmin cmax smin smax c_hello s_ch_ok c_extra_ok
                           s_resume c_sess_key).
  Notation R13 := (run13 hash fin prf_of suite_ok cmin cmax smin smax c_hello s_ch_ok c_extra_ok
                         s_flight_ok c_flight_ok c_key s_key s_hrr c_hello2 s_reply13 c_psk_keys c_flight13 psk_alg).
  Notation CH1 := (set_binders c_hello (binders_for hash fin c_psk_keys psk_alg [] c_hello)).

  (* both complete  ==>  identical transcripts, keys and hellos *)
  (* TLS <= 1.2 full handshake, for all attacker functions a1..a4 *)
  Theorem both_complete_transcripts_equal_tls12_full_ideal : forall a1 a2 a3 a4 c s,
    o_c (R12 a1 a2 a3 a4) = Some c -> o_s (R12 a1 a2 a3 a4) = Some s ->
    unforgeable fin (R12 a1 a2 a3 a4) -> c = s.
  Proof.
    intros * Hc Hs Hu. refine (closes_agree H_ideal_hash H_ideal_prf _ Hc Hs Hu). eapply le_closes, run12_ends.
  Qed.

  (* TLS <= 1.2 abbreviated handshake (session id / ticket resumption) *)
  Theorem both_complete_transcripts_equal_tls12_resumption_ideal : forall a1 a2 a3 c s,
    o_c (R12r a1 a2 a3) = Some c -> o_s (R12r a1 a2 a3) = Some s ->
    unforgeable fin (R12r a1 a2 a3) -> c = s.
  Proof.
    intros * Hc Hs Hu. refine (closes_agree H_ideal_hash H_ideal_prf _ Hc Hs Hu). eapply le_closes, run12r_ends.
  Qed.

  (* TLS 1.3: full, HelloRetryRequest (synthetic message_hash transcript on both sides) and PSK
     (binders over the truncated hello) are the branches of run13 *)
  Theorem both_complete_transcripts_equal_tls13_full_hrr_psk_ideal : forall a1 a2 a3 a4 a5 c s,
    o_c (R13 a1 a2 a3 a4 a5) = Some c -> o_s (R13 a1 a2 a3 a4 a5) = Some s ->
    unforgeable fin (R13 a1 a2 a3 a4 a5) -> c = s.
  Proof.
    intros * Hc Hs Hu. refine (closes_agree H_ideal_hash H_ideal_prf _ Hc Hs Hu). apply run13_closes.
  Qed.

  (* the negotiated view (version, suite, key, EMS, EtM, ALPN, SNI, record limits, randoms, session id)
     is a function of what the endpoint holds, hence equal *)
  Theorem both_complete_views_equal_ideal :
    (forall a1 a2 a3 a4 c s, o_c (R12 a1 a2 a3 a4) = Some c -> o_s (R12 a1 a2 a3 a4) = Some s ->
       unforgeable fin (R12 a1 a2 a3 a4) -> view_of c = view_of s /\ e_tr c = e_tr s) /\
    (forall a1 a2 a3 c s, o_c (R12r a1 a2 a3) = Some c -> o_s (R12r a1 a2 a3) = Some s ->
       unforgeable fin (R12r a1 a2 a3) -> view_of c = view_of s /\ e_tr c = e_tr s) /\
    (forall a1 a2 a3 a4 a5 c s, o_c (R13 a1 a2 a3 a4 a5) = Some c -> o_s (R13 a1 a2 a3 a4 a5) = Some s ->
       unforgeable fin (R13 a1 a2 a3 a4 a5) -> view_of c = view_of s /\ e_tr c = e_tr s).
  Proof.
    split; [|split]; intros * Hc Hs Hu.
    - rewrite (both_complete_transcripts_equal_tls12_full_ideal _ _ _ _ _ _ Hc Hs Hu). split; reflexivity.
    - rewrite (both_complete_transcripts_equal_tls12_resumption_ideal _ _ _ _ _ Hc Hs Hu). split; reflexivity.
    - rewrite (both_complete_transcripts_equal_tls13_full_hrr_psk_ideal _ _ _ _ _ _ _ Hc Hs Hu). split; reflexivity.
  Qed.

  (* no downgrade: what both hold is the server's answer to the HONEST hello *)
  Theorem no_downgrade_tls12_ideal : forall a1 a2 a3 a4 c s,
    o_c (R12 a1 a2 a3 a4) = Some c -> o_s (R12 a1 a2 a3 a4) = Some s -> unforgeable fin (R12 a1 a2 a3 a4) ->
    exists v sh0 rest, sel_version smin smax c_hello = SelOk v /\ scsv_hit smax v c_hello = false /\
      s_reply12 v c_hello = Some (sh0, rest) /\
      e_sh c = set_tail sh0 (sentinel_for smax v (sh_tail sh0)) /\ e_sh s = e_sh c /\ e_ch s = c_hello.
  Proof.
    intros * Hc Hs Hu. refine (legacy_no_downgrade H_ideal_hash H_ideal_prf _ Hc Hs Hu). apply run12_ends.
  Qed.

  Theorem no_downgrade_tls12_resumption_ideal : forall a1 a2 a3 c s,
    o_c (R12r a1 a2 a3) = Some c -> o_s (R12r a1 a2 a3) = Some s -> unforgeable fin (R12r a1 a2 a3) ->
    exists v sh0 k, sel_version smin smax c_hello = SelOk v /\ scsv_hit smax v c_hello = false /\
      s_resume v c_hello = Some (sh0, k) /\
      e_sh c = set_tail sh0 (sentinel_for smax v (sh_tail sh0)) /\ e_sh s = e_sh c /\ e_ch s = c_hello.
  Proof.
    intros * Hc Hs Hu. refine (legacy_no_downgrade H_ideal_hash H_ideal_prf _ Hc Hs Hu). apply run12r_ends.
  Qed.

  Theorem no_downgrade_tls13_ideal : forall a1 a2 a3 a4 a5 c s,
    o_c (R13 a1 a2 a3 a4 a5) = Some c -> o_s (R13 a1 a2 a3 a4 a5) = Some s -> unforgeable fin (R13 a1 a2 a3 a4 a5) ->
    sel_version smin smax CH1 = SelOk TLS13 /\ scsv_hit smax TLS13 CH1 = false /\
    get_ch (a1 [MCH CH1]) = Some CH1 /\ e_sh s = e_sh c /\ e_ch s = e_ch c.
  Proof.
    intros * Hc Hs Hu. destruct (both_complete_transcripts_equal_tls13_full_hrr_psk_ideal _ _ _ _ _ _ _ Hc Hs Hu).
    pose proof (done_c _ _ Hc) as D. apply run13_ends in D as (ch1' & G & F & C & S).
    destruct (C c Hc) as (_ & Bc & _). destruct (S c Hs) as (_ & Bs & _).
    (* one transcript, read by the client from the hello it sent and by the server from the one it received *)
    destruct (began_first H_ideal_hash Bc Bs).
    apply server_front_ok in F as (A & B). repeat split; assumption.
  Qed.

  (* downgrade sentinel: NO idealisation, NO hypothesis on the attacker *)
  (* full AND abbreviated handshake: a server that completes selected v and wrote the RFC 8446 4.1.3
     value into its ServerHello.  (Before /repo commit 9a5e0f9 the resumed ServerHello was built with
     getRandomBytes(32) only and carried no sentinel: a TLS-1.3-capable server resuming at TLS 1.2, as the
     live scenario srv13-resume12 showed on the code.) *)
  Theorem sentinel_written :
    (forall a1 a2 a3 a4 s, o_s (R12 a1 a2 a3 a4) = Some s ->
       exists v, sel_version smin smax (e_ch s) = SelOk v /\
         (v < TLS12 -> smax >= TLS12 -> sh_tail (e_sh s) = 1) /\
         (v = TLS12 -> smax > TLS12 -> sh_tail (e_sh s) = 2)) /\
    (forall a1 a2 a3 s, o_s (R12r a1 a2 a3) = Some s ->
       exists v, sel_version smin smax (e_ch s) = SelOk v /\
         (v < TLS12 -> smax >= TLS12 -> sh_tail (e_sh s) = 1) /\
         (v = TLS12 -> smax > TLS12 -> sh_tail (e_sh s) = 2)).
  Proof.
    split; intros * Hs; eapply legacy_sentinel_written in Hs; [exact Hs|apply run12_ends|exact Hs|apply run12r_ends].
  Qed.

  (* a client that completes -- in any flow, whatever the attacker and the primitives do -- holds
     a ServerHello on which the sentinel test is negative *)
  Theorem sentinel_checked :
    (forall a1 a2 a3 a4 c, o_c (R12 a1 a2 a3 a4) = Some c ->
       sentinel_hit cmax (sh_version (e_sh c)) (sh_tail (e_sh c)) = false) /\
    (forall a1 a2 a3 c, o_c (R12r a1 a2 a3) = Some c ->
       sentinel_hit cmax (sh_version (e_sh c)) (sh_tail (e_sh c)) = false) /\
    (forall a1 a2 a3 a4 a5 c, o_c (R13 a1 a2 a3 a4 a5) = Some c ->
       sentinel_hit cmax (sh_version (e_sh c)) (sh_tail (e_sh c)) = false).
  Proof.
    split; [|split]; intros * Hc.
    - eapply le_client in Hc as (_ & A); [exact (client_accepts_sentinel A)|apply run12_ends].
    - eapply le_client in Hc as (_ & A); [exact (client_accepts_sentinel A)|apply run12r_ends].
    - pose proof (done_c _ _ Hc) as D. apply run13_ends in D as (ch1' & _ & _ & C & _).
      destruct (C c Hc) as (A & _). exact (client_accepts_sentinel A).
  Qed.

  (* ... and it is enforced AT the ServerHello, in the full and in the abbreviated handshake alike: whatever
     follows the ServerHello (key exchange, Finished -- the functions a3, a4 and the primitives), the run ends with
     the client refusing it.  No hypothesis: holds even if the older version's Finished cannot be trusted. *)
  Theorem sentinel_stops_at_server_hello :
    (forall a1 a2 sh', client_sees12 smin smax c_hello s_ch_ok s_reply12 a1 a2 = Some sh' ->
       sentinel_hit cmax (sh_version sh') (sh_tail sh') = true ->
       forall a3 a4, exists a, R12 a1 a2 a3 a4 = stop 1 a) /\
    (forall a1 a2 sh', client_sees12r hash fin prf_of smin smax c_hello s_ch_ok s_resume a1 a2 = Some sh' ->
       sentinel_hit cmax (sh_version sh') (sh_tail sh') = true ->
       forall a3, exists a, R12r a1 a2 a3 = stop 1 a).
  Proof.
    split; intros a1 a2 sh' H Hit; intros;
      (destruct (client_accepts suite_ok cmin cmax c_extra_ok c_hello sh') as [|a] eqn:Ha;
         [apply client_accepts_sentinel in Ha; congruence|]); exists a.
    - eapply sees12_stops; [exact H|exact Ha].
    - eapply sees12r_stops; [exact H|exact Ha].
  Qed.

  (* TLS_FALLBACK_SCSV: a server that completes did not see the SCSV below its maximum *)
  Theorem scsv_enforced :
    (forall a1 a2 a3 a4 s, o_s (R12 a1 a2 a3 a4) = Some s ->
       exists v, sel_version smin smax (e_ch s) = SelOk v /\ scsv_hit smax v (e_ch s) = false) /\
    (forall a1 a2 a3 s, o_s (R12r a1 a2 a3) = Some s ->
       exists v, sel_version smin smax (e_ch s) = SelOk v /\ scsv_hit smax v (e_ch s) = false) /\
    (forall a1 a2 a3 a4 a5 s, o_s (R13 a1 a2 a3 a4 a5) = Some s ->
       scsv_hit smax TLS13 (e_ch s) = false).
  Proof.
    split; [|split]; intros * Hs.
    - eapply legacy_scsv_enforced in Hs; [exact Hs|apply run12_ends].
    - eapply legacy_scsv_enforced in Hs; [exact Hs|apply run12r_ends].
    - pose proof (done_s _ _ Hs) as D. apply run13_ends in D as (ch1' & _ & F & _ & S).
      (* the hello the server holds carries the cipher suites of the first *)
      destruct (S s Hs) as ([= _ _ _ Es _ _] & _). apply server_front_ok in F as (_ & B).
      unfold scsv_hit in *. rewrite <- Es. exact B.
  Qed.

  (* fallback retry (RFC 7507), end to end *)
  (* the client side (scsv_sent_when_requested below) joined with the server side (the test behind
     scsv_enforced) in fallback_hello_refused of Proofs/C04_Tamper.v: a hello built by
     client_first_hello with sendFallbackSCSV, WITH OR WITHOUT an offered session, for which the server
     would select a version below its maximum, never makes the server complete -- full or abbreviated
     handshake -- when it arrives as sent (no hypothesis at all) ... *)
  Theorem fallback_retry_refused : forall ver rand fsid real session exts v,
    c_hello = client_first_hello ver rand fsid real true session exts ->
    sel_version smin smax c_hello = SelOk v -> v < smax ->
    (forall a1 a2 a3 a4, get_ch (a1 [MCH c_hello]) = Some c_hello -> o_s (R12 a1 a2 a3 a4) = None) /\
    (forall a1 a2 a3, get_ch (a1 [MCH c_hello]) = Some c_hello -> o_s (R12r a1 a2 a3) = None).
  Proof.
    intros * Hc Hsel Hv. assert (S : memZ FALLBACK_SCSV (ch_suites c_hello) = true) by (rewrite Hc, scsv_on_wire; apply orb_true_r).
    split; intros * G; (eapply legacy_fallback_refused; [|exact S|exact Hsel|exact Hv|exact G]); [apply run12_ends|apply run12r_ends].
  Qed.

  (* ... and whatever the attacker does to it, the two endpoints never both complete *)
  Theorem fallback_retry_refused_ideal : forall ver rand fsid real session exts v,
    c_hello = client_first_hello ver rand fsid real true session exts ->
    sel_version smin smax c_hello = SelOk v -> v < smax ->
    (forall a1 a2 a3 a4 c s, o_c (R12 a1 a2 a3 a4) = Some c -> o_s (R12 a1 a2 a3 a4) = Some s ->
       unforgeable fin (R12 a1 a2 a3 a4) -> False) /\
    (forall a1 a2 a3 c s, o_c (R12r a1 a2 a3) = Some c -> o_s (R12r a1 a2 a3) = Some s ->
       unforgeable fin (R12r a1 a2 a3) -> False).
  Proof. intros *. apply fallback_refused_ideal; assumption. Qed.
End C04.

(* the client sends TLS_FALLBACK_SCSV whenever settings.sendFallbackSCSV, for every configuration,
   with or without an offered session (both ClientHello constructions pass wireCipherSuites) *)
Theorem scsv_sent_when_requested : forall ver rand fsid real session exts,
  memZ FALLBACK_SCSV (ch_suites (client_first_hello ver rand fsid real true session exts)) = true.
Proof. intros. rewrite scsv_on_wire. apply orb_true_r. Qed.

Theorem scsv_absent_when_not_requested : forall ver rand fsid real session exts,
  memZ FALLBACK_SCSV real = false ->
  memZ FALLBACK_SCSV (ch_suites (client_first_hello ver rand fsid real false session exts)) = false.
Proof.
  intros * H. rewrite scsv_on_wire, H. reflexivity.
Qed.

(* second ClientHello after HelloRetryRequest: the server goes on only if the second hello equals the
   first in everything outside the permitted differences (key_share, cookie, padding, pre_shared_key,
   early_data), and carries exactly one share, of the requested group.  psk_is_last c1 is the ClientHello sanity check
   "PSK extension not last in client hello" of _serverGetClientHello, which the first hello has passed. *)
Theorem hrr_second_hello_bound : forall cookie group c1 c2,
  psk_is_last c1 = true ->
  hrr_second_ok cookie group c1 c2 = true ->
  ch_fixed_part c1 = ch_fixed_part c2 /\
  exists share, find_ext X_KEYSHARE (ch_exts c2) = Some [group; share].
Proof. intros cookie group c1 c2 Hl. exact (hrr_second_ok_fixed cookie group c1 c2 (or_introl Hl)). Qed.

(* tie: the code's transcript / sentinel / SCSV (server check AND client emission) / comparison sites
   are the modelled ones; every check's reaction is a DRIVEN alert (`for x in self._sendError(..): yield x`) or a
   raise, and no generator method of these files is merely called as an expression statement *)
Theorem transcript_sites_as_modelled :
  hash_sites = expected_hash_sites /\ guard_sites = expected_guard_sites /\
  server_hello_sites = expected_server_hello_sites /\ guard_positions = expected_guard_positions /\
  client_hello_sites = expected_client_hello_sites /\ client_suite_sites = expected_client_suite_sites /\
  undriven_generator_calls = nil.
Proof. repeat split; reflexivity. Qed.

(* what the sentinel code DECIDES (extracted by executing it over its whole finite domain, so any equivalent
   rewrite gives the same table): the client's check between _clientGetServerHello and the first branch into
   TLS 1.3 / resumption / key exchange is sentinel_hit with illegal_parameter; the random of every TLS <= 1.2
   ServerHello construction (full and resumed) is sentinel_for *)
Theorem sentinel_sites_decide_as_modelled :
  forallb check_row_ok sentinel_check_table = true /\ List.length sentinel_check_table = 75%nat /\
  forallb write_row_ok sentinel_write_table = true /\ List.length sentinel_write_table = 28%nat /\
  sentinel_write_functions = expected_sentinel_write_functions.
Proof. vm_compute. repeat split; reflexivity. Qed.

(* the hypotheses are satisfiable, and every flow has a completing run *)
Example ideal_primitives_exist :
  (forall a t a' t', toy_hash a t = toy_hash a' t' -> a = a' /\ t = t') /\
  (forall k l d k' l' d', toy_fin k l d = toy_fin k' l' d' -> k = k' /\ l = l' /\ d = d').
Proof. exact (conj toy_hash_ideal toy_fin_ideal). Qed.

Example tls12_full_completes_with_sentinel :
  both_complete (ex_run12 idf idf idf idf) /\ unforgeable toy_fin (ex_run12 idf idf idf idf) /\
  option_map (fun e => sh_tail (e_sh e)) (o_s (ex_run12 idf idf idf idf)) = Some 2.
Proof. split; [apply both_of_done2; vm_compute; reflexivity|split; [apply unforgeable_of_check; vm_compute; reflexivity|vm_compute; reflexivity]]. Qed.

Example tls12_resumption_completes_with_sentinel :
  both_complete (ex_run12r idf idf idf) /\ unforgeable toy_fin (ex_run12r idf idf idf) /\
  option_map (fun e => sh_tail (e_sh e)) (o_s (ex_run12r idf idf idf)) = Some 2.
Proof. split; [apply both_of_done2; vm_compute; reflexivity|split; [apply unforgeable_of_check; vm_compute; reflexivity|vm_compute; reflexivity]]. Qed.

Example tls13_psk_with_and_without_hrr_completes : forall hrr,
  both_complete (ex_run13 hrr idf idf idf idf idf) /\ unforgeable toy_fin (ex_run13 hrr idf idf idf idf idf).
Proof. intros [|]; (split; [apply both_of_done2; vm_compute; reflexivity|apply unforgeable_of_check; vm_compute; reflexivity]). Qed.

Example stripping_tls13_from_the_hello_is_stopped_by_the_sentinel :
  o_stage (ex_run12_dg strip13 idf idf idf) = (1, ALERT_ILLEGAL_PARAMETER).
Proof. vm_compute. reflexivity. Qed.

Example fallback_hello_with_cached_session_carries_scsv :
  ch_suites (client_first_hello 771 1 2 [49199; 156] true (Some 300) []) = [255; 49199; 156; 22016] /\
  ch_sid (client_first_hello 771 1 2 [49199; 156] true (Some 300) []) = 300 /\
  sel_version 769 772 (client_first_hello 771 1 2 [49199; 156] true (Some 300) []) = SelOk 771.
Proof. vm_compute. repeat split; reflexivity. Qed.
