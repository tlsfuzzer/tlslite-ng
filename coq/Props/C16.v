(* Property C16 -- post-handshake control traffic never disturbs the data stream or key sync.
   The arguments are in Proofs/C16_*.v (C16_Step: the outcomes of each operation; C16_PostHs,
   C16_Honest, C16_Heartbeat: one invariant each).  The model is Model/C16_PostHs.v
   (tied to tlslite-ng by the per-operation correspondence of harness/props/C16.py); the
   predicates are in Spec/C16_Spec.v.

   [exec (init v13 cc sc nst) ops] is the state after an ARBITRARY list [ops] of operations,
   each issued by either endpoint (write, read, key_update(request?), request_client_auth,
   heartbeat(payload,padding), tickets, close, record-size changes, and the deviating-peer
   operations: lying or replaying post-handshake-auth client, injection of any control record other than
   a valid KeyUpdate or an alert),
   from ANY configuration of the two endpoints, TLS 1.3 (v13 = true) or TLS <= 1.2. *)
From Coq Require Import ZArith List Bool.
From TV Require Import Base.Prelude Model.C16_PostHs Spec.C16_Spec Proofs.C16_PostHs Proofs.C16_Honest Proofs.C16_Heartbeat.
From Coq Require Import Lia.
From TV Require Import Base.PreludeFacts Proofs.C16_Step.
Import ListNotations.
Open Scope Z_scope.

(* Every record in flight was written under exactly the generation its reader will have when it
   reaches it, in both directions, whatever the interleaving (both sides updating at once, any
   number of queued KeyUpdates): no reachable state ever fails to open a record. *)
Theorem keys_in_step : forall v13 cc sc nst ops,
  let s := exec (init v13 cc sc nst) ops in
  in_step (rgen (ks (eb s))) (ab s) (wgen (ks (ea s))) /\
  in_step (rgen (ks (ea s))) (ba s) (wgen (ks (eb s))) /\
  badmac (io (ea s)) = false /\ badmac (io (eb s)) = false.
Proof.
  intros. pose proof (reach_inv v13 cc sc nst ops) as H. fold s in H.
  destruct (Inv_cnt s H) as [(_ & _ & _ & Ca) (_ & _ & _ & Cb)].
  split; [exact (half_keys (Inv_ab s H))|]. split; [exact (half_keys (Inv_ba s H))|].
  split; assumption.
Qed.

(* Application bytes: what the writer's write() accepted = what the reader's read() returned
   ++ its read buffer ++ the data still in flight -- exactly and in order, in both directions,
   whatever control traffic is interleaved. *)
Theorem data_fifo_under_control : forall v13 cc sc nst ops,
  let s := exec (init v13 cc sc nst) ops in
  sent (io (ea s)) = delivered (io (eb s)) ++ rbuf (io (eb s)) ++ chdata (ab s) /\
  sent (io (eb s)) = delivered (io (ea s)) ++ rbuf (io (ea s)) ++ chdata (ba s).
Proof.
  intros. pose proof (reach_inv v13 cc sc nst ops) as H. fold s in H.
  split; [exact (half_fifo (Inv_ab s H))|exact (half_fifo (Inv_ba s H))].
Qed.

Corollary delivered_is_prefix : forall v13 cc sc nst ops,
  let s := exec (init v13 cc sc nst) ops in
  is_prefix (delivered (io (eb s))) (sent (io (ea s))) /\ is_prefix (delivered (io (ea s))) (sent (io (eb s))).
Proof.
  intros. destruct (data_fifo_under_control v13 cc sc nst ops) as [A B]. fold s in A, B. unfold is_prefix.
  split; eexists; eassumption.
Qed.

(* A KeyUpdate(update_requested) is answered by exactly one KeyUpdate(update_not_requested):
   responses sent = requests processed; and the write/read generations are exactly the numbers
   of KeyUpdates sent / processed (each advances the keys once, the response after it was sent). *)
Theorem ku_response_exactly_once : forall v13 cc sc nst ops,
  let s := exec (init v13 cc sc nst) ops in
  forall e, e = ea s \/ e = eb s ->
  n_ku_resp (ks e) = n_ku_req (ks e) /\ wgen (ks e) = n_ku_sent (ks e) /\ rgen (ks e) = n_ku_rcvd (ks e).
Proof.
  intros v13 cc sc nst ops s e He.
  assert (Hc : cnt_ok e) by (destruct He; subst e; apply (Inv_cnt s (reach_inv v13 cc sc nst ops))).
  destruct Hc as (Hw & Hr & Hq & _). split; [exact Hq|]. split; [exact Hw|exact Hr].
Qed.

(* Heartbeat.  A record is emitted in answer to a heartbeat record only if it parses as a request
   with >= 16 bytes of padding and the mode allows it; what is emitted is exactly ONE record, the
   response carrying the request's payload, and it fits into one record of the responder. *)
Theorem heartbeat_echo : forall me b me1 out,
  on_heartbeat me b = Some (me1, out) -> out <> [] ->
  exists payload pad, hb_parse b = Some (1, payload, pad) /\ 16 <= zlen pad /\
    hb_recv (cf me) = true /\ hb_sup (cf me) = true /\
    out = [emit me (MHB (hb_write 2 payload (padding 16)))] /\
    zlen (hb_write 2 payload (padding 16)) <= recsize (cf me).
Proof.
  intros me b me1 out H Hne. pose proof (on_heartbeat_cases true me b) as Hc. rewrite H in Hc.
  destruct Hc as (_ & Hs & Ho).
  destruct Ho as [|p pad Hp Hpad Hr Hsz|]; try congruence. exists p, pad. repeat split; assumption.
Qed.

(* ... a well-formed request is answered by one record that parses back to the same payload
   (Heartbeat.write/parse round trip), or -- when the answer would not fit into one record of the
   responder -- by nothing at all (RFC 6520: too large, silently discarded).  The bound on the payload is
   what makes it a Heartbeat message (a length of two bytes); the proof does not use it, [hb_write] not
   reducing the length it writes *)
Theorem heartbeat_request_answered : forall me p padlen,
  hb_sup (cf me) = true -> hb_recv (cf me) = true -> zlen p < 65536 -> 16 <= padlen ->
  on_heartbeat me (hb_write 1 p (padding padlen)) =
    Some (me, if recsize (cf me) <? 3 + zlen p + 16 then [] else [emit me (MHB (hb_write 2 p (padding 16)))]) /\
  hb_parse (hb_write 2 p (padding 16)) = Some (2, p, padding 16).
Proof.
  intros me p padlen Hs Hr _ Hpad. split; [|apply hb_roundtrip].
  assert (Hl : forall n, 0 <= n -> zlen (padding n) = n)
    by (intros n Hn; unfold padding; rewrite zlen_repeat; lia).
  pose proof (hb_roundtrip 1 p (padding padlen)) as Hrt.
  unfold on_heartbeat, hb_write in *. cbn [app] in *.
  rewrite Hs, Hrt, Hr, !zlen_cons, zlen_app, !Hl by lia. cbn [negb Z.eqb Pos.eqb].
  destruct (padlen <? 16) eqn:E; [lia|].
  replace (1 + (1 + (1 + (zlen p + 16)))) with (3 + zlen p + 16) by lia.
  destruct (recsize (cf me) <? 3 + zlen p + 16); reflexivity.
Qed.

(* ... a request that would have to be fragmented is refused at send time (ValueError): the
   state does not change and nothing is sent *)
Theorem heartbeat_oversize_refused : forall s p pl,
  recsize (cf (ea s)) < zlen (hb_write 1 p (padding pl)) ->
  fst (act s (OHeartbeat p pl)) = s /\ emitted (snd (act s (OHeartbeat p pl))) = [] /\
  2000 <= code (snd (act s (OHeartbeat p pl))).
Proof.
  intros s p pl H. unfold act. destruct (closed (io (ea s))); [cbn; repeat split; lia|].
  destruct (negb (hb_sup (cf (ea s))) || negb (hb_send (cf (ea s)))); [cbn; repeat split; lia|].
  destruct (recsize (cf (ea s)) <? zlen (hb_write 1 p (padding pl))) eqn:E; [cbn; repeat split; lia|].
  apply Z.ltb_ge in E. lia.
Qed.

(* ... and, for EVERY history in which no raw heartbeat record is injected by a deviating peer
   (all other operations, honest or not, allowed; any record sizes): every payload handed to a
   heartbeat callback is the payload of a write_heartbeat call made by that same endpoint --
   never a foreign payload.
   (Before /repo 9b89f7b this was FALSE of the code: with recordSize 20, payload = 17 filler bytes ++
   [1;0;1;9] ++ 16 bytes, padding 0, write_heartbeat fragmented the message, the peer answered
   the second fragment and the client's callback received [9]; the same history is
   ex_heartbeat_oversize_refused below.) *)
Theorem heartbeat_never_foreign_payload : forall v13 cc sc nst ops,
  forallb (fun p => no_hb_inject (snd p)) ops = true ->
  let s := exec (init v13 cc sc nst) ops in
  (forall p, In p (hb_got (ms (ea s))) -> In p (hb_calls true ops)) /\
  (forall p, In p (hb_got (ms (eb s))) -> In p (hb_calls false ops)).
Proof.
  intros v13 cc sc nst ops Ho.
  (* the payloads of an endpoint's calls bound its requests: every call of the history is among them *)
  assert (Hok : Forall (fun p => hb_ok (hb_calls (fst p) ops) (snd p)) ops).
  { apply Forall_forall. intros [a o] Hp. split; [exact (proj1 (forallb_forall _ _) Ho _ Hp)|].
    exact (hb_calls_in _ _ _ Hp). }
  destruct (exec_b (fun a => hb_calls a ops) ops _ (Build_BReq _ _ (init_b v13 cc sc nst) (incl_nil_l _) (incl_nil_l _)) Hok)
    as [[_ _ G1 G2] R1 R2].
  split; intros p Hp; [apply R1, G1, Hp|apply R2, G2, Hp].
Qed.

(* Post-handshake authentication: the server's recorded chain / list of authenticated contexts
   changes only when the Certificate is followed by a CertificateVerify whose signature verifies
   AND a Finished whose verify_data verifies (or, for an empty chain when no certificate is
   required, by a valid Finished); the chain recorded is the one in that Certificate. *)
Theorem pha_chain_after_verify_and_finished : forall me0 me whole rest ctx ch me' rest' em c,
  srv_pha me0 me whole rest ctx ch = (me', rest', em, c) ->
  accepted (au me0) = accepted (au me) -> chain (au me0) = chain (au me) ->
  accepted (au me') <> accepted (au me) \/ chain (au me') <> chain (au me) ->
  c = 0 /\ chain (au me') = ch /\ accepted (au me') = accepted (au me) ++ [ctx] /\
  ((ch <> 0 /\ exists t1 t2, rest = mkrec t1 (MCV true) :: mkrec t2 (MFin true) :: rest') \/
   (ch = 0 /\ cert_required (cf me) = false /\ exists t, rest = mkrec t (MFin true) :: rest')).
Proof.
  intros me0 me whole rest ctx ch me' rest' em c H E0 E1 Hch.
  pose proof (srv_pha_out me0 me whole rest ctx ch) as Ho. rewrite H in Ho.
  remember (me', rest', em, c) as R eqn:ER.
  destruct Ho as [|cons tl d E _|cons f tl E _ _|cons tl E _ Hp]; unfold die in ER; injection ER as <- <- <- <-.
  - destruct Hch; congruence.
  - cbn in Hch. tauto.
  - cbn in Hch. tauto.
  - split; [reflexivity|]. split; [reflexivity|]. split; [reflexivity|]. subst rest.
    destruct Hp as [(Hc & t1 & t2 & ->)|(Hc & Hr & t & ->)]; [left|right].
    + split; [exact Hc|]. exists t1, t2. reflexivity.
    + split; [exact Hc|]. split; [exact Hr|]. exists t. reflexivity.
Qed.

(* A request context authenticates at most once: in every reachable state the contexts for
   which a chain was recorded are pairwise distinct, none of them is still outstanding, the
   outstanding ones are pairwise distinct, and all were issued by this endpoint. *)
Theorem pha_context_single_use : forall v13 cc sc nst ops,
  let s := exec (init v13 cc sc nst) ops in
  forall e, e = ea s \/ e = eb s ->
  NoDup (accepted (au e)) /\ NoDup (ctxs e) /\
  (forall c, In c (accepted (au e)) -> ~ In c (ctxs e) /\ 0 < c < next_ctx (au e)).
Proof.
  intros v13 cc sc nst ops s e He.
  assert (Hx : au_ok e) by (destruct He; subst e; apply (Inv_au s (reach_inv v13 cc sc nst ops))).
  destruct Hx as (Hpending & _ & Haccepted & Hused & _). split; [exact Haccepted|]. split; [exact Hpending|].
  intros c Hc. destruct (Hused c Hc) as [Hrange Hout]. split; [exact Hout|exact Hrange].
Qed.

(* Malformed / unsolicited / not-permitted control records (Spec.bad_control: KeyUpdate with a
   value other than 0/1 or a wrong length or outside TLS 1.3, heartbeat when not negotiated or
   in peer_not_allowed_to_send mode, CertificateRequest to an endpoint that did not offer PHA or
   with an empty compression list, Certificate without an outstanding request or with an
   unknown/empty/used context, stray CertificateVerify/Finished/other handshake messages,
   NewSessionTicket to anything but a TLS 1.3 client, and record-ALIGNMENT violations: a KeyUpdate or
   a post-handshake Finished followed in its record by further handshake bytes -- a whole message
   or a fragment that would span the key change, RFC 8446 5.1): the reader sends the fatal alert, closes,
   and returns nothing.  FULL: no class is excluded.
   (Before /repo df198c5 a TLS 1.3 SERVER that received a NewSessionTicket stored it and went on;
   see ex_ticket_to_server_fatal.) *)
Theorem malformed_or_unsolicited_control_fatal : forall v13 me m inc' d,
  bad_control v13 me m = Some d ->
  rloop v13 me (mkrec (rgen (ks me)) m :: inc') = (fatal me d, inc', [emit me (MAlert true d)], 100 + d).
Proof.
  intros v13 me m inc' d H. pose proof (rloop_cons v13 me (mkrec (rgen (ks me)) m) inc' eq_refl) as C.
  cbn [body] in C. rewrite H in C. exact C.
Qed.

(* once closed (fatal alert sent or received, close) an endpoint consumes and emits nothing and
   returns only bytes it had already buffered *)
Theorem closed_endpoint_inert : forall s o, closed (io (ea s)) = true ->
  let s' := fst (act s o) in
  ab s' = ab s /\ ba s' = ba s /\ eb s' = eb s /\
  delivered (io (ea s')) ++ rbuf (io (ea s')) = delivered (io (ea s)) ++ rbuf (io (ea s)) /\
  closed (io (ea s')) = true.
Proof.
  intros s o Hc. unfold act. rewrite Hc.
  destruct o; cbn [orb fst ab ba eb ea]; try (repeat split; auto; fail).
  - (* ORead *) unfold deliver. cbn. repeat split; auto. rewrite <- app_assoc. f_equal. apply firstn_skipn.
  - (* OSetRecSize *) destruct (n <? 1); cbn; repeat split; auto.
Qed.

(* "Never disturbs": in a history of PERMITTED operations only (Spec.honest_op: no injected
   records, no lying or replaying PHA client; client-auth requests with ANY compression setting)
   between endpoints whose post-handshake flags are consistent (Spec.init_ok: roles,
   heartbeat negotiated on both sides or on neither, PHA only if the client offered it and has a
   chain, recordSize >= 1), NO fatal alert is ever sent by either endpoint -- whatever the
   interleaving of writes, reads, KeyUpdates (any number, both sides), client-auth requests (any
   number outstanding), heartbeats of any size, tickets and close.  Together with
   data_fifo_under_control: the stream is neither cut nor reordered. *)
Theorem honest_never_fatal : forall v13 cc sc nst ops,
  init_ok cc sc -> v13 = true \/ nst <= 0 ->
  forallb (fun p => honest_op (snd p)) ops = true ->
  let s := exec (init v13 cc sc nst) ops in
  alerts (io (ea s)) = [] /\ alerts (io (eb s)) = [].
Proof.
  intros v13 cc sc nst ops Hok Hv Hops.
  pose proof (exec_h ops (init v13 cc sc nst) (init_inv v13 cc sc nst) (init_h v13 cc sc nst Hok Hv) Hops) as H.
  split; [exact (h_alerts_a H)|exact (h_alerts_b H)].
Qed.

(* (F13: a client-auth request made with certificate_compression_receive=[] is well formed whatever
   the setting, so [ORequestAuth false] is an honest operation and is covered by honest_never_fatal;
   see ex_pha_request_without_compression.  Before /repo a078a25 such a request killed the connection
   at the server's next read.) *)

(* Examples: the hypotheses are satisfiable, the invariant is exercised on a non-trivial history *)
Example ex_simultaneous_update :
  let s := exec (init true ex_cc ex_sc 2)
             [(true, OKeyUpdate true); (false, OKeyUpdate true); (true, OWrite [1;2;3]); (false, OWrite [4;5]);
              (true, OKeyUpdate false); (false, ORead 0); (true, ORead 0); (true, ORead 0); (false, ORead 0);
              (true, ORead 0); (false, ORead 0); (true, ORead 0); (true, ORead 0)] in
  gens s = [3; 2; 2; 3] /\ delivered (io (eb s)) = [1;2;3] /\ delivered (io (ea s)) = [4;5] /\
  tickets (ms (ea s)) = 2 /\ ab s = [] /\ ba s = [].
Proof. vm_compute. repeat split. Qed.

Example ex_pha_accepts_honest_and_rejects_replay :
  let s1 := exec (init true ex_cc ex_sc 0)
             [(false, ORequestAuth true); (true, ORead 0); (false, ORead 0)] in
  let s2 := exec s1 [(true, OSetDev 4); (false, ORequestAuth true); (true, ORead 0); (false, ORead 0)] in
  chain (au (eb s1)) = 7 /\ accepted (au (eb s1)) = [1] /\ closed (io (eb s1)) = false /\
  chain (au (eb s2)) = 7 /\ accepted (au (eb s2)) = [1] /\ alerts (io (eb s2)) = [47].
Proof. vm_compute. repeat split. Qed.

Example ex_bad_control_hypotheses :
  bad_control true (ep0 ex_sc) (MKU 2) = Some 47 /\ bad_control true (ep0 ex_sc) (MCert 5 7) = Some 10 /\
  bad_control false (ep0 ex_cc) MNST = Some 10 /\ bad_control true (ep0 ex_cc) (MKU 1) = None /\
  bad_control true (ep0 ex_cc) (MKUx 1) = Some 10 /\ bad_control true (ep0 ex_sc) (MFinx true) = Some 10.
Proof. vm_compute. repeat split. Qed.

Example ex_pha_request_without_compression :
  let s := exec (init true ex_cc ex_sc 0)
             [(false, ORequestAuth false); (false, ORead 0); (true, ORead 0); (false, ORead 0)] in
  alerts (io (eb s)) = [] /\ alerts (io (ea s)) = [] /\ closed (io (eb s)) = false /\ chain (au (eb s)) = 7.
Proof. vm_compute. repeat split. Qed.

(* a PHA answer whose (valid) Finished does not end its record is refused and records no chain;
   a KeyUpdate that shares its record with a following message does not change the read keys *)
Example ex_alignment_violations :
  let s1 := exec (init true ex_cc ex_sc 0)
              [(true, OSetDev 7); (false, ORequestAuth true); (true, ORead 0); (false, ORead 0)] in
  let s2 := exec (init true ex_cc ex_sc 0) [(false, OInject (MKUx 0)); (true, ORead 0)] in
  alerts (io (eb s1)) = [10] /\ chain (au (eb s1)) = 0 /\ accepted (au (eb s1)) = [] /\
  alerts (io (ea s2)) = [10] /\ rgen (ks (ea s2)) = 0.
Proof. vm_compute. repeat split. Qed.

Example ex_init_ok : init_ok ex_cc ex_sc.
Proof. unfold init_ok, good_cfg, ex_cc, ex_sc. cbn. repeat split; auto; try lia; try discriminate. Qed.

Example ex_heartbeat :
  on_heartbeat (ep0 ex_sc) (hb_write 1 [7;8;9] (padding 16)) =
    Some (ep0 ex_sc, [emit (ep0 ex_sc) (MHB (hb_write 2 [7;8;9] (padding 16)))]).
Proof. vm_compute. reflexivity. Qed.

(* the history that reached the callback before /repo 9b89f7b: the oversize request is refused and nothing
   reaches the callback; and (df198c5) a client's NewSessionTicket kills the connection at the server *)
Example ex_heartbeat_oversize_refused :
  let pl := repeat 0 17 ++ [1; 0; 1; 9] ++ repeat 5 16 in
  let s := exec (init true (mkcfg true true true true true true false false 7 20 0) ex_sc 0)
             [(true, OHeartbeat pl 0); (false, ORead 0); (true, ORead 0)] in
  hb_got (ms (ea s)) = [] /\ ab s = [] /\ ba s = [] /\ hb_req (ms (ea s)) = [].
Proof. vm_compute. repeat split. Qed.

Example ex_ticket_to_server_fatal :
  let s := exec (init true ex_cc ex_sc 0) [(true, OInject MNST); (false, ORead 0)] in
  alerts (io (eb s)) = [10] /\ closed (io (eb s)) = true /\ tickets (ms (eb s)) = 0.
Proof. vm_compute. repeat split. Qed.
