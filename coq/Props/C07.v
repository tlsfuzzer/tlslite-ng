(* Property C07.  Spec/C07_NegotiateRFC.v states what any two conforming TLS
   endpoints must negotiate; the interoperability with OpenSSL itself is established per explored
   configuration by harness/props/C07.py (translation validation), not by these theorems. *)
From Coq Require Import ZArith List Bool.
From TV Require Import Base.Prelude Model.C03_Negotiate Spec.C07_NegotiateRFC
                       Proofs.C03_Negotiate Proofs.C07_Spec Proofs.C07_Refine.
Import ListNotations.
Open Scope Z_scope.

(* failures occur exactly when the two configurations share nothing usable *)
Theorem spec_fails_iff_no_common : forall env c s,
  spec_negotiate env c s = None <-> ~ common env c s.
Proof.
  intros env c s. split.
  - intros E C. destruct (spec_negotiate_complete C) as [ch E']. congruence.
  - intros N. destruct (spec_negotiate env c s) as [ch|] eqn:E; [destruct (N (spec_negotiate_sound E))|reflexivity].
Qed.

(* every component of the spec's choice lies in both configurations, the version is the highest
   common one at which some suite is feasible, and a suite that needs a group / a signature scheme gets one *)
Theorem spec_choice_in_both : forall env c s ch, spec_negotiate env c s = Some ch ->
  (In (co_version ch) (cf_versions c) /\ In (co_version ch) (cf_versions s) /\
   forall w, In w (cf_versions c) -> version_ok env c s w = true -> w <= co_version ch) /\
  (In (co_suite ch) (cf_suites c) /\ In (co_suite ch) (cf_suites s) /\
   usable env (co_version ch) (co_suite ch) = true) /\
  (forall g, co_group ch = Some g -> In g (cf_groups c) /\ In g (cf_groups s)) /\
  (forall sg, co_sig ch = Some sg -> In sg (cf_sigs c) /\ In sg (cf_sigs s) /\ sig_fits env (co_version ch) sg = true) /\
  (forall p, co_alpn ch = Some p -> exists a b, cf_alpn c = Some a /\ cf_alpn s = Some b /\ In p a /\ In p b) /\
  (needs_group env (co_suite ch) = true -> co_group ch <> None) /\
  (needs_sig env (co_version ch) (co_suite ch) = true -> co_sig ch <> None).
Proof.
  intros env c s ch H. pose proof (spec_negotiate_some H) as R.
  destruct (proj1 (feasible_spec _ _ _ _ _) (cs_feasible R)) as [U [G Sg]].
  split; [exact (conj (cs_version R) (conj (version_ok_in_server _ _ _ _ (cs_version_ok R)) (cs_highest R)))|].
  split; [exact (conj (cs_suite_c R) (conj (cs_suite_s R) U))|].
  rewrite (cs_group R), (cs_sig R).
  split.
  { intros g Hg. destruct (needs_group env _); [|discriminate Hg].
    apply first_common_some in Hg as [Is [Ic _]]. split; [exact Ic|exact Is]. }
  split.
  { intros sg Hg. destruct (needs_sig env _ _); [|discriminate Hg].
    apply first_common_some in Hg as [Is [Ic K]]. split; [exact Ic|]. split; [exact Is|exact K]. }
  split; [exact (cs_alpn R)|].
  (* a suite is feasible only if the group / scheme it needs is common *)
  split.
  - intros N. rewrite N. destruct (G N) as [g [A B]].
    destruct (first_common_exists _ _ (fun _ => true) g B A eq_refl) as [y ->]. discriminate.
  - intros N. rewrite N. destruct (Sg N) as [sg [A [B C]]].
    destruct (first_common_exists _ _ _ sg B A C) as [y ->]. discriminate.
Qed.

(* FULL STATEMENT: the C03 model of tlslite-ng yields exactly spec_negotiate of the abstracted
   configurations.  Proved part: whatever the model negotiates is *permitted* by the spec -- every
   component lies in both abstract configurations.  Missing for equality: tlslite-ng takes the first
   of the server's `versions` list offered by the client rather than the numerically highest, and
   orders suites by key-exchange family; equality would need `versions` sorted descending and a
   preference-order abstraction (both are compared on live runs by the harness instead). *)
Theorem tlslite_model_refines_spec_partial : forall c s o, negotiate c s = Ok o ->
  let v := vw_version (oc_server o) in let suite := vw_suite (oc_server o) in
  (0 <= v <= 4 -> In v (cf_versions (abs_client c))) /\
  (0 <= v <= 4 -> st_minV (sv_set s) <= st_maxV (sv_set s) -> In v (cf_versions (abs_server s v))) /\
  In suite (cf_suites (abs_client c)) /\ In suite (cf_suites (abs_server s v)) /\
  (forall g, fl_group (oc_flight o) = Some g -> In g (cf_groups (abs_client c)) /\ In g (cf_groups (abs_server s v))) /\
  (forall sg, fl_sig (oc_flight o) = Some sg -> In sg (cf_sigs (abs_client c)) /\ In sg (cf_sigs (abs_server s v))) /\
  (forall p, vw_alpn (oc_server o) = Some p ->
     exists a b, cf_alpn (abs_client c) = Some a /\ cf_alpn (abs_server s v) = Some b /\ In p a /\ In p b).
Proof.
  intros c s o H. cbn zeta.
  split; [exact (version_in_abs_client c s o H)|]. split; [exact (version_in_abs_server c s o H)|].
  destruct (suite_in_abs c s o H) as [SC SS]. split; [exact SC|]. split; [exact SS|].
  split; [intros g Hg; destruct (group_within_both c s o g H Hg) as [A B]; exact (conj B A)|].
  split; [intros sg; exact (sig_within_both c s o sg H)|].
  intros p. exact (alpn_within_both c s o p H).
Qed.

(* the hypotheses are satisfiable *)
Example spec_example :
  let env := {| usable := fun v s => (s =? 4866) && (v =? 4) || (s =? 49199) && (v =? 3);
                needs_group := fun _ => true; needs_sig := fun _ _ => true; sig_fits := fun _ _ => true |} in
  spec_negotiate env
    {| cf_versions := [4; 3]; cf_suites := [4866; 49199]; cf_groups := [29; 23]; cf_sigs := [2052]; cf_alpn := Some [1; 2] |}
    {| cf_versions := [3; 2]; cf_suites := [49199; 4866]; cf_groups := [23]; cf_sigs := [1025; 2052]; cf_alpn := Some [2] |}
  = Some {| co_version := 3; co_suite := 49199; co_group := Some 23; co_sig := Some 2052; co_alpn := Some 2 |}.
Proof. vm_compute. reflexivity. Qed.
