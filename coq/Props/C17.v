(* Property C17 -- closure, truncation and transport failures are contained and reported
   faithfully.  The model is Model/C17_Lifecycle.v (one connection) and Model/C17_Sessions.v
   (connections sharing session objects); what its functions guarantee in general and what they
   return in particular situations is in Proofs/C17_Lifecycle.v and Proofs/C17_Sessions.v.
   `run s evs` executes an ARBITRARY list of events (user calls, incoming messages, transport
   failures) from state s. *)
From Coq Require Import ZArith List Bool.
From TV Require Import Model.C17_Lifecycle Model.C17_Sessions Proofs.C17_Lifecycle Proofs.C17_Sessions.
Import ListNotations.
Open Scope Z_scope.

(* session.resumable is only ever switched off: along any event sequence in which no new
   session object is installed, the flag stays or goes from true to false *)
Theorem resumable_only_toggles_off : forall evs s s' os,
  Forall not_setsess evs -> run s evs = (s', os) -> sess_le (sess s) (sess s').
Proof.
  intros evs s s' os F H.
  refine (proj1 (run_invariant (fun t => sess_le (sess s) (sess t)) not_setsess (fun _ => True) _
                               evs s s' os (sess_le_refl _) F H)).
  intros t ev t' o P E S. split; [|exact I].
  eapply sess_le_trans; [exact P|]. eapply step_sess_le; eauto.
Qed.

(* closed is absorbing for data calls: on a closed connection (outside a handshake, nothing
   queued) every sequence of reads, writes, closes, post-handshake calls, makefile, flag changes,
   incoming messages and transport events leaves it closed, puts nothing on the wire, and yields
   only normal read returns, the closed-connection error for writes and for the keyupdate and
   heartbeat calls (ValueError for request_post_handshake_auth), and normal close returns *)
Theorem closed_is_absorbing : forall evs s s' os, shut s -> Forall data_event evs -> run s evs = (s', os) ->
  shut s' /\ wire s' = wire s /\
  Forall (fun o => (exists d, o = ORet d) \/ o = OExc XClosed \/ o = OExc XValue \/ o = ODone \/ o = OStep \/ o = ONone) os.
Proof.
  intros evs s s' os S F H. pose proof (run_shut _ _ _ _ S F H) as K.
  exact (conj (sr_shut K) (conj (sr_wire K) (sr_out K))).
Qed.

Theorem closed_is_absorbing_calls : forall s ev s' o, shut s -> data_event ev -> step s ev = (s', o) ->
  shut s' /\ wire s' = wire s /\
  match ev with
  | URead _ _ => exists d, o = ORet d /\ d ++ rbuf s' = rbuf s /\ sess s' = sess s
  | UWrite _ => o = OExc XClosed /\ s' = s
  | UClose => o = ODone /\ s' = s
  | UKeyUpdate | UHeartbeat _ => o = OExc XClosed /\ s' = s
  | UPha _ => o = OExc XValue /\ s' = s
  | _ => sess s' = sess s
  end.
Proof. exact step_shut. Qed.

(* orderly close: close_notify is the next message and the reader wants more than is buffered.
   The read returns the buffered bytes (no exception), answers close_notify, the session keeps
   its flag; afterwards, for EVERY continuation of data calls and transport events (reads, WRITES,
   closes, makefile, flag changes, incoming messages, EOF/reset/send failures -- everything but a
   new handshake): the connection stays closed, nothing goes on the wire, the session flag is
   unchanged, reads return nothing once the first read has drained the buffer, writes raise the
   closed-connection error.
   (Before /repo 8b57b65 this held only for continuations without writes:
   [close_notify; read; write] => session.resumable = False.) *)
Theorem after_close_notify : forall s l rest mx mn,
  closed s = false -> hs s = false -> wq s = [] -> bufw s = false -> inq s = IAlert l 0 :: rest ->
  (zlen (rbuf s) <? mn) || is_nil (rbuf s) = true ->
  exists s1, step s (URead mx mn) = (s1, ORet (firstn (take_n mx (rbuf s)) (rbuf s))) /\
    closed s1 = true /\ sess s1 = sess s /\
    (sock_open s = true -> txf s = None -> wire s1 = wire s ++ [WAlert 1 0]) /\
    forall evs s2 os, Forall data_event evs -> run s1 evs = (s2, os) ->
      closed s2 = true /\ sess s2 = sess s /\ wire s2 = wire s1 /\
      Forall (fun o => (exists d, o = ORet d) \/ o = OExc XClosed \/ o = OExc XValue \/ o = ODone \/ o = OStep \/ o = ONone) os /\
      (rbuf s1 = [] -> Forall (fun o => forall d, o = ORet d -> d = []) os).
Proof.
  intros s l rest mx mn C HS Q B IQ Hc. cbn [step].
  (* s1: the close_notify taken and answered; the alert branch leaves quit true s1 *)
  destruct (answered_frame true (set_inq rest s)) as (C1 & _ & B1 & Q1).
  set (s1 := answered true (set_inq rest s)) in *.
  specialize (Q1 B). cbn [wq set_inq] in Q1. rewrite Q in Q1.
  assert (read_loop (S (S (length (inq s)))) true mn s = (quit true s1, Val tt)) as L.
  { rewrite read_loop_S, (wants_true _ _ C Hc), (read_msg_alert _ _ _ _ IQ), alert_branch_quiet;
      rewrite orb_true_r; [apply read_loop_closed; reflexivity|exact Q1]. }
  rewrite (do_read_returns _ _ _ _ L). change (rbuf (quit true s1)) with (rbuf s1).
  replace (rbuf s1) with (rbuf s) by (symmetry; exact (same_core_rbuf C1)).
  assert (sess s1 = sess s) as SE by exact (same_core_sess C1).
  assert (hs s1 = false) as H1 by (rewrite <- HS; exact (same_core_hs C1)).
  eexists. split; [reflexivity|]. split; [reflexivity|]. split; [exact SE|]. split.
  - intros SO T. unfold s1, answered, send_rec. cbn [bufw set_inq]. rewrite B, sock_send_ok by assumption.
    reflexivity.
  - intros evs s2 os F RN.
    assert (forall b, shut (set_rbuf b (quit true s1))) as SH
      by (intros b; split; [reflexivity|split; [exact H1|split; [exact Q1|rewrite <- B; exact B1]]]).
    pose proof (run_shut _ _ _ _ (SH _) F RN) as K.
    destruct (sr_shut K) as (CLOSED & _).
    split; [exact CLOSED|]. split; [rewrite (sr_sess K); exact SE|].
    split; [exact (sr_wire K)|]. split; [exact (sr_out K)|].
    (* every read returns a piece of the buffer the first read has left: of an empty one, nothing *)
    intros RB. eapply Forall_impl; [|exact (sr_piece K)]. intros o P d E.
    destruct (P d E) as (a & b & AB). rewrite RB in AB. destruct a, d; (reflexivity || discriminate AB).
Qed.

(* the history that switched the flag off before /repo 8b57b65: the session stays resumable *)
Theorem after_close_notify_history :
  let '(s', os) := run est0 [NIn (IAlert 1 0); URead None 1; UWrite [119]] in
  os = [ONone; ORet []; OExc XClosed] /\ closed s' = true /\ sess s' = Some true.
Proof. vm_compute. repeat split. Qed.

(* truncation is never reported as end of data: the transport ends without close_notify while
   the reader still wants data => TLSAbruptCloseError, closed, session not resumable; only with
   ignoreAbruptClose does the read return normally (and the session keeps its flag) *)
Theorem truncation_never_eof : forall s mx mn,
  closed s = false -> wq s = [] -> bufw s = false -> inq s = [] -> sock_open s = true -> rxe s = RxEof ->
  (zlen (rbuf s) <? mn) || is_nil (rbuf s) = true ->
  exists s', closed s' = true /\
   if ign s
   then step s (URead mx mn) = (s', ORet (firstn (take_n mx (rbuf s)) (rbuf s))) /\ sess s' = sess s
   else step s (URead mx mn) = (s', OExc XAbrupt) /\ sess s' = option_map (fun _ => false) (sess s).
Proof.
  intros s mx mn C Q B IQ SO RX Hc. cbn [step].
  assert (read_msg s = (s, Exc XAbrupt)) as M by (rewrite read_msg_empty, RX; auto).
  destruct (ign s) eqn:IG.
  - assert (read_loop (S (S (length (inq s)))) true mn s = (quit true s, Val tt)) as L.
    { rewrite read_loop_S, (wants_true _ _ C Hc), M, IG, shutdown_quiet by exact Q.
      apply read_loop_closed. reflexivity. }
    rewrite (do_read_returns _ _ _ _ L). eexists. split; [|split; [reflexivity|]]; reflexivity.
  - unfold do_read. rewrite read_loop_S, (wants_true _ _ C Hc), M, IG, raise_quiet by exact Q.
    eexists. split; [|split; [reflexivity|]]; reflexivity.
Qed.

(* ... and in general, for ANY state and ANY queue of arrived messages: a read on an open
   connection that returns normally and leaves the connection closed, with ignoreAbruptClose
   off, can only have been ended by a close_notify alert that had arrived *)
Theorem truncation_never_eof_general : forall s mx mn s' d,
  ign s = false -> closed s = false -> step s (URead mx mn) = (s', ORet d) -> closed s' = true ->
  exists l, In (IAlert l 0) (inq s).
Proof.
  intros s mx mn s' d IG C H C'. destruct (do_read_spec _ _ _ _ _ H) as (_ & _ & CLOSE_NOTIFY).
  exact (CLOSE_NOTIFY d eq_refl IG C C').
Qed.

(* whenever ANY call raises, in any state reachable from a fresh connection (inv, see
   inv_reachable), the connection is closed afterwards -- read, write, close, the handshake
   calls and (since /repo fa8f243) the public post-handshake calls send_keyupdate_request,
   request_post_handshake_auth, write_heartbeat.  Only the caller errors those three raise before
   anything is sent (XValue: ValueError / TLSIllegalParameterException / TLSInternalError) leave
   the state as it is. *)
Theorem exception_closes : forall s ev s' x, inv s -> (post_call ev -> x <> XValue) ->
  step s ev = (s', OExc x) -> closed s' = true.
Proof.
  intros s ev s' x I0 NP H.
  destruct (step_life _ _ _ _ H) as [HS CL SE O|PC E|EV CL E|HS HS' OV CL SE|b EV HS E|HS E].
  - (* stays *) exact O.
  - (* refused *) injection E as _ ->. destruct (NP PC eq_refl).
  - (* starts *) discriminate E.
  - (* ends: inside a handshake the connection counts as closed, and stays so *)
    exact (CL (I0 HS)).
  - (* installs *) discriminate E.
  - (* completes *) discriminate E.
Qed.

Theorem post_call_error_cases : forall s ev s' x, post_call ev -> step s ev = (s', OExc x) ->
  (x = XValue /\ s' = s) \/ closed s' = true.
Proof.
  intros s ev s' x PC H. destruct (post_call_spec _ _ _ _ PC H) as [E|(_ & C)]; [|right; exact C].
  injection E as -> ->. auto.
Qed.

Theorem inv_reachable : forall a b c d n evs s' os, run (init a b c d n) evs = (s', os) -> inv s'.
Proof.
  intros a b c d n evs s' os H.
  refine (proj1 (run_invariant inv (fun _ => True) (fun _ => True) _ evs _ s' os _ _ H)).
  - intros s ev t o I0 _ S. split; [|exact I]. unfold inv in *.
    destruct (step_life _ _ _ _ S) as [HS CL SE O|PC E|EV CL E|HS HS' OV CL SE|b0 EV HS E|HS E].
    + (* stays *) rewrite HS. intros K. exact (CL (I0 K)).
    + (* refused *) inverts E. exact I0.
    + (* starts *) inverts E. intros _. exact CL.
    + (* ends *) rewrite HS'. discriminate.
    + (* installs *) inverts E. exact I0.
    + (* completes *) inverts E. discriminate.
  - intros X; discriminate X.
  - apply Forall_forall. auto.
Qed.

(* transport faults in the data phase *)
Theorem fault_in_read : forall s e mx mn,
  closed s = false -> wq s = [] -> bufw s = false -> inq s = [] -> sock_open s = true -> rxe s = RxErr e ->
  (zlen (rbuf s) <? mn) || is_nil (rbuf s) = true ->
  exists s', step s (URead mx mn) = (s', OExc (XSock e)) /\ closed s' = true /\
             sess s' = option_map (fun _ => false) (sess s).
Proof.
  intros s e mx mn C Q B IQ SO RX Hc. cbn [step]. unfold do_read.
  rewrite read_loop_S, (wants_true _ _ C Hc), read_msg_empty, RX, raise_quiet by assumption.
  eexists. repeat split.
Qed.

Theorem fault_in_write : forall s d e, closed s = false -> wq s = [] -> bufw s = false -> tx_dead s e ->
  exists s', step s (UWrite d) = (s', OExc (XSock e)) /\ closed s' = true /\
             sess s' = (if ign s then sess s else option_map (fun _ => false) (sess s)).
Proof.
  intros s d e C Q B T. cbn [step]. unfold do_write. rewrite C.
  destruct (records_cons s d) as (x & rs & ->). cbn [send_all].
  rewrite (send_rec_dead _ _ _ B T), raise_quiet by exact Q.
  eexists. split; [reflexivity|]. split; [reflexivity|]. cbn. destruct (ign s); reflexivity.
Qed.

(* a transport failure exactly at a public post-handshake call (send_keyupdate_request,
   request_post_handshake_auth, write_heartbeat), FULL: the send direction is dead and either a
   record of the peer is waiting or the receive side has ended; the call raises the abrupt-close /
   socket error -- or the peer's alert when one was waiting --, the connection is closed, the
   session not resumable.
   (Before /repo fa8f243, with nothing waiting the exception left with closed = False and the
   session resumable; a failed heartbeat send never closed anything.) *)
Theorem post_handshake_fault_contained : forall s e ev,
  applicable ev s -> closed s = false -> wq s = [] -> bufw s = false -> tx_dead s e ->
  (inq s <> [] \/ rxe s <> RxOpen) ->
  exists s' x, step s ev = (s', OExc x) /\ closed s' = true /\
    sess s' = option_map (fun _ => false) (sess s) /\
    (fault_exn x \/ exists l d rest, inq s = IAlert l d :: rest /\ x = XRemote d).
Proof.
  intros s e ev A C Q B T NE. pose proof (post_outcome_dead s e Q B T NE) as K.
  destruct (applicable_cases _ _ A) as [(-> & T13)|[(-> & T13)| ->]]; cbn [step].
  - unfold do_keyupdate. rewrite C, T13. exact K.
  - unfold do_pha. rewrite C, T13. exact K.
  - unfold do_heartbeat. rewrite C, (send_rec_dead _ _ _ B T), raise_quiet by exact Q.
    exists (quit false s), (XSock e). split; [reflexivity|]. split; [reflexivity|]. split; [reflexivity|].
    left. right. exists e. reflexivity.
Qed.

(* half-open transport (only the send direction is dead, nothing has arrived): KeyUpdate and the
   post-handshake CertificateRequest are handshake records, the code waits for the peer's next
   record, which may be the alert explaining the failure *)
Theorem post_handshake_fault_half_open : forall s e,
  closed s = false -> tls13 s = true -> wq s = [] -> bufw s = false -> tx_dead s e ->
  inq s = [] -> rxe s = RxOpen -> step s UKeyUpdate = (s, OBlocked) /\ step s (UPha true) = (s, OBlocked).
Proof.
  intros s e C T13 Q B T IQ RX. cbn [step]. unfold do_keyupdate, do_pha.
  rewrite C, T13, (post_send_w_dead s e Q B T), IQ, RX. auto.
Qed.

(* the histories that left the connection open before /repo fa8f243: handshake, the transport
   dies, the call raises -- closed, session off, the next write gets the closed-connection error *)
Theorem post_handshake_fault_history_keyupdate :
  let '(s', os) := run (init false true true false 16384) (post_fault_script UKeyUpdate) in
  os = [OStep; OStep; ONone; OStep; OStep; OHsDone; ONone; ONone; OExc XAbrupt; OExc XClosed] /\
  closed s' = true /\ sess s' = Some false.
Proof. vm_compute. repeat split. Qed.

Theorem post_handshake_fault_history_heartbeat :
  let '(s', os) := run (init false true false false 16384) (post_fault_script (UHeartbeat true)) in
  os = [OStep; OStep; ONone; OStep; OStep; OHsDone; ONone; ONone; OExc (XSock 32); OExc XClosed] /\
  closed s' = true /\ sess s' = Some false.
Proof. vm_compute. repeat split. Qed.

(* transport faults at a step of a handshake: the call raises the abrupt-close or a socket
   error, the handshake is over, the connection closed, the session not resumable *)
Theorem fault_in_handshake_recv : forall s, hs s = true -> wq s = [] -> inq s = [] -> rx_dead s ->
  exists s' o, step s (UHs HRecv) = (s', o) /\ contained s s' o.
Proof.
  intros s HS Q IQ (SO & RX). cbn [step]. unfold do_hs.
  rewrite HS, get_msg_empty by exact IQ. unfold no_input. rewrite SO.
  destruct (rxe s) as [| |e]; [congruence|..]; cbn [negb];
    [destruct (wrapper_contained XAbrupt s s Q) as (s' & E & X)
    |destruct (wrapper_contained (XSock e) s s Q) as (s' & E & X)]; unfold fault_exn; eauto using sess_le_refl.
Qed.

Theorem fault_in_handshake_send : forall s ct e,
  hs s = true -> wq s = [] -> bufw s = false -> tx_dead s e -> ct <> 22 ->
  exists s', step s (UHs (HSend ct)) = (s', OExc (XSock e)) /\ contained s s' (OExc (XSock e)).
Proof.
  intros s ct e HS Q B T NE. cbn [step]. rewrite (do_hs_send_dead _ _ _ HS B T).
  apply Z.eqb_neq in NE. rewrite NE. apply wrapper_contained; unfold fault_exn; eauto using sess_le_refl.
Qed.

Theorem fault_in_handshake_flush : forall s e w q, hs s = true -> wq s = w :: q -> tx_dead s e ->
  exists s', step s (UHs HFlushOff) = (s', OExc (XSock e)) /\ contained s s' (OExc (XSock e)).
Proof.
  intros s e w q HS Q T. cbn [step]. unfold do_hs, flush. rewrite HS, Q.
  rewrite (sock_send_dead (w :: q) (set_wq [] s) e) by exact T.
  apply (wrapper_contained (XSock e) s (set_wq [] s)); unfold fault_exn; eauto using sess_le_refl.
Qed.

(* the five sub-cases of a failed handshake-record send one by one, including the half-open
   transport (only the send direction dead, nothing arrived): there the code waits for the
   peer's next record, which may be the alert explaining the failure *)
Theorem transport_fault_contained_cases : forall s e,
  hs s = true -> wq s = [] -> bufw s = false -> tx_dead s e ->
  match inq s with
  | [] => match rxe s with
          | RxOpen => exists s', step s (UHs (HSend 22)) = (s', OBlocked) /\ hs s' = false
          | _ => exists s' o, step s (UHs (HSend 22)) = (s', o) /\ contained s s' o
          end
  | IAlert l d :: _ =>
      exists s', step s (UHs (HSend 22)) = (s', OExc (XRemote d)) /\ hs s' = false /\
                 (closed s' = true) /\ sess s' = option_map (fun _ => false) (sess s)
  | _ :: _ =>
      exists s', step s (UHs (HSend 22)) = (s', OExc (XSock e)) /\ contained s s' (OExc (XSock e))
  end.
Proof.
  intros s e HS Q B T. cbn [step]. rewrite (do_hs_send_dead _ _ _ HS B T), (look_for_alert_dead _ _ Q (proj1 T)).
  cbn [Z.eqb Pos.eqb].
  assert (forall rest, exists s', hs_wrapper (XSock e) (quit false (set_inq rest s)) = (s', OExc (XSock e)) /\
                                  contained s s' (OExc (XSock e))) as K.
  { intros rest. apply wrapper_contained; [exact Q|right; eauto|apply sess_le_off]. }
  destruct (inq s) as [|i rest].
  - destruct (rxe s) as [| |e'].
    + eexists. split; reflexivity.
    + destruct (wrapper_contained XAbrupt s s Q) as (s' & E & X); [left; reflexivity|apply sess_le_refl|eauto].
    + destruct (wrapper_contained (XSock e') s s Q) as (s' & E & X); [right; eauto|apply sess_le_refl|eauto].
  - destruct i; try apply K. rewrite wrapper_quiet by exact Q. eexists. repeat split.
Qed.

(* FULL statement for send steps: the transport is dead (sends fail for good, the receive side
   has ended); whatever record type is being sent and whatever had arrived before, the call
   raises, the handshake is over, the connection closed, the session not resumable; the exception
   is the abrupt-close / socket error, or the peer's alert when one was waiting.
   (Before /repo 0ab9df1 the case "a non-alert record is waiting" returned OStep and the
   handshake went on.) *)
Theorem transport_fault_contained : forall s e ct,
  hs s = true -> wq s = [] -> bufw s = false -> tx_dead s e -> rxe s <> RxOpen ->
  exists s' o, step s (UHs (HSend ct)) = (s', o) /\ hs s' = false /\ closed s' = true /\
    sess s' = option_map (fun _ => false) (sess s) /\
    ((exists x, o = OExc x /\ fault_exn x) \/
     (exists l d rest, ct = 22 /\ inq s = IAlert l d :: rest /\ o = OExc (XRemote d))).
Proof.
  intros s e ct HS Q B T RX. destruct (Z.eq_dec ct 22) as [->|NE].
  - pose proof (transport_fault_contained_cases s e HS Q B T) as K. destruct (inq s) as [|i rest].
    + destruct (rxe s); [congruence|..]; destruct K as (s' & o & E & K);
        exists s', o; exact (conj E (contained_or _ _ _ _ K)).
    + destruct i as [d|l d|b|k].
      2:{ (* an alert was waiting *)
          destruct K as (s' & E & H & C & SE). exists s', (OExc (XRemote d)). repeat split; auto.
          right. exists l, d, rest. auto. }
      all: destruct K as (s' & E & K); exists s', (OExc (XSock e)); exact (conj E (contained_or _ _ _ _ K)).
  - destruct (fault_in_handshake_send s ct e HS Q B T NE) as (s' & E & K).
    exists s', (OExc (XSock e)). exact (conj E (contained_or _ _ _ _ K)).
Qed.

(* the history that ended in "handshake complete" on a closed socket before /repo 0ab9df1 *)
Theorem transport_fault_contained_history :
  let '(s', os) := run (init false true true false 16384) swallow_script in
  os = [OStep; ONone; OStep; OStep; ONone; OStep; OStep; ONone; ONone; ONone; OExc (XSock 32); ONone] /\
  closed s' = true /\ hs s' = false /\ sock_open s' = false /\ sess s' = Some false.
Proof. vm_compute. repeat split. Qed.

(* once a handshake call has ended (in particular: raised), no completion is reported by any
   later event until a new handshake is started *)
Theorem no_completion_after_failure : forall evs s s' os,
  Forall (fun ev => ev <> UHsStart) evs -> hs s = false -> run s evs = (s', os) -> ~ In OHsDone os.
Proof.
  intros evs s s' os F HS H.
  destruct (run_invariant (fun t => hs t = false) (fun ev => ev <> UHsStart) (fun o => o <> OHsDone))
    with (evs := evs) (s := s) (s' := s') (os := os) as (_ & K);
    [|exact HS|exact F|exact H|rewrite Forall_forall in K; intros X; exact (K _ X eq_refl)].
  (* outside a handshake a step keeps the phase or starts a handshake *)
  clear. intros s ev s' o OUT NE H.
  destruct (step_life _ _ _ _ H) as [HS CL SE O|PC E|EV CL E|HS HS' OV CL SE|b EV HS E|HS E].
  - (* stays *) split; [congruence|]. intros ->. exact O.
  - (* refused *) inverts E. split; [exact OUT|discriminate].
  - (* starts *) destruct (NE EV).
  - (* ends *) congruence.
  - (* installs *) congruence.
  - (* completes *) congruence.
Qed.

(* a fatal (or warning) alert of the peer is surfaced as TLSRemoteAlert with its description,
   the connection is closed and the session not resumable -- in the data phase ... *)
Theorem fatal_alert_surfaced : forall s l d rest mx mn,
  closed s = false -> wq s = [] -> bufw s = false -> inq s = IAlert l d :: rest -> d <> 0 ->
  (zlen (rbuf s) <? mn) || is_nil (rbuf s) = true ->
  exists s', step s (URead mx mn) = (s', OExc (XRemote d)) /\ closed s' = true /\
             sess s' = option_map (fun _ => false) (sess s).
Proof.
  intros s l d rest mx mn C Q B IQ D Hc. cbn [step]. unfold do_read.
  destruct (answered_frame ((l =? 1) || (d =? 0)) (set_inq rest s)) as (C1 & _ & _ & Q1).
  specialize (Q1 B). cbn [wq set_inq] in Q1. rewrite Q in Q1.
  apply Z.eqb_neq in D.
  rewrite read_loop_S, (wants_true _ _ C Hc), (read_msg_alert _ _ _ _ IQ), alert_branch_quiet by exact Q1.
  rewrite D in C1, Q1 |- *. rewrite raise_quiet by exact Q1.
  eexists. split; [reflexivity|]. split; [reflexivity|]. cbn. rewrite off_off. f_equal. exact (same_core_sess C1).
Qed.

(* ... and in a handshake, for an alert above warning level (a warning is answered with close_notify
   first, which buffer_writes may leave queued, so that closing the socket can still fail) *)
Theorem fatal_alert_surfaced_in_handshake : forall s l d rest,
  hs s = true -> closed s = true -> wq s = [] -> inq s = IAlert l d :: rest -> l <> 1 -> d <> 0 ->
  exists s', step s (UHs HRecv) = (s', OExc (XRemote d)) /\ hs s' = false /\ closed s' = true /\
             sess s' = option_map (fun _ => false) (sess s).
Proof.
  intros s l d rest HS C Q IQ L D. cbn [step]. unfold do_hs. apply Z.eqb_neq in L, D.
  rewrite HS, (get_msg_alert CHs l d rest s) by (discriminate || exact IQ).
  rewrite alert_branch_quiet; rewrite L, D; [|exact Q].
  cbn [negb orb answered]. rewrite wrapper_quiet by exact Q. eexists. repeat split.
Qed.

(* Session objects are shared by reference (Model/C17_Sessions.v).
   In a world of any number of connections and session objects, along ANY sequence of events
   (events on any connection, new sessions, resumptions adopting an existing object, lookups):
   no object is lost and a flag that is off stays off *)
Theorem shared_session_flag_only_toggles_off : forall evs w w' os, wrun w evs = (w', os) ->
  (length (store w) <= length (store w'))%nat /\
  forall l, (l < length (store w))%nat -> flag w l = false -> flag w' l = false.
Proof. exact wrun_store. Qed.

(* ... hence every later lookup of that object (SessionCache[...] / Session.valid()) fails *)
Theorem dead_session_is_never_resumed : forall evs w w' os l, (l < length (store w))%nat -> flag w l = false ->
  wrun w evs = (w', os) ->
  forall k, nth_error evs k = Some (WLookup l) -> nth_error os k = Some (WFound false).
Proof. exact wrun_lookups_false. Qed.

(* a step on ANY connection that leaves that connection's session flag off leaves it off in the
   object itself, hence in the view of every connection that shares the object *)
Theorem failure_on_any_connection_clears_shared_flag : forall w i c l ev s' o,
  nth_error (conns w) i = Some c -> sref c = Some l -> (l < length (store w))%nat -> is_setsess ev = false ->
  step (set_sess (view w c) (cst c)) ev = (s', o) -> sess s' = Some false ->
  exists w', wstep w (WConn i ev) = (w', WO o) /\ flag w' l = false /\ length (store w') = length (store w) /\
    (forall j c', nth_error (conns w') j = Some c' -> sref c' = Some l -> view w' c' = Some false).
Proof.
  intros w i c l ev s' o C SR L NS E SF.
  destruct (failure_kills_session w i c l ev s' o C SR L NS E SF) as (w' & W & K).
  exists w'. exact (conj W (conj (dead_flag K) (conj (dead_store K) (dead_views K)))).
Qed.

(* a fatal or warning alert (other than close_notify) read on any connection of session l --
   the one that created it or one that resumed it: TLSRemoteAlert, and the session is dead for
   all its connections, for the cache, and for every later resumption attempt *)
Theorem fatal_alert_on_any_connection_invalidates_session : forall w i c l lv d rest mx mn,
  nth_error (conns w) i = Some c -> sref c = Some l -> (l < length (store w))%nat ->
  closed (cst c) = false -> wq (cst c) = [] -> bufw (cst c) = false -> inq (cst c) = IAlert lv d :: rest -> d <> 0 ->
  (zlen (rbuf (cst c)) <? mn) || is_nil (rbuf (cst c)) = true ->
  exists w', wstep w (WConn i (URead mx mn)) = (w', WO (OExc (XRemote d))) /\ flag w' l = false /\
    (forall j c', nth_error (conns w') j = Some c' -> sref c' = Some l -> view w' c' = Some false) /\
    (forall evs w2 os, wrun w' evs = (w2, os) ->
       flag w2 l = false /\ forall k, nth_error evs k = Some (WLookup l) -> nth_error os k = Some (WFound false)).
Proof.
  intros w i c l lv d rest mx mn C SR L CL Q B IQ D Hc.
  destruct (fatal_alert_surfaced (set_sess (view w c) (cst c)) lv d rest mx mn) as (s' & E & _ & SE); auto.
  destruct (failure_kills_session w i c l (URead mx mn) s' _ C SR L eq_refl E) as (w' & W & K).
  - rewrite SE. unfold view. rewrite SR. reflexivity.
  - exists w'. exact (conj W (conj (dead_flag K) (conj (dead_views K) (dead_later K)))).
Qed.

(* the same for a transport failure while reading *)
Theorem transport_failure_on_any_connection_invalidates_session : forall w i c l e mx mn,
  nth_error (conns w) i = Some c -> sref c = Some l -> (l < length (store w))%nat ->
  closed (cst c) = false -> wq (cst c) = [] -> bufw (cst c) = false -> inq (cst c) = [] ->
  sock_open (cst c) = true -> rxe (cst c) = RxErr e ->
  (zlen (rbuf (cst c)) <? mn) || is_nil (rbuf (cst c)) = true ->
  exists w', wstep w (WConn i (URead mx mn)) = (w', WO (OExc (XSock e))) /\ flag w' l = false /\
    (forall j c', nth_error (conns w') j = Some c' -> sref c' = Some l -> view w' c' = Some false) /\
    (forall evs w2 os, wrun w' evs = (w2, os) ->
       flag w2 l = false /\ forall k, nth_error evs k = Some (WLookup l) -> nth_error os k = Some (WFound false)).
Proof.
  intros w i c l e mx mn C SR L CL Q B IQ SO RX Hc.
  destruct (fault_in_read (set_sess (view w c) (cst c)) e mx mn) as (s' & E & _ & SE); auto.
  destruct (failure_kills_session w i c l (URead mx mn) s' _ C SR L eq_refl E) as (w' & W & K).
  - rewrite SE. unfold view. rewrite SR. reflexivity.
  - exists w'. exact (conj W (conj (dead_flag K) (conj (dead_views K) (dead_later K)))).
Qed.

(* the model's loops are totalised with fuel; running out would be the outcome OFuel, which
   no theorem above accepts as a normal return or an exception -- and it never happens *)
Theorem model_never_out_of_fuel : forall s ev, snd (step s ev) <> OFuel.
Proof.
  intros s ev. destruct (step s ev) as [s' o] eqn:H. cbn. intros ->.
  destruct (step_life _ _ _ _ H) as [HS CL SE O|PC E|EV CL E|HS HS' OV CL SE|b EV HS E|HS E].
  - (* stays *) exact O.
  - (* refused *) discriminate E.
  - (* starts *) discriminate E.
  - (* ends *) destruct OV as [O|(y & O)]; discriminate O.
  - (* installs *) discriminate E.
  - (* completes *) discriminate E.
Qed.

(* the hypotheses are satisfiable by states that real histories reach *)
Example ex_orderly : closed ex_open_cn = false /\ hs ex_open_cn = false /\ wq ex_open_cn = [] /\ bufw ex_open_cn = false /\
  inq ex_open_cn = [IData [1; 2]; IAlert 1 0] /\ sess ex_open_cn = Some true.
Proof. vm_compute. repeat split. Qed.

Example ex_handshake : hs ex_in_handshake = true /\ closed ex_in_handshake = true /\ wq ex_in_handshake = [] /\
  bufw ex_in_handshake = false /\ inq ex_in_handshake = [] /\ sess ex_in_handshake = Some true /\ inv ex_in_handshake.
Proof. vm_compute. repeat split. Qed.

Example ex_shut : shut (fst (run est0 [UClose])) /\ sess (fst (run est0 [UClose])) = Some true.
Proof. vm_compute. repeat split. Qed.

Example ex_tx_dead : tx_dead (fst (run ex_in_handshake [NSendBreak 0 32])) 32.
Proof. vm_compute. split; [reflexivity|]. exists 0. split; [reflexivity|]. intros X; discriminate X. Qed.

(* a session created on connection 0, resumed on connection 1 where a fatal alert arrives: the
   lookup succeeds before and fails after, and connection 0 sees the flag off as well *)
Example ex_shared_session :
  let '(w', os) := wrun w_example [WLookup 0; WConn 1 (URead None 1); WLookup 0; WConn 0 (URead None 1); WLookup 0] in
  os = [WFound true; WO (OExc (XRemote 80)); WFound false; WO (ORet []); WFound false] /\
  conn_view w' 0 = Some false /\ conn_view w' 1 = Some false.
Proof. vm_compute. repeat split. Qed.
