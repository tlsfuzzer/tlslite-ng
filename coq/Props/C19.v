(* Property C19.
   validate : tables -> install -> heap -> settings -> heap * res settings is the by-reference model of
   HandshakeSettings.validate() (Model/C19_Settings.v), synchronised with /repo after the repairs
   851aa29 (filter a copy of cipherImplementations), 8cc633e (forbidden delegated-credential
   algorithms rejected), c50a338 (ticketKeys must fit ticketCipher), f81c02a + 0b9340a (versions clipped to
   [min(minVersion,(3,3)), maxVersion]).  All theorems quantify over ALL
   domain tables T, installation flags I, heaps h and objects s (lists of any length); the only
   hypothesis on the object is well-formedness wf h s (it has its 22 list attributes and they are
   allocated) and, for the domain theorems, `typed` (values have the documented Python type); the two
   acceptance theorems (accepts_inside_domain, validate_accepts_exactly_the_documented_domains) also
   assume something_supported (the installation supports something of what the object names). *)
From Coq Require Import ZArith List Bool String.
From TV Require Import Base.Prelude Model.C19_Settings Spec.C19_Domain
                       Proofs.C19_Frame Proofs.C19_Examples Proofs.C19_Refuted
                       Proofs.C19_Pure Proofs.C19_Idem Proofs.C19_Supported Proofs.C19_Domain
                       Gen.SettingsTables Proofs.C19_Skeleton.
Import ListNotations.
Open Scope Z_scope.

(* 0. The hand model still has the shape of the source.
   gen_* are regenerated on every run from the flattened, normalised ast of validate() and everything it calls
   (translator/c19_astnorm.py): the 43 assignments `other.x = self.x` of the copy phase, every in-place list
   mutation, every re-binding of an attribute of `other` to a new object (versions, macNames,
   cipherImplementations, cipherNames), the attributes set by __init__.  (A digest of the whole normal form is
   compared by the harness; a difference is a broken tie.) *)
Theorem model_skeleton_matches_source :
  gen_copies = expected_copies /\ gen_mutation_sites = expected_mutation_sites /\
  gen_rebinds = expected_rebinds /\ gen_init_attrs = expected_init_attrs.
Proof. repeat split; reflexivity. Qed.

(* 1. "never modifies it".
   FULL frame condition: whatever the outcome (result or exception), the heap only grows and every
   cell that existed before the call -- in particular every list reachable from the receiver, and any
   list the caller shares between several attributes -- has the same content afterwards.  The
   receiver's attribute bindings cannot change in the model (validate never assigns to self.x; the
   harness compares id() of every attribute on the implementation).
   Before /repo 851aa29 this was FALSE of the code (_sanity_check_implementations filtered the receiver's
   own cipherImplementations list in place through the alias made by _copy_cipher_settings; the other
   cells were unchanged); since that commit a copy is filtered. *)
Theorem validate_preserves_receiver :
  forall T I h s h' r, validate T I h s = (h', r) ->
    (List.length h <= List.length h')%nat /\
    forall l, (l < List.length h)%nat -> hget h' l = hget h l.
Proof. intros T I h s h' r H. pose proof (validate_frame T I h s) as F. rewrite H in F. exact F. Qed.

(* read on the receiver: the contents of all its list attributes and its scalars are unchanged *)
Theorem validate_preserves_receiver_view :
  forall T I h s h' r, wf h s = true -> validate T I h s = (h', r) -> view h' s = view h s.
Proof.
  intros T I h s h' r W H. unfold view. f_equal. apply (lists_frame h h' s W).
  pose proof (validate_frame T I h s) as F. rewrite H in F. exact F.
Qed.

Example frame_hypotheses_satisfiable :
  wf ex_heap ex_settings = true /\
  is_ok (snd (validate std_tables no_backends ex_heap ex_settings)) = true /\
  hget (fst (validate std_tables no_backends ex_heap ex_settings)) 3%nat = S ["openssl"; "pycrypto"; "python"]%string /\
  match snd (validate std_tables no_backends ex_heap ex_settings) with
  | Ok s' => G (fst (validate std_tables no_backends ex_heap ex_settings)) s' F_cipherImplementations = S ["python"]%string
  | Err _ => False
  end.
Proof. vm_compute. repeat split. Qed.

(* an object with two attributes sharing one list: dc_sig_algs bound to the very list of
   cipherImplementations -- validates, shared list untouched *)
Example frame_aliased_object :
  wf ex_heap ex_settings_alias = true /\
  L ex_settings_alias F_dc_sig_algs = L ex_settings_alias F_cipherImplementations /\
  is_ok (snd (validate std_tables no_backends ex_heap ex_settings_alias)) = true /\
  hget (fst (validate std_tables no_backends ex_heap ex_settings_alias)) 3%nat = S ["openssl"; "pycrypto"; "python"]%string.
Proof. vm_compute. repeat split. Qed.

(* 2. "yields the same result when applied again to its own output".
   FULL: for every well-formed object that validates, validating the result succeeds and gives an object
   with the same observable contents (the second call allocates new lists again, so equality is on the
   view = contents of every list attribute + every scalar, not on locations).
   Between /repo f81c02a and 0b9340a this was FALSE of the code for minVersion = (3,4) (`versions` was clipped
   at minVersion after the TLS 1.3-only group rule had been evaluated on the unclipped list, so
   validate(validate(s)) raised ValueError).  With the clip bound min(minVersion, (3,3)) of 0b9340a every
   accepted object is stable (Proofs.C19_Idem.clip_stable_ok), whatever else is bound to the list object of
   cipherImplementations (not filtered in place since 851aa29): no hypothesis beyond wf is needed. *)
Theorem validate_idempotent :
  forall T I h s h1 s1, wf h s = true -> validate T I h s = (h1, Ok s1) ->
    exists h2 s2, validate T I h1 s1 = (h2, Ok s2) /\ view h2 s2 = view h1 s1.
Proof.
  intros T I h s h1 s1 W H.
  pose proof (validate_refines T I h s W) as R. rewrite H in R. destruct R as [R1 [R2 R3]].
  pose proof (cvalidate_idem T I _ _ _ (lists_NF h s W) R1) as Id. rewrite <- R2 in Id.
  pose proof (validate_refines T I h1 s1 R3) as R'. rewrite Id in R'.
  destruct (validate T I h1 s1) as [h2 [s2|e]]; [|discriminate R'].
  exists h2, s2. split; [reflexivity|]. destruct R' as [A [B _]]. injection A as A.
  unfold view. rewrite <- A, B. reflexivity.
Qed.

(* the object on which validate(validate(s)) raised ValueError between /repo f81c02a and 0b9340a *)
Example idempotent_former_witness :
  wf ex_heap_k1 ex_settings_13 = true /\
  match validate std_tables no_backends ex_heap_k1 ex_settings_13 with
  | (h1, Ok s1) => G h1 s1 F_versions = [VPair 3 4; VPair 3 3] /\
                   is_ok (snd (validate std_tables no_backends h1 s1)) = true
  | _ => False
  end.
Proof. vm_compute. repeat split. Qed.

(* the by-reference model computes the pure function cvalidate on contents (Proofs/C19_Pure.v: validate() with
   the heap taken out, each step an update of the vector of list contents): same outcome, same
   exception class, same contents -- for every well-formed object, aliased or not *)
Theorem validate_refines_contents :
  forall T I h s, wf h s = true ->
    match validate T I h s with
    | (h', Ok s') => cvalidate T I (lists h s) (sc s) = Ok (lists h' s') /\ sc s' = sc s
    | (h', Err e) => cvalidate T I (lists h s) (sc s) = Err e
    end.
Proof.
  intros T I h s W. pose proof (validate_refines T I h s W) as R.
  destruct (validate T I h s) as [h' [s'|e]]; [destruct R as [A [B _]]; auto|exact R].
Qed.

Theorem validate_contents_idempotent :
  forall T I v c v', List.length v = NF -> cvalidate T I v c = Ok v' -> cvalidate T I v' c = Ok v'.
Proof. exact cvalidate_idem. Qed.

Example idempotent_hypotheses_satisfiable :
  wf ex_heap (with_scalars ex_settings ex_scalars_tls11) = true /\
  is_ok (snd (validate std_tables no_backends ex_heap (with_scalars ex_settings ex_scalars_tls11))) = true.
Proof. vm_compute. repeat split. Qed.

(* 3. "contains only algorithms the running installation supports".
   supported_only T I (Spec/C19_Domain.v): every name of the result is in its table; no back-end the
   installation lacks (I: M2Crypto, pycrypto), no 3DES without an implementation, no SHA-2/AEAD MAC when
   maxVersion < TLS 1.2, every entry of `versions` inside [min(minVersion,(3,3)), maxVersion].  Parametric in the
   tables (brotli/zstd/ML-KEM/ML-DSA availability only changes the generated tables) and in I.  FULL. *)
Theorem validated_supported_only :
  forall T I h s h' s', wf h s = true -> validate T I h s = (h', Ok s') ->
    supported_only T I (view h' s') = true.
Proof.
  intros T I h s h' s' W H. pose proof (validate_refines T I h s W) as R. rewrite H in R. destruct R as [R1 [R2 _]].
  unfold view. rewrite R2. apply (cvalidate_supported T I _ _ _ (lists_NF h s W) R1).
Qed.

Theorem validated_contents_supported_only :
  forall T I v c v', List.length v = NF -> cvalidate T I v c = Ok v' -> supported_only T I (v', c) = true.
Proof. exact cvalidate_supported. Qed.

(* 4. "rejects with ValueError every value outside the documented domains".
   dom T d (Spec/C19_Domain.v) is the documented domain of dimension d (30 dimensions), written from the
   docstrings, the module tables and the ValueError texts; typed says every value has the documented
   Python type (the configurations the property quantifies over).  FULL, per dimension, all 30.
   Before /repo 8cc633e / c50a338 this was FALSE of the code at D_dc_sig_algs (dc_sig_algs=[(8,4)] accepted: a
   list was tested for membership in a list of tuples) and at D_ticketKeys (16-byte key with
   chacha20-poly1305 accepted); the two objects are the Examples rejects_former_witness_* below. *)
Theorem rejects_outside_domain :
  forall T I h s d, wf h s = true -> typed (view h s) = true -> dom T d (view h s) = false ->
    snd (validate T I h s) = Err ValueError.
Proof.
  intros T I h s d W Ty D. pose proof (validate_refines T I h s W) as R.
  rewrite (cvalidate_typed T I _ _ (lists_NF h s W) Ty) in R.
  destruct (in_domain T (lists h s, sc s)) eqn:In; [rewrite in_domain_iff in In; unfold view in D; rewrite (In d) in D; discriminate D|].
  destruct (validate T I h s) as [h' [s'|e]]; cbn [snd andb] in *; [destruct R as [R _]; discriminate R|congruence].
Qed.

Example rejects_former_witness_dc_sig_algs :
  wf ex_heap_dc ex_settings = true /\ typed (view ex_heap_dc ex_settings) = true /\
  dom std_tables D_dc_sig_algs (view ex_heap_dc ex_settings) = false /\
  snd (validate std_tables all_backends ex_heap_dc ex_settings) = Err ValueError.
Proof. vm_compute. repeat split. Qed.

Example rejects_former_witness_ticketKeys :
  wf ex_heap_tk ex_settings_tk = true /\ typed (view ex_heap_tk ex_settings_tk) = true /\
  dom std_tables D_ticketKeys (view ex_heap_tk ex_settings_tk) = false /\
  snd (validate std_tables all_backends ex_heap_tk ex_settings_tk) = Err ValueError.
Proof. vm_compute. repeat split. Qed.

(* a typed input never produces another exception class *)
Theorem typed_inputs_raise_only_ValueError :
  forall T I h s h' e, wf h s = true -> typed (view h s) = true -> validate T I h s = (h', Err e) -> e = ValueError.
Proof.
  intros T I h s h' e W Ty H. pose proof (validate_refines T I h s W) as R.
  rewrite H, (cvalidate_typed T I _ _ (lists_NF h s W) Ty) in R. destruct (_ && _); congruence.
Qed.

(* the hypothesis `typed` is needed: an int in pskConfigs gives TypeError, not ValueError (recorded by
   the harness for every attribute in the stream wrong-type-outcomes) *)
Example wrong_kind_other_exception :
  wf ex_heap_badpsk ex_settings = true /\ typed (view ex_heap_badpsk ex_settings) = false /\
  snd (validate std_tables all_backends ex_heap_badpsk ex_settings) = Err TypeError.
Proof. vm_compute. repeat split. Qed.

(* 4b. Accepts inside the domains.
   FULL: typed, inside all 30 documented domains, and something of what it names is supported by the
   installation => accepted. *)
Theorem accepts_inside_domain :
  forall T I h s, wf h s = true -> typed (view h s) = true -> in_domain T (view h s) = true ->
    something_supported I (view h s) = true -> is_ok (snd (validate T I h s)) = true.
Proof.
  intros T I h s W Ty D S. unfold view in D, S.
  rewrite (validate_is_ok T I h s W), (cvalidate_typed T I _ _ (lists_NF h s W) Ty), D, S. reflexivity.
Qed.

(* together: validate() decides exactly the documented domains *)
Theorem validate_accepts_exactly_the_documented_domains :
  forall T I h s, wf h s = true -> typed (view h s) = true -> something_supported I (view h s) = true ->
    is_ok (snd (validate T I h s)) = in_domain T (view h s).
Proof.
  intros T I h s W Ty S. unfold view in *.
  rewrite (validate_is_ok T I h s W), (cvalidate_typed T I _ _ (lists_NF h s W) Ty), S, andb_true_r.
  destruct (in_domain T _); reflexivity.
Qed.

Example domain_hypotheses_satisfiable :
  wf ex_heap ex_settings = true /\ typed (view ex_heap ex_settings) = true /\
  in_domain std_tables (view ex_heap ex_settings) = true /\
  something_supported no_backends (view ex_heap ex_settings) = true.
Proof. vm_compute. repeat split. Qed.
