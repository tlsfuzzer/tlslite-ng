(* Property C05 -- peer credentials are recorded only after proof of possession.
   Every theorem quantifies over ALL runs r (all peer messages, configurations) and ALL
   oracle behaviours O (signature, Finished, binder, hash answers). *)
From Coq Require Import ZArith List Bool String Lia.
From TV Require Import Base.Prelude Base.PreludeFacts Base.C05_Lib Gen.C05_VerifyBytes Gen.C05_Sites Gen.C05_DsaVerify Model.C05_SigGuard
  Model.C05_Auth Model.C05_SitesExpected Proofs.C05_Auth Proofs.C05_Binding.
Import ListNotations.
Open Scope Z_scope.

(* the code still has exactly the program points the model was written against *)
Theorem auth_sites_as_modelled : extracted_sites = expected_sites.
Proof. reflexivity. Qed.

(* argument provenance: the certificate object handed to DelegatedCredential.verify is the
   end-entity entry certificate.certificate_list[0] and nothing else ever rebinds that variable
   (the site table lists every binding of every local name used in a verification call) *)
Theorem dc_verify_receives_end_entity_entry :
  existsb (row_eqb dc_verify_row) extracted_sites = true.
Proof. vm_compute. reflexivity. Qed.

(* (1)(9) client <= TLS 1.2: a server chain is recorded only after a non-empty chain, the
   ServerKeyExchange signature by the end-entity key over client_random||server_random||params
   (for signed key exchanges; TLS 1.2: with a scheme from the list the client checks), the
   record keys and the server Finished; RSA key transport: keys + Finished are the proof *)
Theorem server_chain_recorded_only_if_proved_tls12 : forall O r s c,
  client12 O r = Ok s -> s_server_chain s = Some c ->
  kx_has_cert (r_kx r) = true /\ r_rec_ok r = true /\
  fin_ok O FIN_S12 (r_tr_fin r) (r_fin r) = true /\
  exists cm, r_cert r = Some cm /\ c = cm_chain cm /\ c <> [] /\
    (r_kx r <> 0 ->
     exists osch params sg, r_ske r = Some (osch, params, sg) /\
       sig_ok O (cm_key cm) (if ver_lt (r_ver r) (3, 3) then None else osch) (ske_tbs r params) sg = true /\
       (ver_lt (r_ver r) (3, 3) = false -> exists sch, osch = Some sch /\ sch_in sch (r_valid r) = true)).
Proof.
  intros O r s c. unfold client12. intros H Hc.
  apply bind_Ok in H as (chain & Hch & H). apply bind_Ok in H as (u & _ & H).
  apply sealed_Ok in H as (Hr & Hf & <-). cbn [s_server_chain] in Hc. subst chain.
  destruct (kx_has_cert (r_kx r)); [|discriminate Hch]. split; [reflexivity|]. split; [exact Hr|]. split; [exact Hf|].
  destruct (r_cert r) as [cm|]; [|discriminate Hch].
  apply bind_Ok in Hch as (u1 & Hk & Hch). apply bind_Ok in Hch as (u2 & Hske & Hch). injection Hch as <-.
  exists cm. split; [reflexivity|]. split; [reflexivity|]. split; [exact (key_from_chain_Ok _ _ Hk)|]. intros K.
  destruct (r_kx r =? 0) eqn:K0; [apply Z.eqb_eq in K0; contradiction|].
  destruct (r_ske r) as [[[osch params] sg]|]; [|discriminate Hske].
  exact (ex_intro _ osch (ex_intro _ params (ex_intro _ sg (conj eq_refl (verify_ske_ok _ _ _ _ _ _ _ Hske))))).
Qed.

(* (3)(6)(9) client TLS 1.3: chain recorded only after CertificateVerify by the end-entity
   key with a scheme the ClientHello offered (or, with a delegated credential, BOTH the delegation signature by the end-entity
   key and the CertificateVerify by the credential key, both algorithms offered) over
   64 spaces || "TLS 1.3, server CertificateVerify" || 00 || H(transcript up to Certificate),
   and the server Finished *)
Theorem server_chain_recorded_only_if_proved_tls13 : forall O r s c,
  client13 O r = Ok s -> s_server_chain s = Some c ->
  r_rec_ok r = true /\ fin_ok O FIN_S13 (r_tr_fin r) (r_fin r) = true /\ r_psk r = None /\
  exists cm sch0 sg ctx,
    r_cert r = Some cm /\ c = cm_chain cm /\ c <> [] /\ r_cv r = Some (Some sch0, sg) /\
    vb13 O sch0 (r_prf r) tag_server (r_tr_cv r) = Ok ctx /\
    ((cm_dc cm = [] /\ s_dc s = false /\ sch_in sch0 (r_offered r) = true /\ sch_in sch0 (r_valid r) = true /\ sig_ok O (cm_key cm) (Some sch0) ctx sg = true) \/
     (exists d, cm_dc cm = [d] /\ s_dc s = true /\ dc_cv_alg d = sch0 /\ dc_proved O r cm d ctx sg)).
Proof.
  intros O r s c H Hc. destruct (client13_Ok O r s H) as (Hr & Hf & _ & Hm).
  destruct (r_psk r); [destruct Hm; congruence|].
  destruct Hm as (cm & sch0 & sg & ctx & V). rewrite (sv_chain V) in Hc. injection Hc as <-.
  refine (conj Hr (conj Hf (conj eq_refl _))). exists cm, sch0, sg, ctx. destruct V. repeat split; trivial.
Qed.

(* every signature check of a recorded chain uses the key of entry 0 of that chain *)
Theorem recorded_chain_proved_by_its_end_entity_key : forall cm,
  cm_chain cm <> [] ->
  exists e rest, cm_entries cm = e :: rest /\ cm_chain cm = e_id e :: map e_id rest /\
                 cm_key cm = e_key e /\ cm_cert cm = e_cert e /\ cm_dc cm = e_dc e.
Proof.
  intros cm. unfold cm_chain, cm_key, cm_cert, cm_dc, cm_ee. destruct (cm_entries cm) as [|e rest]; intros H.
  - exfalso. apply H. reflexivity.
  - exists e, rest. repeat split; reflexivity.
Qed.

(* session.delegated_credential is set only if BOTH signatures verified; the delegation signature
   is by the key inside the END-ENTITY certificate of the chain that is recorded (entry 0 of the
   certificate_list; the recorded chain is e :: rest), over that certificate's bytes; entries 1..
   of the chain play no role *)
Theorem dc_recorded_only_if_both_signatures : forall O r s,
  client13 O r = Ok s -> s_dc s = true ->
  exists cm e rest d sg ctx,
    r_cert r = Some cm /\ cm_entries cm = e :: rest /\
    s_server_chain s = Some (e_id e :: map e_id rest) /\
    e_dc e = [d] /\ r_cv r = Some (Some (dc_cv_alg d), sg) /\
    vb13 O (dc_cv_alg d) (r_prf r) tag_server (r_tr_cv r) = Ok ctx /\
    sch_in (dc_cv_alg d) (r_dc_offered r) = true /\ sch_in (dc_alg d) (r_offered r) = true /\
    sig_ok O (e_key e) (Some (dc_alg d)) (dc_tbs (e_cert e) (dc_cred d) (dc_alg d)) (dc_sig d) = true /\
    sig_ok O (dc_key d) (Some (dc_cv_alg d)) ctx sg = true.
Proof.
  intros O r s H Hd. destruct (client13_Ok O r s H) as (_ & _ & _ & Hm).
  destruct (r_psk r); [destruct Hm; congruence|]. destruct Hm as (cm & sch0 & sg & ctx & V).
  destruct (sv_proof V) as [(_ & Hf & _)|(d & Hdc & _ & <- & P1 & P2 & P3 & P4)]; [congruence|].
  destruct (recorded_chain_proved_by_its_end_entity_key cm (sv_nonempty V)) as (e & rest & He & Hchain & Hk & Hce & Hde).
  exists cm, e, rest, d, sg, ctx. rewrite <- Hchain, <- Hk, <- Hce, <- Hde. destruct V. repeat split; assumption.
Qed.

(* (2) server <= TLS 1.2 *)
Theorem client_chain_recorded_only_if_proved_tls12 : forall O r s c,
  server12 O r = Ok s -> s_client_chain s = Some c ->
  ((r_kx r =? 0) || (r_kx r =? 1) = true) /\ r_req_cert r = true /\
  r_rec_ok r = true /\ fin_ok O FIN_C12 (r_tr_fin r) (r_fin r) = true /\
  exists cm osch sg sigalg vb,
    r_cert r = Some cm /\ c = cm_chain cm /\ c <> [] /\ r_cv r = Some (osch, sg) /\
    verify_bytes O (r_ver r) (r_tr_cv r) sigalg (r_premaster r) (r_cr r) (r_sr r) None tag_client
                 (Some (cm_keytype cm)) = Ok vb /\
    sig_ok O (cm_key cm) sigalg vb sg = true /\
    (r_ver r = (3, 3) -> exists sch, osch = Some sch /\ sigalg = Some sch /\ sch_in sch (r_valid r) = true) /\
    (r_ver r <> (3, 3) -> sigalg = if String.eqb (cm_keytype cm) "ecdsa" then Some (2, 3) else None).
Proof.
  intros O r s c H Hc. destruct (server12_Ok O r s H) as (Hr & Hf & _ & Hch).
  destruct (Hch c Hc) as (K & Rq & cm & osch & sg & sigalg & vb & []). repeat split; trivial.
  exists cm, osch, sg, sigalg, vb. repeat split; assumption.
Qed.

(* (4)(8) server TLS 1.3: client chain from a verified CertificateVerify, or (resumption) the
   chain stored in the ticket after binder and Finished *)
Theorem client_chain_recorded_only_if_proved_tls13 : forall O r s c,
  server13 O r = Ok s -> s_client_chain s = Some c ->
  r_rec_ok r = true /\ fin_ok O FIN_C13 (r_tr_fin r) (r_fin r) = true /\
  ((r_psk r = None /\ r_req_cert r = true /\
    exists cm sch sg ctx,
      r_cert r = Some cm /\ c = cm_chain cm /\ c <> [] /\ r_cv r = Some (Some sch, sg) /\
      sch_in sch (r_valid r) = true /\
      vb13 O sch (r_prf r) tag_client (r_tr_cv r) = Ok ctx /\
      sig_ok O (cm_key cm) (Some sch) ctx sg = true) \/
   (exists id, r_psk r = Some id /\ s_psk s = Some id /\ r_ticket_chain r = Some c /\
               binder_ok O id (r_tr_binder r) (r_binder r) = true)).
Proof.
  intros O r s c H Hc. destruct (server13_Ok O r s H) as (Hr & Hf & Hp & Hb & Hch). split; [exact Hr|]. split; [exact Hf|].
  specialize (Hch c Hc). destruct (r_psk r) as [id|]; [right; exists id; auto|left].
  destruct Hch as (Rq & cm & sch & sg & ctx & []). repeat split; trivial. exists cm, sch, sg, ctx. repeat split; assumption.
Qed.

(* (5) post-handshake authentication *)
Theorem client_chain_recorded_only_if_proved_pha : forall O r c,
  server_pha O r = Ok (Some c) ->
  r_ctx_ok r = true /\ fin_ok O FIN_PHA (r_tr_fin r) (r_fin r) = true /\
  exists cm sch sg ctx,
    r_cert r = Some cm /\ c = cm_chain cm /\ c <> [] /\ r_cv r = Some (Some sch, sg) /\
    sch_in sch (r_offered r) = true /\ sch_in sch (r_valid r) = true /\
    vb13 O sch (r_prf r) tag_client (r_tr_cv r) = Ok ctx /\
    sig_ok O (cm_key cm) (Some sch) ctx sg = true.
Proof.
  intros O r c. unfold server_pha. intros H. destruct (r_cert r) as [cm|]; [|discriminate H].
  apply bind_Ok in H as (u & Hx & H). apply bind_Ok in H as (u' & Hcv & H). apply bind_Ok in H as (u'' & Hf & H).
  split; [exact (guard_Ok _ _ _ Hx)|]. split; [exact (guard_Ok _ _ _ Hf)|].
  destruct (is_nil (cm_chain cm)) eqn:N; [discriminate H|]. injection H as <-. cbn [negb] in Hcv.
  destruct (r_cv r) as [[[sch|] sg]|]; try discriminate Hcv.
  apply bind_Ok in Hcv as (u1 & Ho & Hcv). apply bind_Ok in Hcv as (u2 & Hv & Hcv).
  apply bind_Ok in Hcv as (ctx & Hvb & Hcv). apply bind_Ok in Hcv as (u3 & _ & Hcv).
  exists cm, sch, sg, ctx.
  repeat split; [exact (is_nil_false _ N)|exact (guard_Ok _ _ _ Ho)|exact (guard_Ok _ _ _ Hv)|exact Hvb|exact (guard_Ok _ _ _ Hcv)].
Qed.

(* (7) SRP: the session carries an SRP user name only if the key exchange was SRP, the user is
   in the verifier database and the client Finished verifies under the secret derived from
   that verifier (password proof).
   Before fix 11c0ed7 (/repo) this was FALSE of the code unless the key exchange was SRP: on run_w2
   (certificate-only server, ClientHello with an SRP extension) srpUsername = "admin" was recorded;
   since the fix no name is recorded there (former_witness_srp_unproved_now_not_recorded). *)
Theorem srp_user_only_if_password_proof : forall O r s u,
  server12 O r = Ok s -> s_srp_user s = Some u ->
  kx_is_srp (r_kx r) = true /\ r_srp_user r = Some u /\ r_srp_known r = true /\ r_kx_alert r = None /\
  r_rec_ok r = true /\ fin_ok O FIN_C12 (r_tr_fin r) (r_fin r) = true.
Proof.
  intros O r s u H Hu. destruct (server12_Ok O r s H) as (Hr & Hf & Hsrp & _).
  destruct (Hsrp u Hu) as (A & B & C & D). auto 6.
Qed.

(* (7b) identities restored from a TLS <= 1.2 session ticket / the session cache (since /repo
   19b1cb2 the ticket carries the SRP user name next to the client chain): they are attributed
   to the connection only if the ticket decrypted under a current key (r_psk = Some _), the
   record keys derived from the ticket's master secret opened the peer's flight and the peer's
   Finished verified; an SRP user name in the ClientHello must equal the stored one *)
Theorem srp_user_from_ticket_only_if_ticket_and_finished : forall O r s,
  server12_resume O r = Ok (Some s) ->
  (exists id, r_psk r = Some id) /\ r_rec_ok r = true /\
  fin_ok O FIN_C12 (r_tr_fin r) (r_fin r) = true /\
  s_srp_user s = r_ticket_srp r /\ s_client_chain s = r_ticket_chain r /\ s_server_chain s = None /\
  (forall h, r_srp_user r = Some h -> r_ticket_srp r = Some h).
Proof.
  intros O r s. unfold server12_resume. intros H. destruct (r_psk r) as [id|]; [|discriminate H].
  split; [exists id; reflexivity|]. cbv zeta in H. set (go := bind (opt_alert _) _) in H.
  (* whichever way the user names let the flow go on, it goes on with go *)
  assert (Hu : go = Ok (Some s) /\ forall h, r_srp_user r = Some h -> r_ticket_srp r = Some h).
  { destruct (r_srp_user r) as [u|]; [|split; [exact H|discriminate]].
    destruct (r_ticket_srp r) as [u'|] eqn:T; [|discriminate H]. destruct (list_eqb u u') eqn:E; [|discriminate H].
    apply list_eqb_spec in E. subst u'. split; [exact H|intros h [= <-]; reflexivity]. }
  destruct Hu as (Hs & Hu). apply bind_Ok in Hs as (u & _ & Hs). apply sealed_Ok in Hs as (Hr & Hf & [= <-]).
  cbn. repeat split; assumption.
Qed.

(* (8) PSK *)
Theorem psk_identity_only_if_binder_and_finished : forall O r s id,
  server13 O r = Ok s -> s_psk s = Some id ->
  r_psk r = Some id /\ binder_ok O id (r_tr_binder r) (r_binder r) = true /\
  r_rec_ok r = true /\ fin_ok O FIN_C13 (r_tr_fin r) (r_fin r) = true.
Proof.
  intros O r s id H Hi. destruct (server13_Ok O r s H) as (Hr & Hf & Hp & Hb & _). rewrite Hp in Hi. auto.
Qed.

Theorem psk_server_only_if_finished : forall O r s id,
  client13 O r = Ok s -> s_psk s = Some id ->
  r_psk r = Some id /\ s_server_chain s = None /\ s_dc s = false /\
  r_rec_ok r = true /\ fin_ok O FIN_S13 (r_tr_fin r) (r_fin r) = true.
Proof.
  intros O r s id H Hi. destruct (client13_Ok O r s H) as (Hr & Hf & Hp & Hm). rewrite Hp in Hi.
  destruct (r_psk r); [|discriminate Hi]. destruct Hm as (A & B). auto.
Qed.

(* the signature scheme of every accepted proof was offered / is in the list this endpoint
   checks, at all six sites.
   Before fix 61d7222 (/repo) the sixth conjunct (TLS 1.3 client, server CertificateVerify
   without delegated credential) was FALSE of the code: on run_w1 (client offers
   rsa_pss_rsae_sha256 only, server signs with rsa_pkcs1_sha1) the chain was recorded; since the
   fix the client answers illegal_parameter (former_witness_scheme_not_offered_now_rejected). *)
Theorem scheme_must_be_offered : forall O r,
  (forall s c, server12 O r = Ok s -> s_client_chain s = Some c -> r_ver r = (3, 3) ->
     exists sch sg, r_cv r = Some (Some sch, sg) /\ sch_in sch (r_valid r) = true) /\
  (forall s c, server13 O r = Ok s -> s_client_chain s = Some c -> r_psk r = None ->
     exists sch sg, r_cv r = Some (Some sch, sg) /\ sch_in sch (r_valid r) = true) /\
  (forall c, server_pha O r = Ok (Some c) ->
     exists sch sg, r_cv r = Some (Some sch, sg) /\ sch_in sch (r_offered r) = true /\ sch_in sch (r_valid r) = true) /\
  (forall s c, client12 O r = Ok s -> s_server_chain s = Some c -> r_kx r <> 0 -> ver_lt (r_ver r) (3, 3) = false ->
     exists sch params sg, r_ske r = Some (Some sch, params, sg) /\ sch_in sch (r_valid r) = true) /\
  (forall s, client13 O r = Ok s -> s_dc s = true ->
     exists cm d, r_cert r = Some cm /\ cm_dc cm = [d] /\
       sch_in (dc_cv_alg d) (r_dc_offered r) = true /\ sch_in (dc_alg d) (r_offered r) = true) /\
  (forall s c, client13 O r = Ok s -> s_server_chain s = Some c -> s_dc s = false ->
     exists sch sg, r_cv r = Some (Some sch, sg) /\ sch_in sch (r_offered r) = true /\ sch_in sch (r_valid r) = true).
Proof.
  intros O r. split; [|split; [|split; [|split; [|split]]]].
  - intros s c H Hc V. destruct (server12_Ok O r s H) as (_ & _ & _ & Hch).
    destruct (Hch c Hc) as (_ & _ & cm & osch & sg & sa & vb & K).
    destruct (v_tls12 K V) as (sch & -> & _ & Hin). exists sch, sg. exact (conj (v_cv K) Hin).
  - intros s c H Hc P. destruct (server13_Ok O r s H) as (_ & _ & _ & _ & Hch). specialize (Hch c Hc). rewrite P in Hch.
    destruct Hch as (_ & cm & sch & sg & ctx & K). exists sch, sg. exact (conj (k_cv K) (k_valid K)).
  - intros c H. destruct (client_chain_recorded_only_if_proved_pha O r c H) as (_ & _ & cm & sch & sg & ctx & _ & _ & _ & Hcv & Ho & Hv & _).
    eauto 8.
  - intros s c H Hc K V. destruct (server_chain_recorded_only_if_proved_tls12 O r s c H Hc) as (_ & _ & _ & cm & _ & _ & _ & Hs).
    destruct (Hs K) as (osch & params & sg & Hske & _ & Hv). destruct (Hv V) as (sch & -> & Hin).
    eauto 8.
  - intros s H Hd. destruct (client13_Ok O r s H) as (_ & _ & _ & Hm). destruct (r_psk r); [destruct Hm; congruence|].
    destruct Hm as (cm & sch0 & sg & ctx & V).
    destruct (sv_proof V) as [(_ & Hf & _)|(d & Hdc & _ & _ & P1 & P2 & _)]; [congruence|].
    exists cm, d. exact (conj (sv_cert V) (conj Hdc (conj P1 P2))).
  - intros s c H Hc Hd. destruct (client13_Ok O r s H) as (_ & _ & _ & Hm). destruct (r_psk r); [destruct Hm; congruence|].
    destruct Hm as (cm & sch0 & sg & ctx & V).
    destruct (sv_proof V) as [(_ & _ & Ho & Hv & _)|(d & _ & Hf & _)]; [|congruence].
    exists sch0, sg. exact (conj (sv_cv V) (conj Ho Hv)).
Qed.

(* the signed bytes determine the transcript and (TLS 1.3) the role, under H-ideal-hash; the third hypothesis follows
   from the fourth (C05_Binding.ssl_inj) and is not used *)
Theorem proof_bound_to_this_transcript_ideal : forall O : Orc,
  (forall t1 t2 n, o_digest O t1 n = o_digest O t2 n -> t1 = t2) ->
  (forall t1 t2 n, List.length (o_digest O t1 n) = List.length (o_digest O t2 n)) ->
  (forall t1 t2 m l, o_digestSSL O t1 m l = o_digestSSL O t2 m l -> t1 = t2) ->
  (forall t1 t2 m l, py_slice (o_digestSSL O t1 m l) (Some 16) None = py_slice (o_digestSSL O t2 m l) (Some 16) None -> t1 = t2) ->
  (forall a b n, o_hash O a n = o_hash O b n -> a = b) ->
  (forall a b n, o_pkcs1 O a n = o_pkcs1 O b n -> a = b) ->
  forall ver t1 t2 sa pm cr sr prf tag1 tag2 kt b,
    List.length tag1 = List.length tag2 ->
    verify_bytes O ver t1 sa pm cr sr prf tag1 kt = Ok b ->
    verify_bytes O ver t2 sa pm cr sr prf tag2 kt = Ok b ->
    t1 = t2 /\ (ver = (3, 4) -> tag1 = tag2).
Proof.
  intros O Hd Hl Hs Hss Hh Hp ver t1 t2 sa pm cr sr prf tag1 tag2 kt b.
  exact (verify_bytes_binds O Hd Hl Hss Hh Hp ver sa pm cr sr prf kt t1 t2 tag1 tag2 b).
Qed.

Theorem checker_mismatch_fails_call :
  (forall hs cl w fp s, wrapper hs cl (Some w) fp = Ok s ->
     hs = Ok s /\ exists c, (if cl then s_server_chain s else s_client_chain s) = Some c /\ fp c = w) /\
  (forall (hs : res Session) (cl : bool) (w : list Z) (fp : list Z -> list Z) (s : Session), hs = Ok s ->
     (forall c, (if cl then s_server_chain s else s_client_chain s) = Some c -> fp c <> w) ->
     wrapper hs cl (Some w) fp = Err (OtherExn X_AuthenticationError)) /\
  (forall (e : exn) (cl : bool) (w : option (list Z)) (fp : list Z -> list Z), exists e', wrapper (Err e) cl w fp = Err e').
Proof.
  split; [|split; [|exact wrapper_failed_handshake]].
  - intros hs cl w fp s H. destruct hs as [s0|e]; [|destruct (wrapper_failed_handshake e cl (Some w) fp) as (e' & E); congruence].
    unfold wrapper in H. cbn [map_exn bind] in H.
    destruct (if cl then s_server_chain s0 else s_client_chain s0) as [c|] eqn:C; [|discriminate H].
    destruct (list_eqb (fp c) w) eqn:E; [|discriminate H].
    injection H as <-. split; [reflexivity|]. exists c. split; [exact C|]. apply list_eqb_spec. exact E.
  - intros hs cl w fp s -> Hne. unfold wrapper. cbn [map_exn bind].
    destruct (if cl then s_server_chain s else s_client_chain s) as [c|] eqn:C; [|reflexivity].
    destruct (list_eqb (fp c) w) eqn:E; [|reflexivity].
    apply list_eqb_spec in E. exfalso. exact (Hne c eq_refl E).
Qed.

(* Checker and RESUMED connections.  On the SERVER side every call made with a Checker that returns has a peer
   chain with the expected fingerprint, resumed or not (the identity restored from a ticket is checked again);
   on the CLIENT side the checkResumedSession semantics are kept: the same holds for non-resumed connections or
   checkResumedSession=True, and a resumed connection with checkResumedSession=False (the default) is NOT
   re-checked (third conjunct; the client checked that session object when it created it).
   Before /repo 3463378 the server skipped resumed connections as well, so the first conjunct held only for
   resumed = false \/ chk = true (finding F-C05-4, witness session_w3: the ticket is sent before the Checker
   rejects the chain). *)
Theorem checker_mismatch_fails_call_resumed :
  (forall hs cl w fp resumed chk s,
     (cl = false \/ resumed = false \/ chk = true) ->
     wrapper_r hs cl (Some w) fp resumed chk = Ok s ->
     hs = Ok s /\ exists c, (if cl then s_server_chain s else s_client_chain s) = Some c /\ fp c = w) /\
  wrapper_r (Ok session_w3) false (Some [21]) (fun x => x) true false = Err (OtherExn X_AuthenticationError) /\
  (forall hs w fp, wrapper_r hs true w fp true false = map_exn hs).
Proof.
  split; [|split; reflexivity]. unfold wrapper_r. intros hs cl w fp resumed chk s Hc H.
  (* the skipping condition is false *)
  replace (resumed && negb chk && cl) with false in H; [exact (proj1 checker_mismatch_fails_call hs cl w fp s H)|].
  destruct Hc as [-> | [-> | ->]]; [rewrite andb_false_r|reflexivity|rewrite andb_false_r]; reflexivity.
Qed.

(* F12: the server's own `scheme` (read in _serverTLS13Handshake's CertificateVerify check) influences the check of a
   client brainpool CertificateVerify only through SignatureScheme.getHash failing *)
Theorem f12_server_scheme_irrelevant_when_known : forall sch n1 n2 h1 h2,
  SignatureScheme_getHash (Some n1) = Ok h1 -> SignatureScheme_getHash (Some n2) = Ok h2 ->
  dispatch13_srv sch (Some n1) = dispatch13_srv sch (Some n2).
Proof.
  intros sch n1 n2 h1 h2 H1 H2. unfold dispatch13_srv.
  destruct (sch_in sch eddsa_like); [reflexivity|]. destruct (snd sch =? 3); [reflexivity|].
  destruct (sch_in sch brainpool13); [|reflexivity]. rewrite H1, H2. reflexivity.
Qed.

(* the DSA verification that stands behind sig_ok at the DHE_DSA ServerKeyExchange and the TLS <= 1.2
   DSA CertificateVerify sites (text regenerated from Python_DSAKey.verify from its range check on):
   for EVERY behaviour of invMod / powMod an accepted (r, s) satisfies 0 < r < q and 0 < s < q and the
   verification equation -- in particular the constant signature (r, s) = (1, 0) is never accepted *)
Theorem dsa_signature_accepted_only_in_range :
  forall (invMod : Z -> Z -> Z) (powMod : Z -> Z -> Z -> Z) p q g y d r s,
  dsa_verify_tail invMod powMod p q g y d r s = true ->
  0 < r < q /\ 0 < s < q /\
  r = (((powMod g ((d * invMod s q) mod q) p) * (powMod y ((r * invMod s q) mod q) p)) mod p) mod q.
Proof.
  unfold dsa_verify_tail. intros invMod powMod p q g y d r s H.
  match type of H with (if ?c then _ else _) = true => destruct c eqn:E; [|discriminate H] end.
  repeat (rewrite andb_true_iff in E). rewrite !Z.ltb_lt in E.
  cbv zeta in H. apply Z.eqb_eq in H. split; [lia|]. split; [lia|]. exact H.
Qed.

Example dsa_toy_signature_accepted : dsa_verify_run 23 11 4 18 7 7 2 = true.
Proof. vm_compute. reflexivity. Qed.
Example dsa_r1_s0_rejected : dsa_verify_run 23 11 4 18 7 1 0 = false.
Proof. vm_compute. reflexivity. Qed.

(* the hypotheses are satisfiable: honest runs are accepted and record the chain *)
Example honest_tls13_client : exists s, client13 (orc_const true) run0 = Ok s /\ s_server_chain s = Some [1].
Proof. eexists. split; vm_compute; reflexivity. Qed.
Example forged_tls13_rejected : client13 (orc_const false) run0 = Err (OtherExn X_DecryptionFailed).
Proof. vm_compute. reflexivity. Qed.
(* run_w1 (accepted before /repo 61d7222) is rejected; run_w2 (SRP name recorded before 11c0ed7) records none *)
Example former_witness_scheme_not_offered_now_rejected :
  client13 (orc_const true) run_w1 = Err (OtherExn illegal_parameter).
Proof. vm_compute. reflexivity. Qed.
Example former_witness_srp_unproved_now_not_recorded :
  exists s, server12 (orc_const true) run_w2 = Ok s /\ s_srp_user s = None.
Proof. eexists. split; vm_compute; reflexivity. Qed.
Example ideal_hash_hypotheses_satisfiable :
  let O := orc_const true in
  (forall t1 t2 n, o_digest O t1 n = o_digest O t2 n -> t1 = t2) /\
  (forall t1 t2 m l, o_digestSSL O t1 m l = o_digestSSL O t2 m l -> t1 = t2) /\
  (forall t1 t2 m l, py_slice (o_digestSSL O t1 m l) (Some 16) None = py_slice (o_digestSSL O t2 m l) (Some 16) None -> t1 = t2) /\
  (forall a b n, o_hash O a n = o_hash O b n -> a = b) /\
  (forall a b n, o_pkcs1 O a n = o_pkcs1 O b n -> a = b).
Proof.
  unfold orc_const. cbn [o_digest o_digestSSL o_hash o_pkcs1].
  split; [intros; assumption|]. split; [intros t1 t2 _ _ H; apply app_inv_head in H; exact H|].
  split; [intros t1 t2 _ _ H; rewrite !py_slice_from in H by lia; exact H|].
  split; intros; assumption.
Qed.
