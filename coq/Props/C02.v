(* Property C02 -- a record is accepted only if it is exactly what the peer sent next.
   Model: Model/C01_RecordPipe.v (protect/unprotect), Model/C02_RecordAccept.v (protect_with: the sender's
   free choices; recv_step: the error path).
   Hypotheses: Spec/C01_Contracts.v (cipher/AEAD/MAC contracts), Spec/C02_Ideal.v.
   Theorems with _ideal in their name use an idealisation: the symbolic "no collisions" one of the
   MAC / AEAD (see Spec/C02_Ideal.v for what that does and does not mean) or, for
   keyupdate_epochs_distinct_ideal, of HKDF as stated in its hypotheses.
   Names of the statements defined in Proofs/: C02_Corollaries.v (choice_legal, onto_ok, ideal_one_key), C02_Accept.v (dec_bytes),
   C02_Cbc.v (bytes_list), C02_Reject.v (integrity_mode), C02_Round3.v (recv_stream_strict), C01_Delivery.v (SEQ_MAX),
   C02_Effects.v (transparent_prim), C01_ToyOk.v (ex_prim_id). *)
From Coq Require Import ZArith List Bool Lia.
From TV Require Import Base.Prelude Base.PreludeFacts Model.C01_RecordPipe Toy.C01_ToyCipher Spec.C01_Contracts
  Model.C02_RecordAccept Spec.C02_Ideal Proofs.C01_RoundTrip Proofs.C01_Tls13 Proofs.C01_Delivery Proofs.C01_ToyOk
  Proofs.C02_Cbc Proofs.C02_Accept Proofs.C02_Integrity Proofs.C02_Reject Proofs.C02_Corollaries Proofs.C02_Effects
  Proofs.C01_Close Proofs.C02_Round3.
Import ListNotations.
Open Scope Z_scope.

(* TLS <= 1.2: whatever recvRecord accepts is, byte for byte, what a sender in step with the
   receiver (same key, cipher state, sequence number) produces for the (type, payload) it yields,
   for some legal choice of padding / IV block / explicit nonce and the header version it carries;
   the two ends are in step again, seq + 1 *)
Theorem accept_in_image : forall (CS : Type) (P : Prim CS) (R : CS -> CS -> Prop) (c : Cfg) (md : mode)
    (s r r' : St CS) (hty : Z) (hver : Z * Z) (body : list Z) (ty : Z) (p : list Z),
  md <> MTls13 -> mode_ok P R md c -> onto_ok P R c md -> dec_bytes P -> bytes_list body -> zlen body < 65536 ->
  sync R s r ->
  unprotect c P r (hty, hver, body) = ROk (r', (ty, p)) ->
  exists ch s', choice_legal c md ch /\
                protect_with c P s (ty, p) ch hver = ROk (s', (hty, hver, body)) /\
                sync R s' r' /\ st_seq r' = st_seq r + 1 /\ zlen p <= c_recv_limit c.
Proof.
  intros CS P R c md s r r' hty hver body ty p Hmd Hmode Honto Hdb Hbb Hb16 Hsync Hacc.
  destruct (proj1 (unprotect_legacy_ok P R c md _ _ _ _ _ _ _ Hmd Hmode) Hacc) as [-> [A [L _]]].
  assert (Hbytes : bytes_ok P md body) by (destruct md; cbn [bytes_ok]; auto).
  rewrite onto_ok_eq in Honto.
  destruct (path_accept P R c md Hmd s r r' hty hver p body Hmode Honto Hbytes Hsync A) as [ch [s' [B [C [D E]]]]].
  exists ch, s'. rewrite (protect_with_legacy P R c md _ _ _ _ _ Hmd Hmode), C.
  split; [rewrite choice_legal_eq; exact B|auto].
Qed.

(* TLS <= 1.2, every path (stream/NULL, CBC implicit and explicit IV, EtM, AEAD): for a sender state s in
   step with the receiver state r (same key, cipher state and next sequence number), the wire
   (hty,hver,body) is accepted yielding (ty,p) IFF it is protect_with s (ty,p) for some legal choice of CBC
   padding / IV-block plaintext / explicit nonce (and the header version it carries, which TLS <= 1.2
   does not authenticate), within the receive limits.  `protect` is the instance with tlslite's choices. *)
Theorem accept_iff_image : forall (CS : Type) (P : Prim CS) (R : CS -> CS -> Prop) (c : Cfg) (md : mode)
    (s r : St CS) (hty : Z) (hver : Z * Z) (body : list Z) (ty : Z) (p : list Z),
  md <> MTls13 -> mode_ok P R md c -> onto_ok P R c md -> dec_bytes P -> bytes_list body -> zlen body < 65536 ->
  sync R s r ->
  ((exists r', unprotect c P r (hty, hver, body) = ROk (r', (ty, p))) <->
   (zlen body <= c_recv_limit c + 2048 /\ zlen p <= c_recv_limit c /\
    exists ch s', choice_legal c md ch /\ protect_with c P s (ty, p) ch hver = ROk (s', (hty, hver, body)))).
Proof.
  intros CS P R c md s r hty hver body ty p Hmd Hmode Honto Hdb Hbb Hb16 Hsync. split.
  - intros [r' H]. destruct (proj1 (unprotect_legacy_ok P R c md _ _ _ _ _ _ _ Hmd Hmode) H) as (_ & _ & _ & Hsz).
    destruct (accept_in_image CS P R c md s r r' hty hver body ty p Hmd Hmode Honto Hdb Hbb Hb16 Hsync H)
      as (ch & s' & A & B & _ & _ & C).
    split; [exact Hsz|]. split; [exact C|]. eauto.
  - intros [Hsz [Hp [ch [s' [A B]]]]]. rewrite (protect_with_legacy P R c md _ _ _ _ _ Hmd Hmode) in B.
    apply rbind_ok_inv in B. destruct B as [[s1 b] [Hpath B]]. injection B as -> -> ->.
    rewrite choice_legal_eq in A.
    destruct (path_image P R c md Hmd s s' r hty hver p ch body Hmode Hsync A Hpath) as [r' [C _]].
    exists r'. apply (unprotect_legacy_ok P R c md _ _ _ _ _ _ _ Hmd Hmode). auto.
Qed.

(* the stream/NULL path at path level; the bounds on ty, data and st_seq s are not used *)
Theorem accept_iff_image_stream : forall (CS : Type) (P : Prim CS) (R : CS -> CS -> Prop) (c : Cfg)
    (s r : St CS) (ty : Z) (body data : list Z),
  mode_ok P R MStream c -> (c_has_enc c = true -> cipher_onto P R 1) -> sync R s r ->
  is_byte ty = true -> zlen data <= 16384 -> st_seq s < 18446744073709551616 ->
  ((exists r', decrypt_stream_then_mac c P r ty body = ROk (r', data)) <->
   (exists s', mac_then_encrypt c P s ty data = ROk (s', body))).
Proof.
  intros CS P R c s r ty body data Hmode Honto Hsync _ _ _. split.
  - intros [r' H]. pose proof Hmode as [_ [_ [_ [Hblk _]]]].
    destruct (stream_accept P R c s r r' ty (c_ver c) data body Hmode Honto I Hsync H) as [ch [s' [_ [A _]]]].
    cbn [send_path_with] in A. rewrite mte_body_with_stream in A by exact Hblk. eauto.
  - intros [s' H]. pose proof Hmode as [_ [_ [_ [Hblk _]]]].
    rewrite <- (mte_body_with_stream P c s ty data no_choice Hblk) in H.
    destruct (stream_image_accepted P R c s s' r ty (c_ver c) data no_choice body Hmode Hsync I H) as [r' [A _]]. eauto.
Qed.

(* TLS 1.3: an accepted application_data record is the sealing, under the nonce of the receiver's
   next sequence number and the header as additional data, of content ++ [type] ++ zero padding.
   (the inner type is neither 0 nor change_cipher_spec: RFC 8446 section 5, a protected CCS is rejected) *)
Theorem accept_image_tls13 : forall (CS : Type) (P : Prim CS) (R : CS -> CS -> Prop) (c : Cfg)
    (s r r' : St CS) (hver : Z * Z) (body : list Z) (ty : Z) (data : list Z),
  mode_ok P R MTls13 c -> aead_tight P -> sync R s r ->
  unprotect c P r (23, hver, body) = ROk (r', (ty, data)) ->
  hver = (3, 3) /\ (ty <> 0 /\ ty <> 20) /\ zlen data <= c_recv_limit c /\
  exists k nonce, 0 <= k /\ zlen data + 1 + k <= c_recv_limit c + 1 /\
    get_nonce c (be_bytes 8 (st_seq r)) = ROk nonce /\
    body = pr_seal P nonce (data ++ [ty] ++ zeros k) (aad13 23 (3, 3) (zlen body)) /\
    sync R {| st_cs := st_cs s; st_seq := st_seq s + 1 |} r' /\ st_seq r' = st_seq r + 1.
Proof.
  intros CS P R c s r r' hver body ty data Hmode Htight Hsync Hacc. pose proof (mode_tls13 Hmode) as T.
  destruct (accepted13_sealed T _ _ _ _ _ _ Htight Hacc) as (Hver & Hrange & Hr' & Hty & Hdl & k & Hk & Hil & Hbody).
  subst hver r'.
  do 3 (split; [auto|]). exists k, (xor_nonce (c_fixed_nonce c) (be_bytes 8 (st_seq r))).
  split; [exact Hk|]. split; [exact Hil|]. split; [apply (get_nonce13 T)|].
  split; [|split; [exact (sync_bump R s r Hsync)|reflexivity]].
  rewrite Hbody at 1. unfold sealed13. rewrite <- (zlen_sealed13 T (st_seq r)), <- Hbody. reflexivity.
Qed.

(* TLS 1.3, application_data / 3.3 header: full iff, for every amount of zero padding within the receive
   limit; the inner type is any byte except 0 and change_cipher_spec *)
Theorem accept_iff_image_tls13 : forall (CS : Type) (P : Prim CS) (R : CS -> CS -> Prop) (c : Cfg)
    (s r : St CS) (body : list Z) (ty : Z) (data : list Z),
  mode_ok P R MTls13 c -> aead_tight P -> sync R s r -> zlen body < 65536 ->
  ((exists r', unprotect c P r (23, (3, 3), body) = ROk (r', (ty, data))) <->
   ((ty <> 0 /\ ty <> 20) /\ zlen data <= c_recv_limit c /\ st_seq s < 18446744073709551616 /\
    exists k s', 0 <= k /\ zlen data + 1 + k <= c_recv_limit c + 1 /\
      protect_with c P s (ty, data) {| ch_pad := []; ch_ivb := []; ch_nonce := []; ch_zeros := k |} (3, 3)
        = ROk (s', (23, (3, 3), body)))).
Proof.
  intros CS P R c s r body ty data Hmode Htight Hsync Hb16. pose proof Hsync as [HR [Hseq H0]].
  pose proof (mode_tls13 Hmode) as T. pose proof (t_limits T) as [_ [_ Hl3]]. pose proof (t_tag T) as Htag.
  pose proof (zlen_nonneg data) as Hd0.
  split.
  - intros [r' H].
    destruct (accepted13_sealed T _ _ _ _ _ _ Htight H) as (Hver & Hrange & Hr' & Hty & Hdl & k & Hk & Hil & Hbody).
    split; [exact Hty|]. split; [exact Hdl|]. split; [lia|].
    exists k, (bump s). split; [exact Hk|]. split; [exact Hil|].
    rewrite (protect_with_tls13 T s ty data k (proj2 Hty) Hk) by lia. rewrite Hseq, <- Hbody. reflexivity.
  - intros [[Hty H20] [Hdl [Hsr [k [s' [Hk [Hkl Hpw]]]]]]].
    rewrite (protect_with_tls13 T s ty data k H20 Hk) in Hpw by lia. injection Hpw as _ <-.
    exists (bump r). apply (tls13_inner_accepted T s r ty data k Hsync Hty H20 Hk Hkl Hsr).
Qed.

(* the bytes under the MAC determine sequence number, content type and payload (the two length bounds are not used: the
   header before the payload has a fixed length) *)
Theorem mac_input_binds : forall (c : Cfg) n1 ty1 d1 n2 ty2 d2,
  0 <= n1 < 18446744073709551616 -> 0 <= n2 < 18446744073709551616 ->
  zlen d1 < 65536 -> zlen d2 < 65536 ->
  mac_input c n1 ty1 d1 = mac_input c n2 ty2 d2 -> n1 = n2 /\ ty1 = ty2 /\ d1 = d2.
Proof. intros c n1 ty1 d1 n2 ty2 d2 Hn1 Hn2 _ _. exact (mac_input_inj c n1 ty1 d1 n2 ty2 d2 Hn1 Hn2). Qed.

(* EtM, TLS 1.2 AEAD, TLS 1.3: one wire accepted by two receiver states of the same key -> same
   sequence number, same type (and same payload for AEAD) *)
Theorem images_disjoint_ideal : forall (CS : Type) (R : CS -> CS -> Prop) (c : Cfg) (P : Prim CS) (md : mode)
    (r1 r1' r2 r2' : St CS) hty hver body ty1 p1 ty2 p2,
  integrity_mode md -> mode_ok P R md c -> (md = MTls13 -> hty = 23) ->
  (md = MEtm -> mac_injective_ideal P) ->
  (md <> MEtm -> aead_tight P /\ seal_injective_ideal P) ->
  unprotect c P r1 (hty, hver, body) = ROk (r1', (ty1, p1)) ->
  unprotect c P r2 (hty, hver, body) = ROk (r2', (ty2, p2)) ->
  st_seq r1 = st_seq r2 /\ ty1 = ty2 /\ (md <> MEtm -> p1 = p2).
Proof. exact @two_accepts_same_position_ideal. Qed.

(* MAC-then-encrypt (stream/NULL), for receivers that decrypt alike: the MAC binds seq, type, payload.
   (For a stateful cipher a record replayed at another position decrypts to other bytes; that those
   bytes do not carry a valid tag is unforgeability, which no hypothesis on functions expresses:
   _partial, see design/C02.md.) *)
Theorem images_disjoint_mte_ideal_partial : forall (CS : Type) (c : Cfg) (P : Prim CS)
    (r1 r1' r2 r2' : St CS) ty1 ty2 body p1 p2,
  c_has_mac c = true -> mac_injective_ideal P -> st_cs r1 = st_cs r2 ->
  decrypt_stream_then_mac c P r1 ty1 body = ROk (r1', p1) ->
  decrypt_stream_then_mac c P r2 ty2 body = ROk (r2', p2) ->
  st_seq r1 = st_seq r2 /\ ty1 = ty2 /\ p1 = p2.
Proof. exact @stream_binds_ideal. Qed.

(* every way of presenting a record that is not the next one: what tlslite's own sender protected at
   sequence number st_seq s (EtM, AEAD, TLS 1.3) is rejected by every receiver state at another sequence
   number -- reordered, replayed, or presented after records were dropped *)
Theorem reorder_rejected_ideal : forall (CS : Type) (P : Prim CS) (R : CS -> CS -> Prop) (c : Cfg) (md : mode)
    (s s' rj r : St CS) ty data w,
  integrity_mode md -> mode_ok P R md c -> ideal_one_key P md ->
  sync R s rj -> rec_ok c ty data -> (md = MTls13 -> ty <> 20) -> st_seq s < SEQ_MAX ->
  protect c P s (ty, data) = ROk (s', w) ->
  st_seq r <> st_seq s ->
  forall r' x, unprotect c P r w <> ROk (r', x).
Proof.
  intros CS P R c md s s' rj r ty data w Him Hmode [Hi1 Hi2] Hsync Hrec H20 Hs Hp Hne r' [ty2 p2] Hacc.
  destruct w as [[hty hver] body].
  destruct (protect_accepted P R c md s s' rj ty data hty hver body Hmode Hsync Hrec H20 Hs Hp) as [[rj' Hu] H23].
  destruct (two_accepts_same_position_ideal R c P md rj rj' r r' hty hver body ty data ty2 p2 Him Hmode H23 Hi1 Hi2 Hu Hacc)
    as [Hseq _].
  destruct Hsync as [_ [Hss _]]. lia.
Qed.

Theorem replay_rejected_ideal : forall (CS : Type) (P : Prim CS) (R : CS -> CS -> Prop) (c : Cfg) (md : mode)
    (s s' rj r : St CS) ty data w,
  integrity_mode md -> mode_ok P R md c -> ideal_one_key P md ->
  sync R s rj -> rec_ok c ty data -> (md = MTls13 -> ty <> 20) -> st_seq s < SEQ_MAX ->
  protect c P s (ty, data) = ROk (s', w) ->
  st_seq s < st_seq r ->
  forall r' x, unprotect c P r w <> ROk (r', x).
Proof.
  intros. eapply reorder_rejected_ideal; eauto. lia.
Qed.

Theorem drop_then_continue_rejected_ideal : forall (CS : Type) (P : Prim CS) (R : CS -> CS -> Prop) (c : Cfg)
    (md : mode) (s s' rj r : St CS) ty data w (dropped : Z),
  integrity_mode md -> mode_ok P R md c -> ideal_one_key P md ->
  sync R s rj -> rec_ok c ty data -> (md = MTls13 -> ty <> 20) -> st_seq s < SEQ_MAX ->
  protect c P s (ty, data) = ROk (s', w) ->
  1 <= dropped -> st_seq s = st_seq r + dropped ->
  forall r' x, unprotect c P r w <> ROk (r', x).
Proof.
  intros. eapply reorder_rejected_ideal; eauto. lia.
Qed.

(* records protected under the key of the other direction ... *)
Theorem reflection_rejected_ideal : forall (CS : Type) (R : CS -> CS -> Prop) (md : mode) (c1 c2 : Cfg)
    (P1 P2 : Prim CS) (s s' rj r : St CS) ty data w,
  integrity_mode md -> mode_ok P1 R md c1 -> mode_ok P2 R md c2 -> explicit_nonce c1 = explicit_nonce c2 ->
  (md = MEtm -> mac_disjoint_ideal P1 P2 /\ ds P1 = ds P2) ->
  (md <> MEtm -> aead_tight P1 /\ aead_tight P2 /\ seal_disjoint_ideal P1 P2) ->
  sync R s rj -> rec_ok c1 ty data -> (md = MTls13 -> ty <> 20) -> st_seq s < SEQ_MAX ->
  protect c1 P1 s (ty, data) = ROk (s', w) ->
  forall r' x, unprotect c2 P2 r w <> ROk (r', x).
Proof.
  intros CS R md c1 c2 P1 P2 s s' rj r ty data w Him Hm1 Hm2 Hex Hmac Haead Hsync Hrec H20 Hs Hp r' x Hacc.
  destruct w as [[hty hver] body].
  destruct (protect_accepted P1 R c1 md s s' rj ty data hty hver body Hm1 Hsync Hrec H20 Hs Hp) as [[rj' Hu] H23].
  exact (two_keys_never_both R c1 c2 P1 P2 md _ _ _ _ _ _ _ _ _ Him Hm1 Hm2 Hex H23 Hmac Haead Hu Hacc).
Qed.

(* ... or of another key epoch (before/after ChangeCipherSpec or KeyUpdate, another connection) *)
Theorem cross_epoch_rejected_ideal : forall (CS : Type) (R : CS -> CS -> Prop) (md : mode) (c1 c2 : Cfg)
    (P1 P2 : Prim CS) (s s' rj r : St CS) ty data w,
  integrity_mode md -> mode_ok P1 R md c1 -> mode_ok P2 R md c2 -> explicit_nonce c1 = explicit_nonce c2 ->
  (md = MEtm -> mac_disjoint_ideal P1 P2 /\ ds P1 = ds P2) ->
  (md <> MEtm -> aead_tight P1 /\ aead_tight P2 /\ seal_disjoint_ideal P1 P2) ->
  sync R s rj -> rec_ok c1 ty data -> (md = MTls13 -> ty <> 20) -> st_seq s < SEQ_MAX ->
  protect c1 P1 s (ty, data) = ROk (s', w) ->
  forall r' x, unprotect c2 P2 r w <> ROk (r', x).
Proof. exact @reflection_rejected_ideal. Qed.

(* recvRecord under TLS 1.3, before anything is opened: an outer change_cipher_spec is passed through
   unprotected; an alert passes in plaintext only while allow_plaintext_alert is set, shorter than 3 bytes
   and at read sequence number 0; of a body long enough to hold a tag, any other outer type but
   application_data is unexpected_message, and application_data under a header version other than 3.3
   illegal_parameter *)
Theorem tls13_outer_checks : forall (CS : Type) (R : CS -> CS -> Prop) (c : Cfg) (P : Prim CS) (r : St CS)
    hty hver body,
  mode_ok P R MTls13 c -> zlen body <= c_recv_limit c + 256 ->
  (hty = 20 -> unprotect c P r (hty, hver, body) =
               if zlen body >? c_recv_limit c then RErr EOverflow else ROk (r, (20, body))) /\
  (hty = 21 -> c_plain_alert c = true -> zlen body < 3 -> zlen body <= c_recv_limit c -> st_seq r = 0 ->
   unprotect c P r (hty, hver, body) = ROk (r, (21, body))) /\
  (hty <> 20 -> hty <> 23 -> ~ (c_plain_alert c = true /\ hty = 21 /\ zlen body < 3 /\ st_seq r = 0) ->
   0 <= st_seq r < 18446744073709551616 -> c_tag c <= zlen body ->
   unprotect c P r (hty, hver, body) = RErr EUnexpected) /\
  (hty = 23 -> hver <> (3, 3) -> 0 <= st_seq r < 18446744073709551616 -> c_tag c <= zlen body ->
   unprotect c P r (hty, hver, body) = RErr EIllegalParam).
Proof.
  intros CS R c P r hty hver body Hmode Hlen. pose proof (mode_tls13 Hmode) as T.
  rewrite (unprotect13_eq T), (unseal13 T). unfold passes_plain.
  destruct (Z.gtb_spec (zlen body) (c_recv_limit c + 256)); [lia|]. repeat split.
  - intros ->. reflexivity.
  - intros -> -> Hlt Hle ->. destruct (Z.ltb_spec (zlen body) 3); [|lia].
    destruct (Z.gtb_spec (zlen body) (c_recv_limit c)); [lia|reflexivity].
  - intros H20 H23 Hal Hseq Htl. destruct (Z.eqb_spec hty 20); [contradiction|].
    destruct (c_plain_alert c && (hty =? 21) && (zlen body <? 3) && (st_seq r =? 0)) eqn:Eb.
    { exfalso. apply Hal. rewrite !andb_true_iff, !Z.eqb_eq, Z.ltb_lt in Eb. tauto. }
    cbn [orb]. rewrite next_seq_ok by exact Hseq. cbn [rbind].
    destruct (Z.gtb_spec (c_tag c) (zlen body)); [lia|]. destruct (Z.eqb_spec hty 23); [contradiction|reflexivity].
  - intros -> Hhv Hseq Htl. cbn [Z.eqb orb andb]. rewrite andb_false_r, next_seq_ok by exact Hseq. cbn [rbind].
    destruct (Z.gtb_spec (c_tag c) (zlen body)); [lia|]. cbn [Z.eqb negb].
    destruct (pairZ_eqb hver (3, 3)) eqn:E3; [apply pairZ_eqb_spec in E3; contradiction|reflexivity].
Qed.

(* _tls13_de_pad *)
Theorem depad_spec : forall (data : list Z) (ty k : Z), ty <> 0 -> de_pad (data ++ [ty] ++ zeros k) = ROk (ty, data).
Proof. exact de_pad_spec. Qed.

Theorem depad_all_zero_rejected : forall k : Z, de_pad (zeros k) = RErr EUnexpected.
Proof.
  intros k. unfold de_pad, zeros. rewrite rev_repeat, <- (app_nil_r (repeat 0 (Z.to_nat k))).
  rewrite strip_zeros_zeros. reflexivity.
Qed.

Theorem depad_only_that : forall (d : list Z) (ty : Z) (content : list Z), de_pad d = ROk (ty, content) ->
  ty <> 0 /\ exists k, 0 <= k /\ d = content ++ [ty] ++ zeros k.
Proof. exact de_pad_inv. Qed.

(* a rejection: _getNextRecordFromSocket -> _sendError -> _shutdown(False) *)
Theorem reject_effects : forall (CS : Type) (cr cw : Cfg) (Pr Pw : Prim CS) (e : Endpoint CS) (w : Wire) err d,
  unprotect cr Pr (e_rd e) w = RErr err -> alert_of err = Some d ->
  let e' := fst (recv_step cr cw Pr Pw e w) in
  snd (recv_step cr cw Pr Pw e w) = OLocalAlert d /\
  e_rbuf e' = e_rbuf e /\ e_closed e' = true /\ e_resumable e' = false /\
  (forall s1 wa, protect cw Pw (e_wr e) (21, [2; d]) = ROk (s1, wa) -> e_sent e' = e_sent e ++ [wa]).
Proof.
  intros CS cr cw Pr Pw e w err d. intros Hu Ha. unfold recv_step. rewrite Hu, Ha. unfold send_error. cbn [fst snd e_rbuf e_closed e_resumable e_sent].
  repeat split. intros s1 wa Hp. rewrite Hp. reflexivity.
Qed.

Theorem every_tls_error_has_alert : forall err, err <> EValue -> err <> EAssert -> exists d, alert_of err = Some d.
Proof.
  intros err. destruct err; intros H1 H2; try congruence; cbn; eauto.
Qed.

Theorem accept_effects : forall (CS : Type) (cr cw : Cfg) (Pr Pw : Prim CS) (e : Endpoint CS) (w : Wire) r1 data,
  unprotect cr Pr (e_rd e) w = ROk (r1, (23, data)) ->
  let e' := fst (recv_step cr cw Pr Pw e w) in
  snd (recv_step cr cw Pr Pw e w) = ODelivered (zlen data) /\
  e_rbuf e' = e_rbuf e ++ data /\ e_closed e' = e_closed e /\ e_resumable e' = e_resumable e /\
  e_sent e' = e_sent e /\ e_rd e' = r1.
Proof.
  intros CS cr cw Pr Pw e w r1 data. intros Hu. unfold recv_step. rewrite Hu. change (23 =? 23) with true. cbn [negb andb existsb orb].
  change (23 =? 20) with false. change (23 =? 21) with false. change (23 =? 22) with false.
  cbn [orb negb fst snd e_rbuf e_closed e_resumable e_sent e_rd]. repeat split.
Qed.

(* generation N of a direction's traffic secret is next^N(s0) (RFC 8446 7.2; the harness compares the secrets
   and IVs of three consecutive KeyUpdates with an independent HKDF).  Under the ideal reading of HKDF
   (next and the key/IV derivation injective, the chain does not return to s0) all epochs have different keys,
   so cross_epoch_rejected_ideal applies to every pair of epochs. *)
Theorem keyupdate_epochs_distinct_ideal : forall (S K : Type) (next : S -> S) (derive : S -> K) (s0 : S),
  (forall a b, next a = next b -> a = b) ->
  (forall a b, derive a = derive b -> a = b) ->
  (forall n, (0 < n)%nat -> generation next s0 n <> s0) ->
  forall i j, i <> j -> derive (generation next s0 i) <> derive (generation next s0 j).
Proof.
  intros S K next derive s0. intros Hn Hd Ha i j Hij E. apply Hd in E. exact (generation_inj next s0 Hn Ha i j Hij E).
Qed.

(* every byte of every alert/handshake message yielded was carried by a record of the key epoch in which the
   message is yielded: nothing received before a read-key change survives it ... *)
Theorem no_plaintext_survives_key_change : forall (steps : list dstep) ep waiting out,
  fold_left defrag_step steps (Some (O, [], [])) = Some (ep, waiting, out) ->
  Forall (fun b => snd b = ep) waiting /\
  Forall (fun m => Forall (fun b => snd b = fst m) (snd m)) out.
Proof.
  intros steps ep waiting out. intros H. pose proof (defrag_run_ok steps (Some (O, [], [])) (conj (Forall_nil _) (Forall_nil _))) as Hok.
  rewrite H in Hok. exact Hok.
Qed.

(* ... because a key change with bytes waiting is refused *)
Theorem key_change_needs_empty_defragmenter : forall ep x waiting out,
  defrag_step (Some (ep, x :: waiting, out)) DKeyChange = None.
Proof.
  reflexivity.
Qed.

(* the early-data tolerance window of recvRecord (early_data_ok, max_early_data; every version and protection
   path): a record that is handed up closes it; closed, recvRecord is unprotect; a record is skipped only in
   an open window, charged to a budget that stays below max_early_data *)
Theorem early_window_closes : forall (CS : Type) (c : Cfg) (P : Prim CS) (maxe : Z) (r r' : ESt CS) w x,
  unprotect_e c P maxe r w = ROk (r', Some x) -> es_ok r' = false /\ es_used r' = 0.
Proof.
  intros CS c P maxe r r' w x H. apply unprotect_e_inv in H. destruct H as [s1 [_ ->]]. auto.
Qed.

Theorem closed_window_is_strict : forall (CS : Type) (c : Cfg) (P : Prim CS) (maxe : Z) (r : ESt CS) w,
  es_ok r = false ->
  unprotect_e c P maxe r w =
  match unprotect c P (es_st r) w with
  | ROk (s1, x) => ROk ({| es_st := s1; es_ok := false; es_used := 0 |}, Some x)
  | RErr e => RErr e
  end.
Proof.
  intros CS c P maxe r w H. destruct w as [[hty hver] body]. unfold unprotect_e. rewrite H.
  rewrite andb_false_r. cbn [andb].
  destruct (unprotect c P (es_st r) (hty, hver, body)) as [[s1 y]|e]; [reflexivity|]. destruct e; reflexivity.
Qed.

Theorem early_skip_bounded : forall (CS : Type) (c : Cfg) (P : Prim CS) (maxe : Z) (r r' : ESt CS) w,
  unprotect_e c P maxe r w = ROk (r', None) ->
  es_ok r = true /\ es_st r' = es_st r /\ es_ok r' = true /\
  es_used r' = es_used r + zlen (snd w) /\ es_used r' < maxe.
Proof.
  intros CS c P maxe r r' w H. apply unprotect_e_inv in H. destruct H as [Hok [Hlt ->]]. cbn. auto.
Qed.

(* once closed, a stream is processed strictly: the first record that does not verify ends it *)
Theorem closed_stream_is_strict : forall (CS : Type) (c : Cfg) (P : Prim CS) (maxe : Z) (ws : list Wire) (r : ESt CS),
  es_ok r = false ->
  fst (recv_stream_e c P maxe r ws) = fst (recv_stream_strict c P (es_st r) ws).
Proof.
  intros CS c P maxe ws. induction ws as [|w ws IH]; intros r H; [reflexivity|].
  cbn [recv_stream_e recv_stream_strict]. rewrite (closed_window_is_strict CS c P maxe r w H).
  destruct (unprotect c P (es_st r) w) as [[s1 x]|e]; [|reflexivity].
  specialize (IH {| es_st := s1; es_ok := false; es_used := 0 |} eq_refl). cbn [es_st] in IH.
  destruct (recv_stream_e c P maxe {| es_st := s1; es_ok := false; es_used := 0 |} ws) as [[xs e] r2].
  destruct (recv_stream_strict c P s1 ws) as [[ys e'] s2]. cbn [fst] in *. injection IH as -> ->. reflexivity.
Qed.

(* TLS 1.3 after the handshake (allow_plaintext_alert and _middlebox_compat_mode both cleared): every
   record whose outer type is not application_data ends in a fatal alert, adds nothing to the read buffer *)
Theorem no_unprotected_after_handshake : forall (CS : Type) (R : CS -> CS -> Prop) (cr cw : Cfg) (Pr Pw : Prim CS)
    (e : Endpoint CS) hty hver body,
  mode_ok Pr R MTls13 cr -> c_plain_alert cr = false -> hty <> 23 ->
  0 <= st_seq (e_rd e) < 18446744073709551616 ->
  exists d, snd (recv_step13 false cr cw Pr Pw e (hty, hver, body)) = OLocalAlert d /\
            e_closed (fst (recv_step13 false cr cw Pr Pw e (hty, hver, body))) = true /\
            e_rbuf (fst (recv_step13 false cr cw Pr Pw e (hty, hver, body))) = e_rbuf e.
Proof.
  intros CS R cr cw Pr Pw e hty hver body Hmode Hpa H23 Hseq. pose proof (mode_tls13 Hmode) as T.
  unfold recv_step13, recv_step. rewrite (unprotect13_eq T). unfold passes_plain. rewrite Hpa. cbn [andb]. rewrite orb_false_r.
  destruct (zlen body >? c_recv_limit cr + 256); [cbn; eauto|].
  destruct (Z.eqb_spec hty 20) as [->|H20].
  - (* change_cipher_spec: passed through by recvRecord, refused by _getMsg *)
    destruct (zlen body >? c_recv_limit cr); [cbn; eauto|]. change (20 =? 23) with false. cbn [negb andb].
    destruct (zlen body =? 0); [cbn; eauto|]. cbn [existsb]. change (20 =? 20) with true. cbn. eauto.
  - rewrite (unseal13 T), next_seq_ok by exact Hseq. cbn [rbind]. destruct (c_tag cr >? zlen body); [cbn; eauto|].
    destruct (Z.eqb_spec hty 23); [contradiction|]. cbn. eauto.
Qed.

(* a rejected record closes the connection, invalidates the session and delivers nothing whether or not the
   fatal alert can be written to the transport (timeout, reset, any exception from send) *)
Theorem reject_closes_even_if_alert_unsendable : forall (CS : Type) (sendable : bool) (cr cw : Cfg) (Pr Pw : Prim CS)
    (e : Endpoint CS) (w : Wire) err,
  unprotect cr Pr (e_rd e) w = RErr err ->
  let e' := fst (recv_step_f sendable cr cw Pr Pw e w) in
  e_closed e' = true /\ e_resumable e' = false /\ e_rbuf e' = e_rbuf e /\
  (sendable = false -> e_sent e' = e_sent e).
Proof.
  intros CS sendable cr cw Pr Pw e w err. intros Hu. unfold recv_step_f, recv_step. rewrite Hu.
  destruct (alert_of err) as [d|].
  - unfold send_error. destruct sendable; cbn [fst snd e_closed e_resumable e_rbuf e_sent].
    + (* the alert is written *) repeat split. discriminate.
    + (* send raises; readAsync's catch-all runs _shutdown(False) *) repeat split.
  - (* a class _getNextRecordFromSocket does not map: _shutdown(False), no alert *)
    unfold shutdown_only. cbn [fst snd e_closed e_resumable e_rbuf e_sent]. repeat split.
Qed.

Example aead_tight_satisfiable : aead_tight (toy_prim_aead [4; 5] 16).
Proof. exact (toy_aead_tight [4; 5] 16). Qed.
Example cipher_onto_satisfiable : cipher_onto (toy_prim_stream [1; 2; 3] 20 64) eq 1.
Proof. exact (toy_stream_cipher_onto [1; 2; 3] 20 64). Qed.
Example cipher_onto_block_satisfiable : cipher_onto ex_prim_id eq 16.
Proof. exact (id_cipher_onto _ _ _ 16). Qed.
Example dec_bytes_satisfiable : dec_bytes ex_prim_id.
Proof. intros cs y H. exact H. Qed.
(* the _ideal hypotheses: only by "transparent" primitives (output contains the input) *)
Example mac_injective_ideal_satisfiable : mac_injective_ideal (transparent_prim 1).
Proof. exact (transparent_mac_injective 1). Qed.
Example mac_disjoint_ideal_satisfiable : mac_disjoint_ideal (transparent_prim 1) (transparent_prim 2).
Proof. exact (transparent_mac_disjoint 1 2 ltac:(discriminate)). Qed.
Example seal_injective_ideal_satisfiable : seal_injective_ideal (transparent_prim 1).
Proof. exact (transparent_seal_injective 1). Qed.
Example seal_disjoint_ideal_satisfiable : seal_disjoint_ideal (transparent_prim 1) (transparent_prim 2).
Proof. exact (transparent_seal_disjoint 1 2 ltac:(discriminate)). Qed.
