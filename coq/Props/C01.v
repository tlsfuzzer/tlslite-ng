(* Property C01 -- application data is delivered exactly, in order, for every suite and
   version; no record carries more plaintext than the limit in force.
   Long arguments live in Proofs/C01_*.v (the KeyUpdate ratchet: Proofs/C02_Round3.v).  Model: Model/C01_RecordPipe.v,
   contracts (hypotheses on the cipher/MAC/AEAD oracles): Spec/C01_Contracts.v.  Names of the statements defined in Proofs/:
   C01_Delivery.v (dir_run, records_of, dir_inv, flight_rel, events_of, SEQ_MAX, overhead_max), C02_Round3.v (ku_inv),
   C01_ToyOk.v (the ex_ configurations and primitives). *)
From Coq Require Import ZArith List Bool Lia.
From TV Require Import Base.Prelude Model.C01_RecordPipe Spec.C01_Contracts
  Proofs.C01_Lists Proofs.C01_Fragment Proofs.C01_RoundTrip Proofs.C01_Tls13 Proofs.C01_Delivery Proofs.C01_ToyOk
  Proofs.C01_Close Model.C02_RecordAccept Proofs.C02_Round3.
Import ListNotations.
Open Scope Z_scope.

(* fragmentation (_sendMsg) *)
Theorem fragment_concat : forall (beast : bool) (lim : Z) (data : list Z),
  concat (fragment beast lim data) = data.
Proof. exact concat_fragment. Qed.

Theorem fragment_bound : forall (beast : bool) (lim : Z) (data : list Z), 1 <= lim ->
  Forall (fun f => zlen f <= lim) (fragment beast lim data).
Proof.
  intros beast lim data Hl. eapply Forall_impl; [|apply fragment_sizes, Hl]. intros f Hf. apply Hf.
Qed.

(* empty data: exactly one empty record, as the code sends; otherwise no empty record *)
Theorem fragment_of_empty : forall (beast : bool) (lim : Z), fragment beast lim [] = [[]].
Proof.
  intros beast lim. destruct beast; reflexivity.
Qed.

Theorem fragment_no_empty_record : forall (beast : bool) (lim : Z) (data : list Z), 1 <= lim -> data <> [] ->
  Forall (fun f => f <> []) (fragment beast lim data).
Proof.
  intros beast lim data Hl Hne. eapply Forall_impl; [|apply fragment_sizes, Hl]. intros f Hf. apply Hf, Hne.
Qed.

(* recordSize = min(user limit, negotiated send limit) *)
Theorem record_size_rule : forall user sl, record_size user sl <= sl /\ record_size user sl <= user.
Proof. exact record_size_le. Qed.

(* one record through each protection path *)
Theorem unprotect_protect_stream : forall (CS : Type) (P : Prim CS) (R : CS -> CS -> Prop) (c : Cfg)
    (s r : St CS) (ty : Z) (data : list Z),
  mode_ok P R MStream c -> sync R s r -> is_byte ty = true -> zlen data <= 16384 ->
  st_seq s < 18446744073709551616 ->
  exists s' body r',
    mac_then_encrypt c P s ty data = ROk (s', body) /\
    zlen body = zlen data + ds P /\
    decrypt_stream_then_mac c P r ty body = ROk (r', data) /\
    sync R s' r' /\ st_seq s' = st_seq s + 1.
Proof. exact @stream_rt. Qed.

Theorem unprotect_protect_cbc : forall (CS : Type) (P : Prim CS) (R : CS -> CS -> Prop) (c : Cfg)
    (s r : St CS) (ty : Z) (data : list Z),
  mode_ok P R MCbc c -> sync R s r -> is_byte ty = true -> zlen data <= 16384 ->
  st_seq s < 18446744073709551616 ->
  exists s' body r',
    mac_then_encrypt c P s ty data = ROk (s', body) /\
    zlen data + ds P <= zlen body <= zlen data + ds P + 2 * c_bs c /\
    decrypt_then_mac c P r ty body = ROk (r', data) /\
    sync R s' r' /\ st_seq s' = st_seq s + 1.
Proof. exact @cbc_rt. Qed.

Theorem unprotect_protect_etm : forall (CS : Type) (P : Prim CS) (R : CS -> CS -> Prop) (c : Cfg)
    (s r : St CS) (ty : Z) (data : list Z),
  mode_ok P R MEtm c -> sync R s r -> is_byte ty = true -> zlen data <= 16384 ->
  st_seq s < 18446744073709551616 ->
  exists s' body r',
    encrypt_then_mac c P s ty data = ROk (s', body) /\
    zlen data + ds P <= zlen body <= zlen data + ds P + 2 * (if c_has_enc c then c_bs c else 0) /\
    mac_then_decrypt c P r ty body = ROk (r', data) /\
    sync R s' r' /\ st_seq s' = st_seq s + 1.
Proof. exact @etm_rt. Qed.

Theorem unprotect_protect_aead12 : forall (CS : Type) (P : Prim CS) (R : CS -> CS -> Prop) (c : Cfg)
    (s r : St CS) (ty : Z) (data : list Z),
  mode_ok P R MAead12 c -> sync R s r -> is_byte ty = true -> zlen data <= 16384 ->
  st_seq s < 18446744073709551616 ->
  exists s' body r',
    encrypt_then_seal c P s ty data = ROk (s', body) /\
    zlen data + c_tag c <= zlen body <= zlen data + c_tag c + 8 /\
    decrypt_and_unseal c P r (ty, c_ver c, body) = ROk (r', data) /\
    sync R s' r' /\ st_seq s' = st_seq s + 1.
Proof. exact @aead12_rt. Qed.

Theorem unprotect_protect_tls13 : forall (CS : Type) (P : Prim CS) (R : CS -> CS -> Prop) (c : Cfg)
    (s r : St CS) (ty : Z) (data : list Z),
  mode_ok P R MTls13 c -> sync R s r -> rec_ok c ty data -> ty <> 20 ->
  st_seq s < 18446744073709551616 ->
  exists s' w r',
    protect c P s (ty, data) = ROk (s', w) /\
    unprotect c P r w = ROk (r', (ty, data)) /\
    sync R s' r' /\ st_seq s' = st_seq s + 1 /\
    exists k, 0 <= k /\ zlen data + 1 + k <= c_send_limit c + 1 /\
              zlen (snd w) = zlen data + 1 + k + c_tag c.
Proof.
  intros CS P R c s r ty data Hmode Hsync Hrec H20 Hs.
  destruct (tls13_rt (mode_tls13 Hmode) s r ty data Hsync Hrec H20 Hs) as [s' [w [r' [[Hp Hu Hsy Hsq] Hlen]]]].
  exists s', w, r'. auto.
Qed.

(* TLS 1.3 ChangeCipherSpec: unprotected, consumes no sequence number on either side (sync is not used) *)
Theorem unprotect_protect_tls13_ccs : forall (CS : Type) (P : Prim CS) (R : CS -> CS -> Prop) (c : Cfg)
    (s r : St CS) (data : list Z),
  mode_ok P R MTls13 c -> sync R s r -> zlen data <= c_send_limit c ->
  protect c P s (20, data) = ROk (s, (20, (3, 3), data)) /\
  unprotect c P r (20, (3, 3), data) = ROk (r, (20, data)).
Proof.
  intros CS P R c s r data Hmode _ Hlen. pose proof (t_limits (mode_tls13 Hmode)) as [_ [Hl2 Hl3]].
  split.
  - rewrite (protect13_ccs (mode_tls13 Hmode)). destruct (65536 <=? zlen data) eqn:E; [lia|reflexivity].
  - rewrite (unprotect13_ccs (mode_tls13 Hmode)). destruct (zlen data >? c_recv_limit c) eqn:E; [lia|reflexivity].
Qed.

(* through the dispatchers of sendRecord / recvRecord, every mode *)
Theorem unprotect_protect : forall (CS : Type) (P : Prim CS) (R : CS -> CS -> Prop) (c : Cfg) (md : mode)
    (s r : St CS) (ty : Z) (data : list Z),
  mode_ok P R md c -> sync R s r -> rec_ok c ty data -> (md = MTls13 -> ty <> 20) ->
  st_seq s < SEQ_MAX ->
  exists s' w r',
    protect c P s (ty, data) = ROk (s', w) /\
    unprotect c P r w = ROk (r', (ty, data)) /\
    sync R s' r' /\ st_seq s' = st_seq s + 1.
Proof.
  intros CS P R c md s r ty data Hmode Hsync Hrec H20 Hs.
  destruct (protect_unprotect_len P R c md s r ty data Hmode Hsync Hrec H20 Hs) as [s' [w [r' [[Hp Hu Hsy Hsq] _]]]].
  exists s', w, r'. auto.
Qed.

(* no record on the wire carries more plaintext than the limit in force *)
Theorem wire_plaintext_le_limit : forall (CS : Type) (P : Prim CS) (R : CS -> CS -> Prop) (c : Cfg) (md : mode)
    (s r : St CS) (ty : Z) (data : list Z) (s' : St CS) (w : Wire),
  mode_ok P R md c -> sync R s r -> rec_ok c ty data -> (md = MTls13 -> ty <> 20) ->
  st_seq s < SEQ_MAX ->
  protect c P s (ty, data) = ROk (s', w) ->
  match md with
  | MTls13 => exists k, 0 <= k /\ zlen (snd w) = zlen data + 1 + k + c_tag c /\
                        zlen data + 1 + k <= c_send_limit c + 1
  | _ => zlen data <= zlen (snd w) <= zlen data + overhead_max P c md /\ zlen data <= c_send_limit c
  end.
Proof.
  intros CS P R c md s r ty data s' w Hmode Hsync Hrec H20 Hs Hp.
  destruct (protect_unprotect_len P R c md s r ty data Hmode Hsync Hrec H20 Hs) as [s2 [w2 [r' [[Hp2 _ _ _] Hlen]]]].
  rewrite Hp in Hp2. injection Hp2 as <- <-. exact Hlen.
Qed.

(* a whole connection direction under an arbitrary schedule of writes, record arrivals and
   application reads: what was written = what was read ++ what is buffered ++ what the records in
   flight carry (in this order); nothing fails before sequence numbers run out *)
Theorem stream_delivery : forall (CS : Type) (R : CS -> CS -> Prop) (md : mode) (es : list event) (d : @Dir CS),
  mode_ok (d_prim d) R md (d_cfg d) -> 1 <= d_user d ->
  dir_inv R d -> st_seq (d_snd d) + records_of d es <= SEQ_MAX ->
  let d' := dir_run d es in
  d_failed d' = false /\
  exists pl, flight_rel (d_prim d') R (d_cfg d') (d_rcv d') (d_flight d') pl (d_snd d') /\
             d_written d' = d_read d' ++ d_rbuf d' ++ pl.
Proof.
  intros CS R md es. induction es as [|e es IH]; intros d Hmode Hu Hinv Hseq; [exact Hinv|].
  destruct (dir_step_inv R md d e es Hmode Hu Hinv Hseq) as [Hmode' [Hu' [Hinv' Hseq']]].
  exact (IH _ Hmode' Hu' Hinv' Hseq').
Qed.

(* the two directions of a connection never interact *)
Theorem directions_independent : forall (CS : Type) (es : list (side * event)) (s : @Sys CS),
  sys_run s es = (dir_run (fst s) (events_of A es), dir_run (snd s) (events_of B es)).
Proof.
  intros CS es. induction es as [|[x e] es IH]; intros [da db]; [reflexivity|].
  cbn [sys_run fold_left]. fold (sys_run (sys_step (da, db) (x, e)) es). rewrite IH.
  destruct x; reflexivity.
Qed.

(* readAsync(max, min) *)
Theorem read_call_bounds : forall (mx : option Z) (mn : Z) (buf : list Z) (arr : list (list Z))
    (out b' : list Z) (rest : list (list Z)),
  read_call mx mn buf arr = (out, b', rest) ->
  exists used, arr = used ++ rest /\ out ++ b' = buf ++ concat used /\
               (match mx with Some m => 0 <= m -> zlen out <= m | None => b' = [] end) /\
               (rest <> [] -> match mx with Some m => Z.min mn m <= zlen out | None => mn <= zlen out end).
Proof.
  intros mx mn buf arr out b' rest. unfold read_call.
  destruct (fill_buffer (S (length arr)) mn true buf arr) as [b1 rest1] eqn:E.
  intros H. injection H as <- <- <-.
  destruct (fill_buffer_spec _ _ _ _ _ _ _ E) as [used [Ha [Hb Hmin]]].
  exists used. split; [exact Ha|]. split; [rewrite ztake_zdrop; exact Hb|]. split; [apply take_max_spec|].
  intros Hne. specialize (Hmin (Nat.lt_succ_diag_r _) Hne).
  destruct mx as [m|]; rewrite zlen_ztake_eq; lia.
Qed.

Theorem read_fifo : forall (calls : list (option Z * Z)) (buf : list Z) (arr : list (list Z))
    (outs : list (list Z)) (b' : list Z) (rest : list (list Z)),
  read_calls calls buf arr = (outs, b', rest) ->
  exists used, arr = used ++ rest /\ concat outs ++ b' = buf ++ concat used.
Proof.
  induction calls as [|[mx mn] cs IH]; intros buf arr outs b' rest H; cbn [read_calls] in H.
  - injection H as <- <- <-. exists []. cbn [concat app]. rewrite ?app_nil_r. auto.
  - destruct (read_call mx mn buf arr) as [[out b1] rest1] eqn:E1.
    destruct (read_calls cs b1 rest1) as [[outs2 b2] rest2] eqn:E2.
    injection H as <- <- <-.
    destruct (read_call_bounds _ _ _ _ _ _ _ E1) as [u1 [Ha1 [Hb1 _]]].
    destruct (IH _ _ _ _ _ E2) as [u2 [Ha2 Hb2]].
    exists (u1 ++ u2). split; [rewrite Ha1, Ha2, app_assoc; reflexivity|].
    cbn [concat]. rewrite <- app_assoc, Hb2, app_assoc, Hb1, concat_app, <- app_assoc. reflexivity.
Qed.

(* readAsync(max, min) with min > 1 when the peer closes (close_notify, or an abrupt close with
   ignoreAbruptClose) anywhere in the stream: returned ++ still buffered = buffered before ++ data of
   everything consumed -- the tail waiting for `min` bytes is not lost at the close *)
Theorem read_fifo_close : forall (calls : list (option Z * Z)) (buf : list Z) (cl : bool) (arr : list arrival)
    (outs : list (list Z)) (b' : list Z) (cl' : bool) (rest : list arrival),
  read_calls_c calls buf cl arr = (outs, b', cl', rest) ->
  exists used, arr = used ++ rest /\ concat outs ++ b' = buf ++ data_of used.
Proof.
  induction calls as [|[mx mn] cs IH]; intros buf cl arr outs b' cl' rest H; cbn [read_calls_c] in H.
  - injection H as <- <- <- <-. exists []. cbn [data_of app concat]. rewrite app_nil_r. auto.
  - destruct (read_call_c mx mn buf cl arr) as [[[out b1] cl1] rest1] eqn:E1.
    destruct (read_calls_c cs b1 cl1 rest1) as [[[outs2 b2] cl2] rest2] eqn:E2.
    injection H as <- <- <- <-.
    destruct (read_call_c_spec _ _ _ _ _ _ _ _ _ E1) as [u1 [Ha1 [Hb1 _]]].
    destruct (IH _ _ _ _ _ _ _ E2) as [u2 [Ha2 Hb2]].
    exists (u1 ++ u2). split; [rewrite Ha1, Ha2, app_assoc; reflexivity|].
    cbn [concat]. rewrite <- app_assoc, Hb2, app_assoc, Hb1, data_of_app, <- app_assoc. reflexivity.
Qed.

(* ... and after the close every call hands out the buffer (up to max) without reading anything *)
Theorem read_after_close_drains : forall (m mn : Z) (buf : list Z) (arr : list arrival),
  read_call_c (Some m) mn buf true arr = (ztake m buf, zdrop m buf, true, arr).
Proof.
  intros m mn buf arr. unfold read_call_c. cbn [fill_buffer_c negb]. rewrite andb_false_r. reflexivity.
Qed.

(* TLS 1.3 KeyUpdate ratchet: for EVERY sequence of KeyUpdates sent (requested or not, by either
   endpoint) and processed (with the automatic answer), at both ends the stored traffic secrets are the
   secrets of the installed keys, and each sender's write generation = the peer's read generation + the
   KeyUpdates still in flight -- so data written after any number of KeyUpdates stays readable *)
Theorem keyupdate_ratchet_in_step : forall ops : list ku_op, ku_inv (fold_left ku_step ops ku_init).
Proof. exact (fun ops => ku_run_inv ops ku_init ku_init_inv). Qed.

(* record_size_limit: what the negotiation code installs as send_record_limit *)
Theorem limit_in_force : forall (tls13 client : bool) (ext : Z),
  ext_acceptable tls13 client ext = true ->
  let sl := send_limit_after tls13 client ext in
  1 <= sl <= 16384 /\ (if tls13 then sl + 1 <= ext else sl <= ext) /\
  (ext <= (if tls13 then 16385 else 16384) -> sl <= recv_limit_after tls13 ext).
Proof.
  intros tls13 client ext Hacc. cbv zeta. unfold ext_acceptable in Hacc. unfold send_limit_after, recv_limit_after.
  destruct client.
  - (* the client takes the server's value as it is, having checked it from below and above *)
    apply andb_true_iff in Hacc. destruct Hacc as [Hlo Hhi]. apply Z.leb_le in Hlo. apply Z.leb_le in Hhi.
    destruct tls13; lia.
  - (* the server checks it from below only, and clamps it to 16384 itself *)
    apply Z.leb_le in Hacc. destruct tls13; lia.
Qed.

(* TLS <= 1.2 (RFC 8449 section 4): the negotiated limit covers protected records only -- the sender starts
   to honour it with its WRITE state switch, the receiver to enforce it with its READ state switch, so at
   every position of the stream both ends apply the same limit; unprotected handshake records (e.g. a
   NewSessionTicket before ChangeCipherSpec) are bounded by the protocol maximum only.  `own` is the
   receiver's setting, ext_sent what its extension carries to the sender; the range of `own` is not used. *)
Theorem limits_agree_at_every_position : forall (protected negotiated sender_is_client : bool) (own : Z),
  64 <= own <= 16385 ->
  send_limit_at protected negotiated sender_is_client (ext_sent sender_is_client own) =
  recv_limit_at protected negotiated own /\
  (protected = false -> send_limit_at protected negotiated sender_is_client (ext_sent sender_is_client own) = 16384).
Proof.
  intros protected negotiated sender_is_client own _. unfold send_limit_at, recv_limit_at. split.
  - (* both ends switch on the same condition; after the switch the sender applies the receiver's
       setting clamped to 16384, whichever of the two does the clamping *)
    destruct (protected && negotiated); [|reflexivity].
    unfold send_limit_after, recv_limit_after, ext_sent. destruct sender_is_client; reflexivity.
  - intros ->. reflexivity.
Qed.

(* a freshly keyed direction (nothing written, in flight, buffered or read) meets the invariant *)
Theorem fresh_direction_ok : forall (CS : Type) (R : CS -> CS -> Prop) (d : @Dir CS),
  sync R (d_snd d) (d_rcv d) -> d_flight d = [] -> d_rbuf d = [] -> d_written d = [] -> d_read d = [] ->
  d_failed d = false -> dir_inv R d.
Proof.
  intros CS R d. intros Hs Hf Hb Hw Hr Hnf. split; [exact Hnf|]. exists []. rewrite Hf, Hb, Hw, Hr. cbn. auto.
Qed.

(* the contracts are satisfiable: a concrete configuration for every protection path (AEAD twice) *)
Example stream_contract_satisfiable : mode_ok ex_prim_stream eq MStream ex_stream.
Proof.
  split; [apply ex_limits_ok; reflexivity|]. split; [apply ex_legacy_ok; [right; reflexivity|reflexivity..]|].
  split; [reflexivity|]. split; [reflexivity|]. intros _. apply toy_stream_cipher_ok.
Qed.
Example cbc_contract_satisfiable : mode_ok ex_prim_id eq MCbc ex_cbc.
Proof.
  split; [apply ex_limits_ok; reflexivity|]. split; [apply ex_legacy_ok; [left; reflexivity|reflexivity..]|].
  split; [reflexivity|]. split; [reflexivity|]. apply ex_block_ok; reflexivity.
Qed.
Example etm_contract_satisfiable : mode_ok ex_prim_id eq MEtm ex_etm.
Proof.
  split; [apply ex_limits_ok; reflexivity|]. split; [apply ex_legacy_ok; [left; reflexivity|reflexivity..]|].
  split; [reflexivity|]. intros _. apply ex_block_ok; reflexivity.
Qed.
Example gcm_contract_satisfiable : mode_ok ex_prim_id eq MAead12 ex_gcm.
Proof.
  split; [apply ex_limits_ok; reflexivity|].
  split; [reflexivity|]. split; [reflexivity|]. split; [reflexivity|]. split; [reflexivity|].
  split; [apply (id_aead_ok [4; 5] 16 ex_mac); lia|].
  split; [cbn; lia|]. split; [reflexivity|]. intros H. discriminate H.
Qed.
Example chacha_contract_satisfiable : mode_ok ex_prim_id eq MAead12 ex_chacha.
Proof.
  split; [apply ex_limits_ok; reflexivity|].
  split; [reflexivity|]. split; [reflexivity|]. split; [reflexivity|]. split; [reflexivity|].
  split; [apply (id_aead_ok [4; 5] 16 ex_mac); lia|].
  split; [cbn; lia|]. split; [reflexivity|]. intros _. reflexivity.
Qed.
Example tls13_contract_satisfiable : mode_ok ex_prim_id eq MTls13 ex_tls13.
Proof.
  split; [apply ex_limits_ok; reflexivity|].
  split; [reflexivity|]. split; [reflexivity|]. split; [reflexivity|]. split; [reflexivity|].
  split; [apply (id_aead_ok [4; 5] 16 ex_mac); lia|].
  split; [cbn; lia|]. split; [reflexivity|]. split; [cbn; lia|].
  cbn [ex_tls13 ex_cfg c_pad_cb pad_cb_ok]. intros l ty m. lia.
Qed.
