(* Property C09: the theorems.  The long arguments are in Proofs/C09_*.v; what needs only the definitions is proved here.  *)
From Coq Require Import ZArith List Bool String Lia.
From TV Require Import Base.Prelude Base.PreludeFacts Base.C09_Lib
  Gen.C09_Poly1305 Gen.C09_ChaCha Gen.C09_ChaChaPoly
  Spec.C09_Poly1305 Spec.C09_ChaCha Spec.C09_ChaChaPoly
  Base.C09_Oracle Gen.C09_KDF Model.C09_KeyCalc Spec.C09_KDF Spec.C09_KeyCalc
  Proofs.C09_Bits32 Proofs.C09_Poly1305 Proofs.C09_ChaCha Proofs.C09_ChaChaPoly Proofs.C09_KDF Proofs.C09_KeyCalc
  Gen.C09_RC4 Gen.C09_AesModes Spec.C09_Modes Proofs.C09_Modes Gen.C09_GCM Proofs.C09_GCM Proofs.C09_CBC Proofs.C09_CTR Spec.C09_AEAD Proofs.C09_GF128
  Toy.C09_ToyOracle Proofs.C09_Lists.
Import ListNotations.
Open Scope list_scope.
Open Scope Z_scope.

(* Poly1305(key).create_tag(msg), as regenerated from tlslite/utils/poly1305.py, is the RFC 8439
   tag  ((sum_i c_i r^(q-i+1) mod 2^130-5) + s) mod 2^128  for messages of ANY length; a key that
   is not 32 bytes long is refused with ValueError *)
Theorem poly1305_eq_spec : forall key msg,
  (zlen key = 32 ->
     (p <- poly_init key ;; r <- poly_create_tag p msg ;; Ok (snd r)) = Ok (poly1305 key msg)) /\
  (zlen key <> 32 ->
     (p <- poly_init key ;; r <- poly_create_tag p msg ;; Ok (snd r)) = Err ValueError).
Proof.
  intros key msg. split; intros H.
  - exact (poly_tag_ok key msg (@Ok _) H).
  - rewrite poly_init_bad by exact H. reflexivity.
Qed.

Example poly1305_rfc_vector :
  poly1305 [0x85;0xd6;0xbe;0x78;0x57;0x55;0x6d;0x33;0x7f;0x44;0x52;0xfe;0x42;0xd5;0x06;0xa8;
            0x01;0x03;0x80;0x8a;0xfb;0x0d;0xb2;0xfd;0x4a;0xbf;0xf6;0xaf;0x41;0x49;0xf5;0x1b]
           [67;114;121;112;116;111;103;114;97;112;104;105;99;32;70;111;114;117;109;32;82;101;115;101;97;114;99;104;32;71;114;111;117;112]
  = [0xa8;0x06;0x1d;0xc1;0x30;0x51;0x36;0xc6;0xc2;0x2b;0x8b;0xaf;0x0c;0x01;0x27;0xa9].
Proof. vm_compute. reflexivity. Qed.

(* the mask-and-shift expression used for every rotation is the 32-bit left rotation, on the whole
   unsigned 32-bit range *)
Theorem chacha_rot_eq_spec : forall x n, u32 x -> 0 < n < 32 ->
  Z.lor (Z.land (Z.shiftl x n) 4294967295) (Z.shiftr x (32 - n)) = rotl32 x n.
Proof. intros x n Hx Hn. apply rot_mask_shift; [exact Hx|exact Hn|lia]. Qed.

(* quarter_round on a state of 16 32-bit words = RFC 8439 2.1/2.2 QUARTERROUND *)
Theorem chacha_qr_eq_spec : forall st a b c d, st_ok st ->
  0 <= a < 16 -> 0 <= b < 16 -> 0 <= c < 16 -> 0 <= d < 16 ->
  cha_quarter_round st a b c d = Ok (quarterround st (Z.to_nat a) (Z.to_nat b) (Z.to_nat c) (Z.to_nat d))
  /\ st_ok (quarterround st (Z.to_nat a) (Z.to_nat b) (Z.to_nat c) (Z.to_nat d)).
Proof. exact cha_quarter_round_ok. Qed.

(* double_round (the unrolled copy used by chacha_block) = RFC 8439 2.3 inner_block *)
Theorem chacha_double_round_eq_spec : forall st, st_ok st ->
  cha_double_round st = Ok (inner_block st) /\ st_ok (inner_block st).
Proof. exact cha_double_round_ok. Qed.

(* chacha_block + word_to_bytearray = RFC 8439 2.3 chacha20_block, for every 32-byte key, 12-byte
   nonce and 32-bit counter *)
Theorem chacha_block_eq_spec : forall key counter nonce,
  zlen key = 32 -> all_bytes key = true -> zlen nonce = 12 -> all_bytes nonce = true -> u32 counter ->
  (ws <- cha_chacha_block (words_le key) counter (words_le nonce) 20 ;; cha_word_to_bytearray ws)
  = Ok (chacha20_block key counter nonce).
Proof. intros key counter nonce Hk Bk Hn Bn. exact (cha_block_bytes_ok key counter nonce Hk Hn Bk Bn). Qed.

(* ChaCha(key, nonce, counter).encrypt(pt) = pt XOR key stream of blocks counter, counter+1, ...
   (RFC 8439 2.4), any length incl. a partial last block, as long as the block counter stays
   within 32 bits *)
Theorem chacha_stream_eq_spec : forall key nonce counter pt,
  zlen key = 32 -> all_bytes key = true -> zlen nonce = 12 -> all_bytes nonce = true ->
  0 <= counter -> counter + (zlen pt + 63) / 64 <= 4294967296 -> all_bytes pt = true ->
  (c <- cha_init key nonce counter 20 ;; cha_encrypt c pt) = Ok (chacha20_encrypt key counter nonce pt) /\
  (c <- cha_init key nonce counter 20 ;; cha_decrypt c pt) = Ok (chacha20_encrypt key counter nonce pt).
Proof.
  intros. rewrite cha_init_ok by assumption. cbn [bind]. rewrite cha_decrypt_is_encrypt.
  split; apply cha_encrypt_ok; assumption.
Qed.

Theorem chacha_init_rejects : forall key nonce counter rounds,
  (zlen key <> 32 \/ zlen nonce <> 12) -> cha_init key nonce counter rounds = Err ValueError.
Proof.
  intros key nonce counter rounds H. unfold cha_init.
  destruct (zlen key =? 32) eqn:E1; [|reflexivity].
  destruct (zlen nonce =? 12) eqn:E2; [|reflexivity]. lia.
Qed.

Theorem chacha_decrypt_encrypt : forall key counter nonce pt,
  zlen key = 32 -> all_bytes key = true -> zlen nonce = 12 -> all_bytes nonce = true ->
  chacha20_encrypt key counter nonce (chacha20_encrypt key counter nonce pt) = pt.
Proof. intros. apply chacha20_decrypt_encrypt; assumption. Qed.

(* seal = RFC 8439 2.8: one-time key from block 0, ciphertext from counter 1, tag over
   aad | pad16 | ct | pad16 | len(aad) LE64 | len(ct) LE64 *)
Theorem chachapoly_seal_eq_spec : forall key nonce pt aad,
  key_ok key nonce -> all_bytes pt = true -> len_ok pt -> zlen aad < 2 ^ 64 ->
  cp_seal (mkChaChaPoly key) nonce pt aad = Ok (aead_seal key nonce pt aad).
Proof. exact cp_seal_ok. Qed.

Theorem chachapoly_open_eq_spec : forall key nonce c aad,
  key_ok key nonce -> all_bytes c = true -> len_ok c -> zlen aad < 2 ^ 64 ->
  cp_open (mkChaChaPoly key) nonce c aad = Ok (aead_open key nonce c aad).
Proof. exact cp_open_ok. Qed.

(* open returns p exactly for c = seal p: purely structural, no idealisation *)
Theorem chachapoly_open_iff_seal : forall key nonce c aad p,
  key_ok key nonce -> all_bytes c = true -> len_ok c -> all_bytes p = true -> len_ok p -> zlen aad < 2 ^ 64 ->
  (cp_open (mkChaChaPoly key) nonce c aad = Ok (Some p) <-> cp_seal (mkChaChaPoly key) nonce p aad = Ok c).
Proof.
  intros key nonce c aad p HK Bc Lc Bp Lp La.
  rewrite cp_open_ok, cp_seal_ok by assumption.
  pose proof (aead_open_iff_seal_spec key nonce c aad p HK) as H.
  split; intros [= E]; f_equal.
  - symmetry. apply H. exact E.
  - apply H. symmetry. exact E.
Qed.

Theorem chachapoly_open_iff_seal_rfc : forall key nonce c aad p, key_ok key nonce ->
  (aead_open key nonce c aad = Some p <-> c = aead_seal key nonce p aad).
Proof. exact aead_open_iff_seal_spec. Qed.

Example chachapoly_hyps_satisfiable :
  key_ok (repeat 7 32) (repeat 9 12) /\ len_ok (repeat 1 100) /\ st_ok (repeat 5 16).
Proof.
  split; [|split].
  - repeat split.
  - unfold len_ok. change ((zlen (repeat 1 100) + 63) / 64) with 2. lia.
  - split; [reflexivity|]. apply Forall_forall. intros x Hx. apply repeat_spec in Hx. subst x. unfold u32. lia.
Qed.

(* RFC 5869 2.3, FULL statement: wherever the RFC defines HKDF-Expand (0 <= L <= 255*HashLen, known hash) the code,
   as regenerated from tlslite/utils/cryptomath.py, returns exactly the RFC's OKM.  (Rests on /repo commit 36a7b62
   "fix: HKDF_expand must not compute one block too many": the code without it raises ValueError for
   254*HashLen < L <= 255*HashLen.) *)
Theorem hkdf_expand_eq_rfc : forall Orc alg prk info L okm,
  hkdf_expand_rfc Orc alg prk info L = Some okm -> HKDF_expand Orc prk info L alg = Ok okm.
Proof.
  intros Orc alg prk info L okm H. pose proof H as H0. unfold hkdf_expand_rfc in H0.
  destruct (digest_size alg) as [hl|] eqn:Hd; [|discriminate]. destruct (0 <=? L) eqn:HL; [|discriminate].
  rewrite (HKDF_expand_eq Orc alg prk info hl), H by (assumption || lia). reflexivity.
Qed.

(* and beyond the RFC's range it refuses *)
Theorem hkdf_expand_refuses_beyond_rfc : forall Orc alg prk info L hl,
  digest_size alg = Some hl -> 255 * hl < L ->
  hkdf_expand_rfc Orc alg prk info L = None /\ HKDF_expand Orc prk info L alg = Err ValueError.
Proof.
  intros Orc alg prk info L hl Hd HL. pose proof (digest_size_pos alg hl Hd).
  assert (E : hkdf_expand_rfc Orc alg prk info L = None).
  { unfold hkdf_expand_rfc. rewrite Hd. destruct ((0 <=? L) && (L <=? 255 * hl)) eqn:E; [lia|reflexivity]. }
  split; [exact E|]. rewrite (HKDF_expand_eq Orc alg prk info hl), E by (assumption || lia). reflexivity.
Qed.

(* HKDF-Expand-Label (RFC 8446 7.1 HkdfLabel layout), Derive-Secret and the TLS 1.3 traffic keys (7.3): full *)
Theorem hkdf_expand_label_eq_rfc : forall Orc alg secret label context length okm,
  hkdf_expand_label_rfc Orc alg secret label context length = Some okm ->
  HKDF_expand_label Orc secret label context length alg = Ok okm.
Proof.
  intros Orc alg secret label context length okm H. unfold hkdf_expand_label_rfc in H.
  (* the code's test, as hkdf_label_bytes_eq spells it, is the RFC's in H *)
  unfold HKDF_expand_label. rewrite hkdf_label_bytes_eq. destruct (_ && _); [|discriminate H].
  apply hkdf_expand_eq_rfc, H.
Qed.

Theorem hkdf_expand_label_refuses_rest : forall Orc alg hl secret label context length,
  digest_size alg = Some hl ->
  hkdf_expand_label_rfc Orc alg secret label context length = None ->
  exists e, HKDF_expand_label Orc secret label context length alg = Err e.
Proof.
  intros Orc alg hl secret label context length Hd H. exists ValueError.
  rewrite (HKDF_expand_label_eq Orc alg hl), H by exact Hd. reflexivity.
Qed.

Theorem derive_secret_eq_rfc : forall Orc alg hl secret label messages okm,
  digest_size alg = Some hl ->
  derive_secret_rfc Orc alg secret label messages = Some okm ->
  derive_secret Orc secret label (Some messages) alg = Ok okm /\
  (messages = [] -> derive_secret Orc secret label None alg = Ok okm).
Proof.
  intros Orc alg hl secret label messages okm Hd H. unfold derive_secret_rfc in H. rewrite Hd in H.
  unfold derive_secret, py_digest_size. rewrite Hd.
  split; [|intros ->]; cbn [bind]; rewrite (HKDF_expand_label_eq Orc alg hl), H by exact Hd; reflexivity.
Qed.

Theorem tls13_traffic_keys_eq_rfc : forall Orc (sha384 : bool) secret keyLen k iv,
  traffic_keys_rfc Orc (if sha384 then "sha384" else "sha256")%string secret keyLen = Some (k, iv) ->
  tls13_traffic_keys Orc secret keyLen sha384 = Ok (k, iv).
Proof.
  intros Orc sha384 secret keyLen k iv. unfold traffic_keys_rfc, tls13_traffic_keys.
  change (bytes_of_string "key") with (ascii_bytes "key"). change (bytes_of_string "iv") with (ascii_bytes "iv").
  set (alg := (if sha384 then "sha384" else "sha256")%string).
  assert (Hd : digest_size alg = Some (if sha384 then 48 else 32)) by (destruct sha384; reflexivity).
  rewrite !(HKDF_expand_label_eq Orc alg _ _ _ _ _ Hd).
  destruct (hkdf_expand_label_rfc Orc alg secret (ascii_bytes "key") [] keyLen) as [k'|]; [|discriminate].
  destruct (hkdf_expand_label_rfc Orc alg secret (ascii_bytes "iv") [] 12) as [iv'|]; [|discriminate].
  intros [= -> ->]. reflexivity.
Qed.

(* P_hash (RFC 5246 5) for every output length, any hash whose HMAC has the declared size *)
Theorem p_hash_eq_rfc : forall Orc alg secret seed ds len,
  digest_size alg = Some ds -> (forall msg, zlen (o_hmac Orc alg secret msg) = ds) -> 0 <= len ->
  P_hash Orc alg secret seed len = Ok (p_hash_rfc Orc alg ds secret seed len).
Proof. exact P_hash_ok. Qed.

(* TLS 1.0/1.1 PRF: halves of the secret share the middle byte for odd lengths; MD5 xor SHA-1 *)
Theorem prf_tls10_split : forall Orc, oracle_ok Orc -> forall secret label seed len, 0 <= len ->
  PRF Orc secret label seed len = Ok (prf10_rfc Orc secret label seed len).
Proof. exact PRF_ok. Qed.

Theorem prf_tls12_eq_rfc : forall Orc, oracle_ok Orc -> forall secret label seed len, 0 <= len ->
  PRF_1_2 Orc secret label seed len = Ok (prf12_rfc Orc "sha256" 32 secret label seed len) /\
  PRF_1_2_SHA384 Orc secret label seed len = Ok (prf12_rfc Orc "sha384" 48 secret label seed len).
Proof. intros Orc HO secret label seed len Hl. split; [apply PRF_1_2_ok|apply PRF_1_2_SHA384_ok]; assumption. Qed.

Theorem prf_ssl_eq_spec : forall Orc secret seed n, hash_ok Orc -> 0 <= n <= 416 ->
  PRF_SSL Orc secret seed n = Ok (prf_ssl_rfc Orc secret seed n).
Proof. exact PRF_SSL_ok. Qed.

(* calc_key: total on the table (4 versions x 2 PRF hashes x 5 labels, EMS undefined for SSLv3) and equal to
   the RFC 6101 / 2246 / 4346 / 5246 / 7627 definitions; everything else is refused.  Stated with all four optional
   arguments present; a row reads only those its purpose needs (tlslite's calls give the transcript or the randoms, never both) *)
Theorem calc_key_dispatch : forall Orc version sha384 p secret messages cr sr n,
  oracle_ok Orc -> hash_ok Orc ->
  In version [(3, 0); (3, 1); (3, 2); (3, 3)] -> 0 <= n ->
  (version = (3, 0) -> p <> ExtMasterSecret /\ n <= 416) ->
  calc_key Orc version secret sha384 (purpose_label p) (Some messages) (Some cr) (Some sr) (Some n)
  = Ok (calc_key_rfc Orc version sha384 p secret messages cr sr n).
Proof.
  (* a row of the table is a version; in it a case per purpose *)
  intros Orc version sha384 p secret messages cr sr n HO HH Hv Hn H30. unfold calc_key. injection (label_tests p) as -> -> -> -> ->.
  unfold calc_key_rfc. cbn [In] in Hv.
  destruct Hv as [<-|[<-|[<-|[<-|[]]]]]; cbn [pairZ_eqb fst snd Z.eqb Pos.eqb andb orb].
  - (* SSLv3: the Finished values are computed in place, key block and master secret by PRF_SSL *)
    destruct (H30 eq_refl) as [Hp Hn2].
    destruct p; cbn [purpose_eqb orb need bind].
    + (* MasterSecret *) apply PRF_SSL_ok; [exact HH|lia].
    + (* ExtMasterSecret *) contradiction Hp; reflexivity.
    + (* KeyExpansion *) apply PRF_SSL_ok; [exact HH|lia].
    + (* ClientFinished *) reflexivity.
    + (* ServerFinished *) reflexivity.
  - (* TLS 1.0 *) destruct p; cbn [purpose_eqb orb need bind]; apply (PRF_ok Orc HO), Hn.
  - (* TLS 1.1 *) destruct p; cbn [purpose_eqb orb need bind]; apply (PRF_ok Orc HO), Hn.
  - (* TLS 1.2 *) destruct sha384; [destruct p; cbn [purpose_eqb orb need bind]; apply (PRF_1_2_SHA384_ok Orc HO), Hn|
                      destruct p; cbn [purpose_eqb orb need bind]; apply (PRF_1_2_ok Orc HO), Hn].
Qed.

Theorem calc_key_refuses_rest : forall Orc version secret sha384 label hh cr sr n,
  (~ In version [(3, 0); (3, 1); (3, 2); (3, 3)] \/
   (forall p, label <> purpose_label p) \/
   (version = (3, 0) /\ label = purpose_label ExtMasterSecret)) ->
  calc_key Orc version secret sha384 label hh cr sr n = Err AssertionError.
Proof.
  intros Orc version secret sha384 label hh cr sr n H. unfold calc_key.
  destruct H as [Hv|[Hlbl|[-> ->]]]; [| |reflexivity].
  - assert (F : forall w, In w [(3, 0); (3, 1); (3, 2); (3, 3)] -> pairZ_eqb version w = false).
    { intros w Hw. destruct (pairZ_eqb version w) eqn:E; [|reflexivity]. apply pairZ_eqb_spec in E. subst w. contradiction. }
    rewrite !F by (cbn [In]; auto 6). reflexivity.
  - assert (F : forall q, list_eqb label (purpose_label q) = false).
    { intros q. destruct (list_eqb label (purpose_label q)) eqn:E; [|reflexivity]. apply list_eqb_spec in E. destruct (Hlbl q E). }
    rewrite (F ClientFinished : list_eqb label L_cf = false), (F ServerFinished : list_eqb label L_sf = false),
            (F KeyExpansion : list_eqb label L_ke = false), (F MasterSecret : list_eqb label L_ms = false),
            (F ExtMasterSecret : list_eqb label L_ems = false).
    cbn [orb]. destruct (pairZ_eqb version (3, 0)); [reflexivity|].
    destruct (pairZ_eqb version (3, 1) || pairZ_eqb version (3, 2)); [reflexivity|].
    destruct (pairZ_eqb version (3, 3)); reflexivity.
Qed.

(* the six slices partition the key block in RFC 5246 6.3 order and swap with the role *)
Theorem key_block_slicing : forall kb m k i, 0 <= m -> 0 <= k -> 0 <= i -> 2 * m + 2 * k + 2 * i <= zlen kb ->
  exists s, slice_key_block kb m k i = Ok s /\
    [ks_client_mac s; ks_server_mac s; ks_client_key s; ks_server_key s; ks_client_iv s; ks_server_iv s]
      = key_block_partition kb (Z.to_nat m) (Z.to_nat k) (Z.to_nat i) /\
    ks_client_mac s ++ ks_server_mac s ++ ks_client_key s ++ ks_server_key s ++ ks_client_iv s ++ ks_server_iv s
      = firstn (Z.to_nat (2 * m + 2 * k + 2 * i)) kb /\
    zlen (ks_client_mac s) = m /\ zlen (ks_server_mac s) = m /\ zlen (ks_client_key s) = k /\
    zlen (ks_server_key s) = k /\ zlen (ks_client_iv s) = i /\ zlen (ks_server_iv s) = i.
Proof.
  intros kb m k i Hm Hk Hi Hl. unfold slice_key_block.
  do 6 (rewrite take_ok, bind_of_Ok by (unfold zlen in *; rewrite ?skipn_length; lia)).
  eexists. split; [reflexivity|]. cbn [ks_client_mac ks_server_mac ks_client_key ks_server_key ks_client_iv ks_server_iv].
  rewrite !skipn_add. split; [|split].
  - unfold key_block_partition.
    replace (2 * Z.to_nat m)%nat with (Z.to_nat m + Z.to_nat m)%nat by lia.
    replace (2 * Z.to_nat k)%nat with (Z.to_nat k + Z.to_nat k)%nat by lia. rewrite !Nat.add_assoc. reflexivity.
  - replace (Z.to_nat (2 * m + 2 * k + 2 * i))
      with (Z.to_nat m + (Z.to_nat m + (Z.to_nat k + (Z.to_nat k + (Z.to_nat i + Z.to_nat i)))))%nat by lia.
    rewrite !firstn_add, !skipn_add. reflexivity.
  - unfold zlen in *. repeat split; rewrite firstn_length, ?skipn_length; lia.
Qed.

Theorem key_block_role_swap : forall s,
  pending_states true s = ((ks_client_mac s, ks_client_key s, ks_client_iv s), (ks_server_mac s, ks_server_key s, ks_server_iv s)) /\
  pending_states false s = (snd (pending_states true s), fst (pending_states true s)).
Proof. split; reflexivity. Qed.

Example kdf_oracle_hyps_satisfiable : oracle_ok toy_oracles /\ hash_ok toy_oracles.
Proof.
  split.
  - intros alg ds key msg Hd. unfold toy_oracles. cbn [o_hmac]. unfold toy_ds. rewrite Hd.
    split; [|apply Toy.ToyMac.toy_mac_bytes]. apply Toy.ToyMac.toy_mac_length. pose proof (digest_size_pos alg ds Hd). lia.
  - intros alg ds data Hd. unfold toy_oracles. cbn [o_hash]. unfold toy_ds. rewrite Hd.
    apply Toy.ToyMac.toy_mac_length. pose proof (digest_size_pos alg ds Hd). lia.
Qed.

(* Python_RC4(key) computes the standard key schedule; encrypt = XOR with the RC4 key stream, threading
   the generator state (S, i, j).  (That the key consists of bytes is not used by the proof of rc4_init_eq_spec: the schedule
   reduces mod 256.) *)
Theorem rc4_init_eq_spec : forall key, 16 <= zlen key <= 256 -> Forall (fun x => 0 <= x < 256) key ->
  rc4_init key = Ok (mkRC4 (rc4_ksa key) 0 0) /\ rc4_state_ok (rc4_ksa key, 0, 0).
Proof. intros key Hk _. exact (rc4_init_ok key Hk). Qed.

Theorem rc4_encrypt_eq_spec : forall st pt,
  rc4_state_ok (rc4_S st, rc4_i st, rc4_j st) -> Forall (fun x => 0 <= x < 256) pt ->
  rc4_encrypt st pt =
  let '((S', i', j'), out) := rc4_crypt (rc4_S st, rc4_i st, rc4_j st) pt in Ok (mkRC4 S' i' j', out).
Proof. exact rc4_encrypt_ok. Qed.

(* enc (a ++ b) = enc a ++ enc' b with the state threaded through the object *)
Theorem rc4_stream_split : forall st a b, rc4_state_ok (rc4_S st, rc4_i st, rc4_j st) ->
  Forall (fun x => 0 <= x < 256) a -> Forall (fun x => 0 <= x < 256) b ->
  ('(st1, c1) <- rc4_encrypt st a ;; '(st2, c2) <- rc4_encrypt st1 b ;; Ok (st2, c1 ++ c2)) = rc4_encrypt st (a ++ b).
Proof.
  intros st a b Hst Ha Hb. rewrite (rc4_encrypt_ok st (a ++ b) Hst) by (apply Forall_app; split; assumption).
  rewrite rc4_crypt_app. rewrite (rc4_encrypt_ok st a) by assumption.
  destruct (rc4_crypt_state_ok (rc4_S st, rc4_i st, rc4_j st) a Hst) as [Hst1 _].
  destruct (rc4_crypt (rc4_S st, rc4_i st, rc4_j st) a) as [[[S1 i1] j1] c1]. cbn [fst] in Hst1. cbn [bind].
  rewrite (rc4_encrypt_ok (mkRC4 S1 i1 j1) b) by assumption. cbn [rc4_S rc4_i rc4_j].
  destruct (rc4_crypt (S1, i1, j1) b) as [[[S2 i2] j2] c2]. reflexivity.
Qed.

(* decrypt o encrypt = id for two objects in the same state, and they stay in the same state *)
Theorem rc4_decrypt_encrypt : forall st pt,
  rc4_state_ok (rc4_S st, rc4_i st, rc4_j st) -> Forall (fun x => 0 <= x < 256) pt ->
  exists st' ct, rc4_encrypt st pt = Ok (st', ct) /\ rc4_decrypt st ct = Ok (st', pt).
Proof.
  intros st pt Hst Hp. rewrite (rc4_encrypt_ok st pt) by assumption.
  destruct (rc4_crypt_state_ok (rc4_S st, rc4_i st, rc4_j st) pt Hst) as [_ Hc].
  pose proof (rc4_crypt_involutive (rc4_S st, rc4_i st, rc4_j st) pt) as I.
  destruct (rc4_crypt (rc4_S st, rc4_i st, rc4_j st) pt) as [[[S1 i1] j1] ct]. cbn [fst snd] in *.
  exists (mkRC4 S1 i1 j1), ct. split; [reflexivity|].
  rewrite rc4_decrypt_is_encrypt, (rc4_encrypt_ok st ct Hst (Hc Hp)), I. reflexivity.
Qed.

(* CBC (SP 800-38A 6.2) over ANY block function E with left inverse D on bs-byte blocks.  These two are
   statements about Spec.C09_Modes.cbc_*_blocks; cbc_eq_spec below ties them to the generated Python_AES code,
   the correspondence ties them to Python_TripleDES *)
Theorem cbc_dec_enc : forall (E D : list Z -> list Z) (bs : nat), (0 < bs)%nat ->
  (forall b, List.length b = bs -> D (E b) = b) -> (forall b, List.length b = bs -> List.length (E b) = bs) ->
  forall blocks iv, blocks_ok bs blocks -> List.length iv = bs ->
    let '(iv1, ct) := cbc_enc_blocks E iv blocks in
    List.length ct = (bs * List.length blocks)%nat /\ List.length iv1 = bs /\
    cbc_dec_blocks D iv (chunks bs ct) = (iv1, List.concat blocks).
Proof.
  intros E D bs bs_pos DE Elen. induction blocks as [|p blocks IH]; intros iv Hb Hiv.
  - cbn [cbc_enc_blocks]. split; [cbn; lia|]. split; [exact Hiv|]. reflexivity.
  - apply Forall_cons_iff in Hb as [Hp Hb']. cbn [cbc_enc_blocks].
    set (c := E (xorb p iv)).
    assert (Lx : List.length (xorb p iv) = bs) by (rewrite xorb_eq, xor_bytes_length; lia).
    assert (Lc : List.length c = bs) by (apply Elen; exact Lx).
    specialize (IH c Hb' Lc). destruct (cbc_enc_blocks E c blocks) as [iv1 out].
    destruct IH as (L1 & L2 & IH).
    split; [rewrite app_length, L1, Lc; cbn [List.length]; lia|]. split; [exact L2|].
    rewrite chunks_cons_exact by assumption. cbn [cbc_dec_blocks List.concat]. rewrite IH. unfold c.
    rewrite DE by exact Lx. rewrite xorb_eq, xor_bytes_involutive by lia. reflexivity.
Qed.

(* IV residue across calls: encrypting b1 then b2 with the carried chaining value = encrypting b1 ++ b2 *)
Theorem cbc_stream_split : forall (E D : list Z -> list Z) b1 b2 iv,
  cbc_enc_blocks E iv (b1 ++ b2) =
    (let '(iv1, c1) := cbc_enc_blocks E iv b1 in let '(iv2, c2) := cbc_enc_blocks E iv1 b2 in (iv2, c1 ++ c2)) /\
  cbc_dec_blocks D iv (b1 ++ b2) =
    (let '(iv1, c1) := cbc_dec_blocks D iv b1 in let '(iv2, c2) := cbc_dec_blocks D iv1 b2 in (iv2, c1 ++ c2)).
Proof.
  intros E D b1 b2 iv. split.
  - exact (cbc_scan_app (fun p iv => (E (xorb p iv), E (xorb p iv))) _ (fun _ => eq_refl) (fun _ _ _ => eq_refl) b1 b2 iv).
  - exact (cbc_scan_app (fun c iv => (xorb (D c) iv, c)) _ (fun _ => eq_refl) (fun _ _ _ => eq_refl) b1 b2 iv).
Qed.

(* Multi-call streaming state of CTR, FULL statement: on one Python_AES_CTR object (counter filling the whole
   block: ctr_init with a 16-byte IV, the objects inside AES-GCM/CCM) enc(a) followed by enc(b) = enc(a ++ b), for ANY
   split offset, with the (counter, unused key stream) state threaded through the object; any block-cipher oracle.
   (Rests on /repo commit de57de0 "fix: Python_AES_CTR must keep unused key stream between calls": on the code without it
   the equation fails for every split inside a block.) *)
Theorem ctr_stream_split : forall O key,
  (forall b, List.length (bo_enc O key b) = 16%nat) -> (forall k b, all_bytes (bo_enc O k b) = true) ->
  forall iv t0 ks a b, List.length t0 = 16%nat -> all_bytes ks = true -> all_bytes a = true -> all_bytes b = true ->
  ('(st1, c1) <- ctr_encrypt O (mkAESCTR key iv 0 t0 ks) a ;; '(st2, c2) <- ctr_encrypt O st1 b ;; Ok (st2, c1 ++ c2))
  = ctr_encrypt O (mkAESCTR key iv 0 t0 ks) (a ++ b).
Proof. intros O key Elen. apply ctr_stream_split_code. intros b _. apply Elen. Qed.

(* assigning the `counter` property drops the unused key stream: AES-GCM and AES-CCM do this for every record, so a
   record never sees key stream left over from the previous one *)
Theorem ctr_set_counter_drops_keystream : forall O st c,
  ctr_set_counter O st c = mkAESCTR (ctr_rijndael st) (ctr_IV st) (ctr__counter_bytes st) c [].
Proof. reflexivity. Qed.

Example ctr_stream_split_example :
  ctr_two_calls toy_block_oracle [1;2;3;4;5;6;7;8;9;10;11;12;13;14;15;16] [10;20;30;40;50;60;70;80;90;100;110;120;130;140;150;160]
                [1; 2; 3; 4; 5] [6; 7; 8; 9; 10; 11; 12]
  = ctr_one_call toy_block_oracle [1;2;3;4;5;6;7;8;9;10;11;12;13;14;15;16] [10;20;30;40;50;60;70;80;90;100;110;120;130;140;150;160]
                [1; 2; 3; 4; 5] [6; 7; 8; 9; 10; 11; 12].
Proof. vm_compute. reflexivity. Qed.

(* two encryptions from the same counter state give the data back (generated Python_AES_CTR.encrypt, any
   block-cipher oracle that returns bytes): the basis of the AES-GCM round trip below.  The two hypotheses on the oracle and on
   the left-over key stream say what these stand for; the proof does not use them: that c consists of bytes it has from the
   success of the call *)
Theorem ctr_encrypt_involution : forall O, (forall k b, all_bytes (bo_enc O k b) = true) ->
  forall st m st1 c, all_bytes (ctr__keystream st) = true -> all_bytes m = true -> ctr_encrypt O st m = Ok (st1, c) ->
  ctr_encrypt O st c = Ok (st1, m) /\ zlen c = zlen m /\ all_bytes c = true.
Proof. intros O _ st m st1 c _. apply ctr_involution. Qed.

(* AESGCM.open returns p exactly for the outputs of AESGCM.seal on p (same object, nonce, AAD): purely
   structural -- holds for every block-cipher oracle, nothing about GHASH or AES is assumed (that the oracle returns bytes says
   what it stands for; the proof does not use it) *)
Theorem gcm_open_iff_seal : forall O, (forall k b, all_bytes (bo_enc O k b) = true) ->
  forall g nonce c a p, all_bytes c = true -> all_bytes p = true ->
  (exists g1, gcm_open O g nonce c a = Ok (g1, Some p)) <-> (exists g2, gcm_seal O g nonce p a = Ok (g2, c)).
Proof. intros O _ g nonce c a p Bc Bp. split; intros [g' H]; exists g'; apply (gcm_open_iff_seal_code O g nonce c a p g' Bc Bp), H. Qed.

(* the generated Python_AES (CBC) wrapper = SP 800-38A CBC over the block oracle, incl. the IV left in the object for the
   next call; lengths that are not a multiple of 16 are refused *)
Theorem cbc_eq_spec : forall O key iv data,
  (forall b, List.length b = 16%nat -> List.length (bo_enc O key b) = 16%nat /\ all_bytes (bo_enc O key b) = true) ->
  (forall b, List.length b = 16%nat -> List.length (bo_dec O key b) = 16%nat /\ all_bytes (bo_dec O key b) = true) ->
  blk_ok iv -> all_bytes data = true -> zlen data mod 16 = 0 ->
  cbc_encrypt O (mkAESCBC key iv) data =
    (let '(iv', ct) := cbc_encrypt_spec (bo_enc O key) 16 iv data in Ok (mkAESCBC key iv', ct)) /\
  cbc_decrypt O (mkAESCBC key iv) data =
    (let '(iv', pt) := cbc_decrypt_spec (bo_dec O key) 16 iv data in Ok (mkAESCBC key iv', pt)).
Proof. intros. split; [apply cbc_encrypt_ok|apply cbc_decrypt_ok]; assumption. Qed.

Theorem cbc_refuses_partial_blocks : forall O st data, zlen data mod 16 <> 0 ->
  cbc_encrypt O st data = Err AssertionError /\ cbc_decrypt O st data = Err AssertionError.
Proof.
  intros O st data H. unfold cbc_encrypt, cbc_decrypt, aes_base_encrypt, aes_base_decrypt.
  destruct (zlen data mod 16 =? 0) eqn:E; [lia|]. split; reflexivity.
Qed.

(* one call of the generated Python_AES_CTR.encrypt on an object whose 16-byte counter block has just been set (how
   AES-GCM and AES-CCM use it, and ctr_init with a 16-byte IV) = SP 800-38A 6.5 CTR with the standard incrementing
   function; the object keeps the next counter block.  (Objects created with a shorter IV additionally raise OverflowError
   when the counter part becomes all ones: not covered.) *)
Theorem ctr_eq_spec : forall O key,
  (forall b, List.length (bo_enc O key b) = 16%nat) -> (forall k b, all_bytes (bo_enc O k b) = true) ->
  forall iv t0 m, List.length t0 = 16%nat -> all_bytes m = true ->
  ctr_encrypt O (mkAESCTR key iv 0 t0 []) m =
  Ok (mkAESCTR key iv 0 (Nat.iter (Z.to_nat ((zlen m + 15) / 16)) ctr_inc t0)
               (skipn (List.length m) (ctr_blocks (bo_enc O key) t0 (Z.to_nat ((zlen m + 15) / 16)))),
      ctr_crypt_spec (bo_enc O key) 16 t0 m).
Proof.
  (* the instance of ctr_encrypt_run with no left-over key stream *)
  intros O key Elen Ebytes iv t0 m Lt Bm. rewrite (ctr_encrypt_run O key (fun b _ => Elen b) Ebytes iv t0 [] m Lt eq_refl Bm).
  unfold ctr_fresh, ctr_crypt_spec. change (zlen (@nil Z)) with 0. change (Z.of_nat 16) with 16. rewrite Z.sub_0_r.
  replace (zlen m + 16 - 1) with (zlen m + 15) by lia. reflexivity.
Qed.

(* gcm_mul_eq_gf128: for every object produced by AESGCM.__init__ (any key, any block-cipher oracle returning a
   16-byte block for the zero block) the 4-bit table multiply _mul(y) is the SP 800-38D 6.3 product y . H in GF(2^128),
   H = AES_K(0^128), for every 128-bit y.  Ingredients proved in Proofs/C09_GF128.v: multiplication by x is XOR-linear,
   the 16-entry reduction table step = multiplication by x^4 (16 cases by vm_compute + linearity), the 16-entry product
   table built by __init__ (symbolic evaluation) holds the products of the 4-bit polynomials with H.  The hypothesis on the
   oracle's answer to the zero block says what the oracle stands for; the proof does not use it: be_num reads any list. *)
Theorem gcm_mul_eq_gf128 : forall O key impl raw g y,
  (List.length (bo_enc O key (repeat 0 16)) = 16%nat /\ all_bytes (bo_enc O key (repeat 0 16)) = true) ->
  gcm_init O key impl raw = Ok g -> 0 <= y < 2 ^ 128 ->
  gcm_mul O g y = Ok (gf128_mul y (be_num (bo_enc O key (repeat 0 16)))).
Proof.
  (* gcm_init_table says bytesToNumber, which is be_num, and gcm_mul_table says W128, which is 2 ^ 128: both by definition *)
  intros O key impl raw g y _ Hi Hy. exact (gcm_mul_table O g _ (gcm_init_table O key impl raw g Hi) y Hy).
Qed.
