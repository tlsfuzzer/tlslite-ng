(* C08: program points of the translated hello regions at which the faithful model CAN crash
   (each one is a finding, see Props/C08.v and design/C08.md).  The partial
   crash-freedom theorems say: no crash anywhere else. *)
From Coq Require Import List String.
Import ListNotations.
Open Scope string_scope.

(* _serverGetClientHello, ClientHello well-formedness checks.
   Before the fixes b10bb95 (AlertDescription.decoder_error -> decode_error) and 5fb1773 (empty
   supported_versions => decode_error) of /repo this list was
     [ "AlertDescription.decoder_error#1"; "AlertDescription.decoder_error#2";
       "iter:ext.versions#1"; "in:ver_ext.versions#1" ]
   (each site with a witness replayed on the live server).  None is reachable any more. *)
Definition ch_known_sites : list string := [].

(* _clientGetServerHello, ServerHello checks: none known *)
Definition sh_known_sites : list string := [].

(* _serverGetClientHello, key_share checks of the SECOND ClientHello after a HelloRetryRequest.
   Before /repo 79180d8 (proposed fix C08-17) this list was [ "len:ext.client_shares#1" ]: a
   key_share extension with an EMPTY BODY parses to client_shares = None and `len(None)` raised
   TypeError.  Not reachable any more. *)
Definition hrr_ch_known_sites : list string := [].

(* _clientGetServerHello, handling of a HelloRetryRequest: none known *)
Definition hrr_sh_known_sites : list string := [].
